(* C09 — Lexer tables implement longest match with rule priority.
   Models: Lex/Scan.v (lex.Tables.Scan with the end-of-input loop, the automaton encoded by the tables, the
   checkpoint validator), Lex/Deriv.v (derivative-based specification used as the oracle). *)
From Coq Require Import List ZArith Lia.
From TM Require Import Lex.Tables Lex.Scan Lex.Scan_proofs Lex.Deriv Lex.DerivSem Lex.Deriv_proofs Lex.Deriv_scan_proofs Lex.Bisim Lex.Bisim_proofs.
Import ListNotations.
Local Open Scope Z_scope.

(* scan_is_longest, validator form.  For EVERY table set accepted by the boolean validator check_tables (evaluated
   on the real output of lex.Compile on every run), every start condition and EVERY non-empty text: Scan — with its
   checkpoint cells, the (size, action) registers and the `size > 0` test — returns exactly what the reference run
   returns: follow the automaton read off the tables (move), remember the last position at which the current state
   carried an accepting label, and when no move is possible answer that position and label, else (position reached,
   action 0).  End-of-input moves are followed as long as there are any (F6: the pinned Scan took one). *)
Theorem C09_scan_is_longest : forall t, check_tables t = true ->
  forall sc text, In (nthZ (state_map t) sc) (state_map t) -> text <> [] ->
  scanF t sc text = longest_accept t sc text.
Proof. exact scan_is_longest. Qed.

(* what the validator establishes for every cell *)
Theorem C09_validated_cells : forall t, check_tables t = true ->
  0 < num_symbols t /\ 0 < nstates t /\
  (forall s y, 0 <= s < nstates t -> 0 <= y < num_symbols t -> cell_ok t s y = true) /\
  (forall s, In s (state_map t) -> 0 <= s < nstates t /\ label t s = 0) /\
  (forall r, 0 <= lookup_sym (symbol_map t) r < num_symbols t).
Proof. exact chk_parts. Qed.

(* The specification matcher (the oracle of the correspondence) is correct.
   `matches r w` (DerivSem.v) is the declarative semantics of a symbol-level expression over words of input symbols
   (code points or bytes; {eoi} is the symbol -1): literals and classes match one symbol of the set, Cat splits the word,
   Alt chooses, Rep{mn,mx} is a concatenation of k copies with mn <= k and (mx < 0 or k <= mx) (for the ill-formed
   bounds 0 <= mx < mn: exactly mx copies, which is what the matcher does).  `lang` is the same as a recursive function. *)
Theorem C09_matches_is_lang : forall r w, matches r w <-> lang r w.
Proof. exact matches_iff_lang. Qed.

Theorem C09_nullable_correct : forall r, nullable r = true <-> matches r [].
Proof. exact nullable_correct. Qed.

Theorem C09_deriv_correct : forall r c w, matches (deriv c r) w <-> matches r (c :: w).
Proof. exact deriv_correct. Qed.

Theorem C09_nonvoid_correct : forall r, nonvoid r = true <-> exists w, matches r w.
Proof. exact nonvoid_correct. Qed.

(* the matcher as a whole: a word is matched iff the iterated derivative is nullable *)
Theorem C09_derivs_nullable : forall r w, nullable (derivs w r) = true <-> matches r w.
Proof. exact derivs_nullable. Qed.

(* the translation rx_of of the parsed AST (RegexParse.re, as dumped from the implementation's own parser) denotes the
   language of the AST: a literal is its code point (or byte) sequence, a class one member, RCat/RAlt/RRep as above,
   {eoi} the end marker, any other unresolved reference nothing *)
Theorem C09_rx_of_correct : forall r w, matches (rx_of r) w <-> re_lang r w.
Proof. exact rx_of_matches. Qed.

(* spec_scan_correct.  Let l = symbols bytes text be the (symbol, width) sequence the text decodes into, word l i k the
   first i symbols followed by k end markers, a CANDIDATE any (i, k) with i <= |l|, k <= 4 and k = 0 unless i = |l|
   (the end marker is offered only at the end of the text, at most four times), offs i l the byte offset after i symbols.
   For EVERY rule set (expression, action, precedence) and text, the oracle's answer is
   either (offs i l, a) where (i, k) is the LONGEST candidate matched by some rule and a is the action of the rule with
     the highest precedence among the rules matching that candidate (the earliest such rule among equals),
   or, when no candidate is matched by any rule, (offs m l, 0) where m is the largest number of symbols such that m = 0 or
     some rule matches an extension of the first m symbols (the invalid token spans the longest viable prefix). *)
Theorem C09_spec_scan_correct : forall bytes rules text,
  scan_spec 4 rules (symbols bytes text) 0 None (spec_scan bytes rules text).
Proof. exact spec_scan_correct. Qed.

(* the same, read from the side of a given longest matched candidate / of no matched candidate *)
Theorem C09_spec_scan_longest : forall bytes rules text i k, let l := symbols bytes text in
  cand 4 l i k -> rule_matches rules (word l i k) ->
  (forall i' k', cand 4 l i' k' -> rule_matches rules (word l i' k') -> (i' + k' <= i + k)%nat) ->
  fst (spec_scan bytes rules text) = offs i l /\ winner rules (word l i k) (snd (spec_scan bytes rules text)).
Proof.
  intros bytes rules text i k l Hc Hm Hmax.
  destruct (spec_scan_correct bytes rules text) as [(i0 & k0 & a & Hc0 & Hres & Hw & Hmax0)|(Hnone & _)].
  - fold l in Hc0, Hres, Hw, Hmax0. destruct (winner_matches _ _ _ Hw) as (r & p & Hm0).
    pose proof (Hmax i0 k0 Hc0 (ex_intro _ r (ex_intro _ a (ex_intro _ p Hm0)))). pose proof (Hmax0 i k Hc Hm).
    assert (i0 = i /\ k0 = k) as (-> & ->) by (unfold cand in *; lia).
    rewrite Hres. cbn [fst snd]. split; [lia|exact Hw].
  - exfalso. exact (Hnone i k Hc Hm).
Qed.

Theorem C09_spec_scan_invalid : forall bytes rules text m, let l := symbols bytes text in
  (forall i k, cand 4 l i k -> ~ rule_matches rules (word l i k)) ->
  (m <= length l)%nat -> (m = 0%nat \/ extendable rules (word l m 0)) ->
  (forall m', (m' <= length l)%nat -> extendable rules (word l m' 0) -> (m' <= m)%nat) ->
  spec_scan bytes rules text = (offs m l, 0).
Proof.
  intros bytes rules text m l Hnone Hm Hext Hmax.
  destruct (spec_scan_correct bytes rules text) as [(i0 & k0 & a & Hc0 & Hres & Hw & Hmax0)|(_ & m0 & Hm0 & Hres & Hext0 & Hmax1)].
  - exfalso. apply (Hnone i0 k0 Hc0). destruct (winner_matches _ _ _ Hw) as (r & p & Hr). exists r, a, p. exact Hr.
  - fold l in Hm0, Hres, Hext0, Hmax1. assert (m0 = m).
    { assert (m0 <= m)%nat by (destruct Hext0 as [->|Hext0]; [lia|exact (Hmax m0 Hm0 Hext0)]).
      assert (m <= m0)%nat by (destruct Hext as [->|Hext]; [lia|exact (Hmax1 m Hm Hext)]). lia. }
    subst m0. rewrite Hres. reflexivity.
Qed.

(* the offsets are byte offsets of the text: the widths of all symbols add up to its length *)
Theorem C09_symbols_total : forall bytes text,
  offs (length (symbols bytes text)) (symbols bytes text) = Z.of_nat (length text).
Proof. exact symbols_total. Qed.

(* check_bisim (Tier 2).  Bisim.check_bisim explores the pairs (DFA state, normalised derivative vector of the active
   rules) reachable from the start state over one representative per interval of the symbol map and then runs the
   certificate checker closed_check on the set found: equal accepting label / winning action at every pair, every
   interval of the symbol map (clipped to the symbols a text can contain) uniform for every class of the vector, a move in
   the tables iff the derivative vector stays viable, the successor pair in the set, and the joint end-of-input run ends
   within min(4, #states) markers.  For EVERY table set, rule set and start condition: if the check answers 0, the
   reference run of the automaton of the tables equals the specification on EVERY text of bytes — and, with the
   checkpoint validator, so does Scan itself.  The check is evaluated on the real tables of every sampled rule set
   (case kind c09.bisim); it may also answer "unknown" (exploration cap, {eoi} chains longer than the depth). *)
Theorem C09_check_bisim_sound : forall cap t rules sc, check_bisim cap t rules sc = 0 ->
  forall text, bytes_ok text -> longest_accept t sc text = spec_scan (scan_bytes t) rules text.
Proof. exact check_bisim_sound. Qed.

Theorem C09_check_bisim_scan : forall cap t rules sc, check_tables t = true -> In (nthZ (state_map t) sc) (state_map t) ->
  check_bisim cap t rules sc = 0 ->
  forall text, text <> [] -> bytes_ok text -> scanF t sc text = spec_scan (scan_bytes t) rules text.
Proof.
  intros cap t rules sc Ht Hsc Hb text Hne Hbytes. rewrite (scan_is_longest t Ht sc text Hsc Hne).
  apply (check_bisim_sound cap); assumption.
Qed.

(* the certificate form: any set of pairs accepted by closed_check and containing the start pair will do *)
Theorem C09_bisim_cert_sound : forall t rules sc seen, bisim_cert t rules sc seen = true ->
  forall text, bytes_ok text -> longest_accept t sc text = spec_scan (scan_bytes t) rules text.
Proof. exact bisim_cert_sound. Qed.

(* The empty text is compared on every run but excluded from C09_scan_is_longest (a checkpoint taken at offset 0 on an
   end-of-input move would be ignored by Scan's `size > 0` test). *)

(* tables of /a{eoi}/ => 2, of /ab*c/ => 2 + /a/ => 3 (one checkpoint), and /a/ => 2 + /a{eoi}/ => 3, as lex.Compile emits them *)
Definition t_a_eoi : tables := mkTables false [(0, 1); (97, 2); (98, 1)] 3 [0] [-1; -1; 1; 2; -1; -1; -3; -3; -3] [].
Definition t_bt : tables := mkTables false [(0, 1); (97, 2); (98, 3); (99, 4); (100, 1)] 5 [0]
  [-2; -2; 1; -2; -2; -5; -5; -5; -1; 2; -4; -4; -4; -4; -4; -2; -2; -2; 3; 2] [(3, 3)].
Definition t_a_aeoi : tables := mkTables false [(0, 1); (97, 2); (98, 1)] 3 [0] [-1; -1; 1; 2; -3; -3; -4; -4; -4] [].

Example C09_hypotheses_met :
  check_tables t_a_eoi = true /\ check_tables t_bt = true /\ check_tables t_a_aeoi = true /\
  scanF t_a_eoi 0 [97] = (1, 2) /\ scanF t_a_eoi 0 [97; 97] = (1, 0) /\
  scanF t_bt 0 [97; 98; 98; 99; 97] = (4, 2) /\ scanF t_bt 0 [97; 98; 98; 97] = (1, 3) /\ scanF t_bt 0 [98] = (0, 0) /\
  scanF t_a_aeoi 0 [97] = (1, 3) /\ scanF t_a_aeoi 0 [97; 98] = (1, 2).
Proof. vm_compute. repeat split; reflexivity. Qed.

(* the pinned Scan (one end-of-input step, modelled in Lex/Tables.v for C24) violates the statement: F6 *)
Example C09_pinned_scan_refuted :
  exists t text, check_tables t = true /\ text <> [] /\ Tables.scan t 0 text <> longest_accept t 0 text.
Proof. exists t_a_eoi, [97]. split; [reflexivity|]. split; [discriminate|]. vm_compute. discriminate. Qed.

(* the specification agrees on the same examples: rules as symbol-level expressions *)
Example C09_spec_examples :
  let a := Sym [(97, 97)] in let b := Sym [(98, 98)] in let c := Sym [(99, 99)] in let e := Sym [(-1, -1)] in
  spec_scan false [(Cat a e, 2, 0)] [97] = (1, 2) /\ spec_scan false [(Cat a e, 2, 0)] [97; 97] = (1, 0) /\
  spec_scan false [(Cat a (Cat (Rep 0 (-1) b) c), 2, 0); (a, 3, 0)] [97; 98; 98; 99; 97] = (4, 2) /\
  spec_scan false [(Cat a (Cat (Rep 0 (-1) b) c), 2, 0); (a, 3, 0)] [97; 98; 98; 97] = (1, 3) /\
  spec_scan false [(a, 2, 0); (Cat a e, 3, 0)] [97] = (1, 3).
Proof. vm_compute. repeat split; reflexivity. Qed.

(* the check accepts the example tables against their rule sets, and rejects a wrong rule set *)
Example C09_check_bisim_examples :
  let a := Sym [(97, 97)] in let b := Sym [(98, 98)] in let c := Sym [(99, 99)] in let e := Sym [(-1, -1)] in
  check_bisim 100 t_a_eoi [(Cat a e, 2, 0)] 0 = 0 /\
  check_bisim 100 t_bt [(Cat a (Cat (Rep 0 (-1) b) c), 2, 0); (a, 3, 0)] 0 = 0 /\
  check_bisim 100 t_a_aeoi [(a, 2, 0); (Cat a e, 3, 0)] 0 = 0 /\
  check_bisim 100 t_bt [(Cat a (Cat (Rep 0 (-1) b) c), 2, 0)] 0 = 3 /\
  check_bisim 100 t_a_eoi [(Cat a (Cat b e), 2, 0)] 0 = 4.
Proof. vm_compute. repeat split; reflexivity. Qed.

(* the declarative semantics is inhabited: /ab*c/ matches "abbc", /a{eoi}/ matches "a" followed by the end marker *)
Example C09_matches_examples :
  let a := Sym [(97, 97)] in let b := Sym [(98, 98)] in let c := Sym [(99, 99)] in let e := Sym [(-1, -1)] in
  matches (Cat a (Cat (Rep 0 (-1) b) c)) [97; 98; 98; 99] /\ matches (Cat a e) [97; -1] /\ ~ matches (Cat a e) [97] /\
  matches (Rep 2 3 a) [97; 97] /\ ~ matches (Rep 2 3 a) [97].
Proof.
  cbv zeta. repeat split; try (apply derivs_nullable; reflexivity); intros H; apply derivs_nullable in H; discriminate.
Qed.

Print Assumptions C09_scan_is_longest.
Print Assumptions C09_validated_cells.
Print Assumptions C09_matches_is_lang.
Print Assumptions C09_nullable_correct.
Print Assumptions C09_deriv_correct.
Print Assumptions C09_nonvoid_correct.
Print Assumptions C09_derivs_nullable.
Print Assumptions C09_rx_of_correct.
Print Assumptions C09_spec_scan_correct.
Print Assumptions C09_spec_scan_longest.
Print Assumptions C09_spec_scan_invalid.
Print Assumptions C09_symbols_total.
Print Assumptions C09_check_bisim_sound.
Print Assumptions C09_check_bisim_scan.
Print Assumptions C09_bisim_cert_sound.
