(* C29 — Cancellation never yields a wrong parse.
   Model: Gram/Cancel.v — the shiftCounter / ctx.Done() polling of the cancellable parse loop layered over the
   event-emitting loop of Gram/Events.v; rho is an ARBITRARY oracle telling whether the context is done at each poll. *)
From Coq Require Import List ZArith Bool.
From TM Require Import Gram.PTables Gram.Run Gram.Validator Gram.Events Gram.Cancel Gram.Cancel_proofs.
From TM Require Import Gram.CancelLA.
Import ListNotations.
Local Open Scope Z_scope.

(* For EVERY machine, event table, input, fuel and EVERY oracle rho (every moment at which the context may be
   cancelled): the cancellable loop either returns the context error at a configuration the uncancelled loop passes
   through, or returns exactly the outcome, stack and events of the uncancelled loop. *)
Theorem C29_cancel_or_same :
  forall m evt fixws eoi_off end_state attempts f rho c o c',
  crun_loop f m evt fixws eoi_off end_state attempts rho c = (o, c') ->
  (o = CtxErr /\ exists k, (k <= f)%nat /\
     xrun_loop f m evt fixws eoi_off end_state (cc_x c) = xrun_loop (f - k) m evt fixws eoi_off end_state (cc_x c')) \/
  (exists o', o = Plain o' /\ xrun_loop f m evt fixws eoi_off end_state (cc_x c) = (o', cc_x c')).
Proof. exact cancel_or_same. Qed.

(* the events reported before the context error are a prefix of the events of the uncancelled parse *)
Theorem C29_events_before_cancellation_are_a_prefix :
  forall m evt fixws eoi_off end_state attempts f rho c c' o_plain x_plain,
  crun_loop f m evt fixws eoi_off end_state attempts rho c = (CtxErr, c') ->
  xrun_loop f m evt fixws eoi_off end_state (cc_x c) = (o_plain, x_plain) ->
  exists evs, xc_events x_plain = xc_events (cc_x c') ++ evs.
Proof. exact cancel_events_prefix. Qed.

(* once the context is done from counter value s on, the loop stops before its counter passes the next polled value
   (a multiple of 512 below s + 512), having consumed at most that many further tokens *)
Theorem C29_cancel_bounded :
  forall m evt fixws eoi_off end_state attempts,
  (forall s a more q, m_act m s a more = Shift q -> attempts s a = true) ->
  forall f rho s c o c', 1 <= s -> (forall n, s <= n -> rho n = true) ->
  cc_counter c < next_poll s ->
  crun_loop f m evt fixws eoi_off end_state attempts rho c = (o, c') ->
  cc_counter c' < next_poll s /\
  Z.of_nat (length (xc_input (cc_x c))) - Z.of_nat (length (xc_input (cc_x c'))) <= cc_counter c' - cc_counter c.
Proof. exact cancel_bounded. Qed.

Theorem C29_next_poll_is_near :
  forall s, 1 <= s -> s <= next_poll s < s + 512 /\ polls (next_poll s) = true /\ 512 <= next_poll s.
Proof. exact next_poll_spec. Qed.

(* both table encodings satisfy the hypothesis of C29_cancel_bounded *)
Theorem C29_shifts_are_counted :
  (forall t rl rs s a more q, m_act (lalr1_machine t rl rs) s a more = Shift q -> attempts_default t s a = true) /\
  (forall o terms rl rs s a more q, m_act (opt_machine o terms rl rs) s a more = Shift q -> attempts_opt o s a = true).
Proof. split; [exact lalr1_attempts|exact opt_attempts]. Qed.

(* Parsers with runtime lookaheads (?= ...), model Gram/CancelLA.v:
   lookahead sub-parses (also nested ones, with memoization, under recursiveLookaheads) run the same loop on the rest
   of the input, share the session's shift counter with the main loop and poll the context with the same test; a poll
   inside a lookahead that finds the context done aborts the WHOLE parse with the context error.
   [never] is the oracle of a context that is never cancelled: lrun_loop .. never .. is "the uncancelled parse". *)

(* (a) For EVERY machine, lookahead tables, event table, input, fuel and EVERY oracle rho: the parse returns the
   context error at a configuration (stack, rest of the input, events, session) that the uncancelled parse passes
   through, or it returns exactly the outcome, configuration and session of the uncancelled parse. *)
Theorem C29_lookaheads_cancel_or_same :
  forall m lt attempts eoi_off rho lfuel evt fixws end_state f c o c' s',
  lrun_loop m lt attempts eoi_off rho f lfuel evt fixws end_state c = (o, c', s') ->
  (o = CtxErr /\ exists k, (k <= f)%nat /\
     lrun_loop m lt attempts eoi_off never f lfuel evt fixws end_state c =
     lrun_loop m lt attempts eoi_off never (f - k) lfuel evt fixws end_state c') \/
  lrun_loop m lt attempts eoi_off never f lfuel evt fixws end_state c = (o, c', s').
Proof. intros m lt attempts eoi_off rho lfuel evt fixws end_state f c o c' s' H. exact (proj1 (la_run _ _ _ _ _ _ _ _ _ _ _ _ _ _ H)). Qed.

(* the events reported before the context error are a prefix of the events of the uncancelled parse *)
Theorem C29_lookaheads_events_before_cancellation_are_a_prefix :
  forall m lt attempts eoi_off rho lfuel evt fixws end_state f c c' s' o0 c0 s0,
  lrun_loop m lt attempts eoi_off rho f lfuel evt fixws end_state c = (CtxErr, c', s') ->
  lrun_loop m lt attempts eoi_off never f lfuel evt fixws end_state c = (o0, c0, s0) ->
  exists evs, xc_events (lc_x c0) = xc_events (lc_x c') ++ evs.
Proof.
  intros m lt attempts eoi_off rho lfuel evt fixws end_state f c c' s' o0 c0 s0 Hc H0.
  destruct (proj1 (la_run _ _ _ _ _ _ _ _ _ _ _ _ _ _ Hc)) as [(_ & k & Hk & Hrun)|Hrun]; cbv beta in Hrun; rewrite Hrun in H0.
  - eapply lrun_events. exact H0.
  - injection H0 as _ <- _. exists []. rewrite app_nil_r. reflexivity.
Qed.

(* (b) once the context is done from counter value s on (every poll at a counter value >= s sees it), the shared
   counter of the main loop and all lookahead sub-parses stops at the latest AT the next polled value, which is below
   s + 512, and then with the context error; any other outcome is reached before that value.  Every unit of the
   counter is one recorded shift attempt (ls_ticks: main loop or lookahead at some depth), so at most 511 further shift
   attempts - main loop and lookaheads together - are made before the error is returned or the parse has ended. *)
Theorem C29_lookaheads_cancel_bounded :
  forall m lt attempts eoi_off rho lfuel evt fixws end_state f s c o c' s',
  1 <= s -> (forall n, s <= n -> rho n = true) -> ls_counter (lc_s c) < next_poll s ->
  lrun_loop m lt attempts eoi_off rho f lfuel evt fixws end_state c = (o, c', s') ->
  ls_counter s' <= next_poll s < s + 512 /\
  (o <> CtxErr -> ls_counter s' < next_poll s) /\
  ls_counter (lc_s c) <= ls_counter s' /\
  Z.of_nat (length (ls_ticks s')) - Z.of_nat (length (ls_ticks (lc_s c))) = ls_counter s' - ls_counter (lc_s c).
Proof. exact la_cancel_bounded. Qed.

(* the hypotheses on the oracle are satisfiable (a context cancelled before the parse starts) *)
Example C29_bound_hypotheses_satisfiable : exists (rho : Z -> bool) s, 1 <= s /\ forall n, s <= n -> rho n = true.
Proof. exists (fun _ => true), 1. split; [discriminate|reflexivity]. Qed.

(* NOT modelled: the lexer/token stream below the parser (the model works on the token list; the lookahead's lexer
   copy is the rest of that list), error recovery (the generated test grammars and StopOnFirstError runs do not
   recover), the cancellableFetch option; goroutine timing of the cancelling side (rho abstracts it).  The js parser
   (9310 states, hand-written loop of the same shape) is checked against the statements above by its poll log only. *)

Print Assumptions C29_cancel_or_same.
Print Assumptions C29_events_before_cancellation_are_a_prefix.
Print Assumptions C29_cancel_bounded.
Print Assumptions C29_next_poll_is_near.
Print Assumptions C29_shifts_are_counted.
Print Assumptions C29_lookaheads_cancel_or_same.
Print Assumptions C29_lookaheads_events_before_cancellation_are_a_prefix.
Print Assumptions C29_lookaheads_cancel_bounded.
