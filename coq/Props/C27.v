(* C27 — Line diffs are correct and minimal.
   Model: Util/Diff.v (lcs with prefix/suffix trimming, trace, Myers' middle snake with the shared buffer,
   chunk merging, LineDiff's hunks).  Statements, examples and Print Assumptions; the proofs are in Util/Diff_*.v. *)
From Coq Require Import List ZArith.
From TM Require Import Util.Diff Util.Diff_lcs Util.Diff_proofs Util.Diff_greedy Util.Diff_min Util.Diff_myers Util.Diff_total.
Import ListNotations.
Local Open Scope Z_scope.

(* A script accepted by script_ok really turns a into b. *)
Theorem C27_valid_script_applies :
  forall chunks a b, script_ok chunks a b = true -> apply_script chunks a b = b.
Proof. exact script_ok_applies. Qed.

(* For EVERY pair of sequences, whatever edit script the model of diff.lcs returns is a valid script. *)
Theorem C27_lcs_script_turns_a_into_b :
  forall a b chunks, lcs a b = LcsOk chunks -> script_ok chunks a b = true.
Proof. exact lcs_correct. Qed.

(* This does not depend on Myers' search: any middle-snake oracle whose snakes are equal runs will do. *)
Theorem C27_lcs_correct_for_any_sound_middle :
  forall mid a b chunks, mid_sound mid -> lcs_gen mid a b = LcsOk chunks -> script_ok chunks a b = true.
Proof. exact lcs_gen_correct. Qed.

(* Minimality: no valid script costs less than |a|+|b|-2*L(a,b), and that bound is attained, so a script is
   minimal iff its cost equals the bound.  The check evaluates cost = bound on every implementation output
   (lcs_len is the quadratic table, proved equal to L). *)
Theorem C27_no_script_is_cheaper_than_the_lcs_bound :
  forall chunks a b, script_ok chunks a b = true -> zlen a + zlen b - 2 * L a b <= cost chunks.
Proof. exact script_cost_lower_bound. Qed.

Theorem C27_lcs_bound_is_attained :
  forall a b, exists chunks, script_ok chunks a b = true /\ cost chunks = zlen a + zlen b - 2 * L a b.
Proof. exact lcs_bound_attained. Qed.

Theorem C27_quadratic_table_computes_L : forall a b, lcs_len a b = L a b.
Proof. exact lcs_len_spec. Qed.

(* Minimality of the algorithm itself (Myers' theorem for this implementation): for EVERY pair of sequences,
   whenever the model of diff.lcs (prefix/suffix trimming, trace, Myers' middle with the shared buffer
   threaded through the recursion, chunk merging) returns a script, its cost is exactly |a|+|b|-2*LCS(a,b),
   i.e. no valid script is cheaper (C27_no_script_is_cheaper_than_the_lcs_bound). *)
Theorem C27_script_minimal :
  forall a b chunks, lcs a b = LcsOk chunks -> cost chunks = zlen a + zlen b - 2 * L a b.
Proof. exact script_minimal. Qed.

Corollary C27_lcs_script_valid_and_minimal :
  forall a b chunks, lcs a b = LcsOk chunks ->
  script_ok chunks a b = true /\ forall chunks', script_ok chunks' a b = true -> cost chunks <= cost chunks'.
Proof. exact lcs_valid_and_minimal. Qed.

(* The middle-snake search: on inputs of length >= 2 with a large enough buffer, whatever snake the model of
   middle (forward and reverse furthest-reaching passes over the windows of diagonals, overlap tests in the
   shared buffer) returns splits the problem optimally, and the buffer keeps its length. *)
Theorem C27_middle_snake_is_optimal : mid_optimal middle.
Proof. exact middle_optimal. Qed.

(* middle is total: on inputs of length >= 2 with a large enough buffer it always returns a snake, i.e. its
   log.Fatal("no snake") branch is unreachable and the model's fuel suffices. *)
Theorem C27_middle_always_finds_a_snake :
  forall a b buf, 2 <= zlen a -> 2 <= zlen b -> 2 * (zlen a + zlen b + 2) <= zlen buf ->
  exists ai bi s buf', middle a b buf = MidFound ai bi s buf'.
Proof. exact middle_total. Qed.

(* ... and minimality holds for trace/lcs with ANY optimally splitting middle-snake oracle. *)
Theorem C27_lcs_minimal_for_any_optimal_middle :
  forall mid a b chunks, mid_optimal mid -> lcs_gen mid a b = LcsOk chunks ->
  cost chunks = zlen a + zlen b - 2 * L a b.
Proof. exact lcs_gen_minimal. Qed.

(* Myers' greedy lemma for this code: the value newx computes for diagonal k in round d from furthest points vm, vp
   of round d-1 on diagonals k-1 / k+1 (sliding along the snake) is the furthest point on k at edit distance <= d. *)
Theorem C27_forward_furthest_reaching :
  forall a b d k vm vp, 0 <= d -> - d <= k <= d -> (d = 0 -> vp = 0) ->
  (1 <= d -> - d < k -> Vf a b (d - 1) (k - 1) vm) ->
  (1 <= d -> k < d -> Vf a b (d - 1) (k + 1) vp) ->
  Vf a b d k (newx (zlen a) (zlen b) (condf a b) (S (length a + length b)) d k vm vp).
Proof. exact Vf_update. Qed.

(* L really is the length of a longest common subsequence (so the bound is the classical one). *)
Theorem C27_L_is_longest_common_subsequence :
  forall a b, (exists s, Sub s a /\ Sub s b /\ zlen s = L a b) /\
              (forall s, Sub s a -> Sub s b -> zlen s <= L a b).
Proof. exact L_is_lcs. Qed.

(* Totality: log.Fatal / slice-bounds failures of trace and middle are unreachable *)
(* diff.go states the precondition of trace in a comment: "a and b don't have a common prefix or suffix".
   NoCommon a b: if both are non-empty, their first elements differ and their last elements differ. *)

(* The split (ai, bi, snake) that middle returns on such sequences of length >= 2 (Good): it lies inside the
   grid (0 <= ai, 0 <= bi, 0 <= snake, ai+snake <= |a|, bi+snake <= |b|: the slices a[:ai], a[ai+snake:], ...
   never panic), it is neither (0,0) nor (|a|,|b|) (the "no snake" log.Fatalf of trace is unreachable), and
   both a[:ai], b[:bi] and a[ai+snake:], b[bi+snake:] again have no common first / last element, so the
   precondition is an invariant of the recursion although trace itself never strips anything. *)
Theorem C27_middle_split_in_grid_progress_invariant :
  forall a b buf ai bi s buf', 2 <= zlen a -> 2 <= zlen b -> 2 * (zlen a + zlen b + 2) <= zlen buf ->
  NoCommon a b -> middle a b buf = MidFound ai bi s buf' ->
  zlen buf' = zlen buf /\
  (0 <= ai /\ 0 <= bi /\ 0 <= s /\ ai + s <= zlen a /\ bi + s <= zlen b /\
   ~ (ai = 0 /\ bi = 0) /\ ~ (ai = zlen a /\ bi = zlen b) /\
   (1 <= ai -> 1 <= bi -> elt a (ai - 1) <> elt b (bi - 1)) /\
   (ai + s < zlen a -> bi + s < zlen b -> elt a (ai + s) <> elt b (bi + s))).
Proof. exact middle_good. Qed.

(* trace is total under its documented precondition: fuel > |a|+|b| (each recursive call strictly decreases
   |a|+|b|) and the buffer lcs allocates suffice for every nested call. *)
Theorem C27_trace_total :
  forall fuel a b buf chunks,
  zlen a + zlen b < Z.of_nat fuel -> 2 * (zlen a + zlen b + 2) <= zlen buf -> NoCommon a b ->
  exists ret buf', trace middle fuel a b buf chunks = TraceOk ret buf' /\ zlen buf' = zlen buf.
Proof. exact trace_total. Qed.

(* what lcs passes to trace after trimming the common prefix and suffix satisfies the precondition *)
Theorem C27_lcs_establishes_trace_precondition :
  forall a b,
  let p := common_prefix a b in
  let ln := (Nat.min (length a) (length b) - p)%nat in
  let s := Nat.min ln (common_prefix (rev a) (rev b)) in
  NoCommon (firstn (length a - p - s) (skipn p a)) (firstn (length b - p - s) (skipn p b)).
Proof. exact trimmed_NoCommon. Qed.

(* lcs is total: for EVERY pair of sequences the model returns a script, never LcsFatal / LcsFuel. *)
Theorem C27_lcs_total : forall a b, exists chunks, lcs a b = LcsOk chunks.
Proof. exact lcs_total. Qed.

(* ... hence, unconditionally: lcs returns a valid script of minimum cost |a|+|b|-2*LCS(a,b). *)
Theorem C27_script_minimal_total :
  forall a b, exists chunks, lcs a b = LcsOk chunks /\ script_ok chunks a b = true /\
    cost chunks = zlen a + zlen b - 2 * L a b /\
    forall chunks', script_ok chunks' a b = true -> cost chunks <= cost chunks'.
Proof. exact script_minimal_total. Qed.

(* LineDiff on different texts always renders the hunks of such a script (its fallback branch is dead). *)
Theorem C27_line_diff_renders_the_lcs_script :
  forall a b, a <> b ->
  exists chunks, lcs a b = LcsOk chunks /\ script_ok chunks a b = true /\
    line_diff a b = Some (diff_loop chunks true a b 0 0 (mkHunk 1 1 0 0 []) []).
Proof. exact line_diff_total. Qed.

(* The rendered diff is empty exactly when the texts are equal. *)
Theorem C27_render_empty_iff_equal : forall a b, line_diff a b = None <-> a = b.
Proof.
  intros a b. unfold line_diff. destruct (seq_eqb a b) eqn:E.
  - apply seq_eqb_eq in E. tauto.
  - split; [destruct (lcs a b); discriminate|]. intro H. apply seq_eqb_eq in H. congruence.
Qed.

Example C27_examples :
  lcs [1; 2; 3; 4] [1; 3; 4; 5] = LcsOk [mkChunk 0 0 1; mkChunk 1 0 2; mkChunk 0 1 0] /\
  script_ok [mkChunk 0 0 1; mkChunk 1 0 2; mkChunk 0 1 0] [1; 2; 3; 4] [1; 3; 4; 5] = true /\
  lcs_len [1; 2; 3; 4] [1; 3; 4; 5] = 3 /\
  cost [mkChunk 0 0 1; mkChunk 1 0 2; mkChunk 0 1 0] = 4 + 4 - 2 * 3 /\
  (exists hs, line_diff [1; 2; 3; 4] [1; 3; 4; 5] = Some hs /\ apply_hunks hs [1; 2; 3; 4] 0 [] = Some [1; 3; 4; 5]).
Proof. repeat split; try (vm_compute; reflexivity). eexists. split; vm_compute; reflexivity. Qed.

Print Assumptions C27_valid_script_applies.
Print Assumptions C27_lcs_script_turns_a_into_b.
Print Assumptions C27_lcs_correct_for_any_sound_middle.
Print Assumptions C27_no_script_is_cheaper_than_the_lcs_bound.
Print Assumptions C27_lcs_bound_is_attained.
Print Assumptions C27_quadratic_table_computes_L.
Print Assumptions C27_render_empty_iff_equal.
Print Assumptions C27_script_minimal.
Print Assumptions C27_lcs_script_valid_and_minimal.
Print Assumptions C27_middle_snake_is_optimal.
Print Assumptions C27_middle_always_finds_a_snake.
Print Assumptions C27_lcs_minimal_for_any_optimal_middle.
Print Assumptions C27_forward_furthest_reaching.
Print Assumptions C27_L_is_longest_common_subsequence.
Print Assumptions C27_middle_split_in_grid_progress_invariant.
Print Assumptions C27_trace_total.
Print Assumptions C27_lcs_establishes_trace_precondition.
Print Assumptions C27_lcs_total.
Print Assumptions C27_script_minimal_total.
Print Assumptions C27_line_diff_renders_the_lcs_script.
