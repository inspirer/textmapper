(* C23 — The language server stays consistent under any message history (partial).
   Models: LS/Async.v (the AsyncHandler chain as an interleaving semantics), LS/Server.v (ls/server.go as a
   sequential state machine; compile and collectIDs are Section variables = per-case oracles),
   LS/Position.v (resolvePosition and the outgoing UTF-16 positions). *)
From Coq Require Import List ZArith.
From TM Require Import Lex.Tables Util.LineCol LS.Position LS.Position_proofs LS.Server LS.Server_proofs LS.Async LS.Async_proofs LS.Async_resp_proofs.
Import ListNotations.

(* async_is_sequential. For ANY server (state, micro-steps of each handler body, reply value), any request
   list and ANY schedule of the goroutines of the AsyncHandler chain: once every request has been answered,
   the server state, the sequence of notifications emitted by the bodies, and the value of every response
   are those of running the bodies one after the other in arrival order. *)
Theorem C23_async_is_sequential :
  forall (St Req Out Val : Type) (body : Req -> list (micro St Out)) (resp : Req -> St -> Val)
         (reqs : list Req) (s0 : St) (c : config St Out Val),
  reachable St Req Out Val body resp reqs s0 c ->
  arrived _ _ _ c = length reqs -> (forall i, (i < length reqs)%nat -> g _ _ _ c i = Done St Out Val) ->
  st _ _ _ c = seq_state St Req Out body reqs s0 /\
  outs_of Out Val (trace _ _ _ c) = seq_outs St Req Out body reqs s0 /\
  (forall i v, In (EvResp Out Val i v) (trace _ _ _ c) -> seq_val St Req Out Val body resp reqs s0 i v).
Proof. exact async_is_sequential. Qed.

(* ... and at EVERY moment of every schedule: at most one body is executing, it started only after all
   earlier requests replied, and state + notifications are a prefix of the sequential run. *)
Theorem C23_handler_bodies_are_mutually_exclusive :
  forall (St Req Out Val : Type) body resp (reqs : list Req) (s0 : St) (c : config St Out Val) i j ri rj,
  reachable St Req Out Val body resp reqs s0 c ->
  g _ _ _ c i = Running St Out Val ri -> g _ _ _ c j = Running St Out Val rj -> i = j.
Proof. exact at_most_one_running. Qed.

Theorem C23_body_runs_after_predecessors_replied :
  forall (St Req Out Val : Type) body resp (reqs : list Req) (s0 : St) (c : config St Out Val) i ri,
  reachable St Req Out Val body resp reqs s0 c -> g _ _ _ c i = Running St Out Val ri ->
  forall j, (j < i)%nat -> finished St Out Val (g _ _ _ c j) = true.
Proof. exact running_after_predecessors. Qed.

Theorem C23_every_intermediate_state_is_a_sequential_prefix :
  forall (St Req Out Val : Type) body resp (reqs : list Req) (s0 : St) (c : config St Out Val),
  reachable St Req Out Val body resp reqs s0 c ->
  exists k executed rest,
    all_micro St Req Out body reqs = (all_micro St Req Out body (firstn k reqs) ++ executed) ++ rest /\
    st _ _ _ c = fst (exec St Out (all_micro St Req Out body (firstn k reqs) ++ executed) s0) /\
    outs_of Out Val (trace _ _ _ c) = snd (exec St Out (all_micro St Req Out body (firstn k reqs) ++ executed) s0).
Proof. exact async_prefix. Qed.
(* NOT claimed (and false of the chain): a total order between a RESPONSE and the notifications of later
   requests — AsyncHandler closes the next request's channel before it sends the response. The model has the
   intermediate state Replying for exactly that. *)

Local Open Scope Z_scope.

(* position_round_trip: for every text and every offset that is a rune boundary of its line (text =
   pre ++ mid ++ rest, pre empty or ending in a newline, mid newline-free and made of whole runes): the
   outgoing position (line, UTF-16 character) of the offset resolves back to the offset. *)
Theorem C23_position_round_trip :
  forall pre mid rest, (pre = [] \/ last pre 0 = NL) -> ~ In NL mid -> line_boundary (mid ++ rest) (length mid) ->
  let content := pre ++ mid ++ rest in
  let off := Z.of_nat (length pre + length mid) in
  resolve_position content (fst (position_of content off)) (snd (position_of content off)) = Some off.
Proof. exact position_round_trip. Qed.

(* The pinned server sent byte columns as characters (defect F9): its outgoing positions differ from the UTF-16 ones and
   do not resolve back. *)
Theorem C23_pinned_outgoing_positions_refuted :
  exists content off,
    position_of_pinned content off <> position_of content off /\
    resolve_position content (fst (position_of_pinned content off)) (snd (position_of_pinned content off)) <> Some off.
Proof. exact pinned_positions_refuted. Qed.

(* For EVERY compile oracle and history the published diagnostics are, in
   request order, exactly one per open/change with that request's document, version and content. *)
Theorem C23_diagnostics_in_order_with_version :
  forall compile collect_ids rs s,
  filter is_publish (run compile collect_ids s rs) =
  map (fun '(d, v, c) => typecheck compile d v c) (changes rs).
Proof. exact diagnostics_in_order. Qed.

(* A definition request at the end of any history is answered from the latest content of its document. *)
Theorem C23_definition_uses_latest :
  forall compile collect_ids pre id doc line col,
  run compile collect_ids [] (pre ++ [RDef id doc line col]) =
  run compile collect_ids [] pre ++
  [Reply id (definition collect_ids (match latest doc None pre with Some x => [(doc, x)] | None => [] end) doc line col)].
Proof. exact definition_uses_latest. Qed.

(* Every location of a definition answer belongs to an identifier of the same kind and name as the one under the cursor. *)
Theorem C23_same_name_locations :
  forall collect_ids s doc line col content v locs x,
  lookup doc s = Some (content, v) -> definition collect_ids s doc line col = Some locs -> In x locs ->
  exists cursor cur i,
    resolve_position content line col = Some cursor /\
    In cur (collect_ids content) /\ id_off cur <= cursor <= id_end cur /\
    In i (collect_ids content) /\ id_kind i = id_kind cur /\
    id_text content i = id_text content cur /\ x = location doc content i.
Proof. intro collect_ids. exact (same_name_locations (fun _ => []) collect_ids). Qed.

(* exactly one response per call. For ANY server, request list and schedule of the modelled chain, at EVERY
   reachable configuration the response to request i has been written exactly once if goroutine i is Done
   and not at all otherwise (so never twice); hence once every request is answered the trace holds exactly
   one response per request and none for any other id. *)
Theorem C23_response_written_once_iff_done :
  forall (St Req Out Val : Type) (body : Req -> list (micro St Out)) (resp : Req -> St -> Val) reqs s0 c,
  reachable St Req Out Val body resp reqs s0 c ->
  forall i, count_resp Out Val i (trace _ _ _ c) = if is_done St Out Val (g _ _ _ c i) then 1%nat else 0%nat.
Proof. exact response_count. Qed.

Theorem C23_exactly_one_response_per_call :
  forall (St Req Out Val : Type) (body : Req -> list (micro St Out)) (resp : Req -> St -> Val) reqs s0 c,
  reachable St Req Out Val body resp reqs s0 c ->
  (forall i, (i < length reqs)%nat -> g _ _ _ c i = Done St Out Val) ->
  (forall i, (i < length reqs)%nat -> count_resp Out Val i (trace _ _ _ c) = 1%nat) /\
  (forall i, (length reqs <= i)%nat -> count_resp Out Val i (trace _ _ _ c) = 0%nat).
Proof. exact exactly_one_response. Qed.

(* ... and the chain cannot get stuck before that: every reachable configuration is either final (all requests
   arrived and answered) or has an enabled step. Under any fair scheduler every call therefore gets its single
   response. (Fairness of the Go scheduler and of the connection's read loop is assumed, not modelled.) *)
Theorem C23_chain_never_deadlocks :
  forall (St Req Out Val : Type) (body : Req -> list (micro St Out)) (resp : Req -> St -> Val) reqs s0 c,
  reachable St Req Out Val body resp reqs s0 c ->
  (arrived _ _ _ c = length reqs /\ forall i, (i < length reqs)%nat -> g _ _ _ c i = Done St Out Val) \/
  exists c', step St Req Out Val body resp reqs c c'.
Proof. exact progress. Qed.

(* incoming positions beyond the BMP. After n bytes of whole runes of the line comes a rune above U+FFFF (two
   UTF-16 code units): the column pointing BETWEEN its two code units is rejected, whatever precedes it ... *)
Theorem C23_position_inside_surrogate_pair_rejected :
  forall s n, line_boundary s n ->
  forall r w, decode_rune (skipn n s) = (r, w) -> (0 < w)%nat -> 65535 < r ->
  forall fuel1 fuel2 pos, (n < fuel1)%nat -> (n < fuel2)%nat ->
  skip_cols fuel2 s (utf16_len fuel1 s (Z.of_nat n) + 1) pos = None.
Proof. exact skip_cols_inside_pair. Qed.

(* ... and the column two units further is the rune boundary after it: it is accepted, resolves to the byte
   offset after the rune, and is exactly the UTF-16 length the server reports for that offset. *)
Theorem C23_position_after_surrogate_pair :
  forall s n, line_boundary s n ->
  forall r w, decode_rune (skipn n s) = (r, w) -> (0 < w)%nat -> 65535 < r ->
  forall fuel1 fuel2 pos, (n + w < fuel1)%nat -> (n + w < fuel2)%nat ->
  line_boundary s (n + w) /\
  utf16_len fuel1 s (Z.of_nat (n + w)) = utf16_len fuel1 s (Z.of_nat n) + 2 /\
  skip_cols fuel2 s (utf16_len fuel1 s (Z.of_nat n) + 2) pos = Some (pos + Z.of_nat (n + w)).
Proof. exact skip_cols_after_pair. Qed.

(* didClose, re-open and several documents are inside C23_definition_uses_latest / diagnostics_in_order (the
   history is arbitrary; `latest` forgets a document at RClose and takes the new content at the next ROpen,
   per document key). Non-vacuity: document 0 closed and re-opened with other content while document 1 stays. *)
Example C23_close_reopen_two_documents :
  let t0 := [97; 98] in let t1 := [99; 100; 32; 99; 100] in let t2 := [32; 32; 97; 98] in
  run (fun _ => []) (fun c => match c with 97 :: _ => [mkId 0 2 1 true] | 99 :: _ => [mkId 0 2 1 true; mkId 3 5 1 false] | _ => [mkId 2 4 1 true] end) []
      [ROpen 0 1 t0; ROpen 1 1 t1; RDef 1 0 0 1; RClose 0; RDef 2 0 0 1; RDef 3 1 0 4; ROpen 0 2 t2; RDef 4 0 0 3; RDef 5 0 0 1]
  = [Publish 0 1 []; Publish 1 1 []; Reply 1 (Some [(0, 0, 0, 0, 2)]); Reply 2 None;
     Reply 3 (Some [(1, 0, 0, 0, 2)]); Publish 0 2 []; Reply 4 (Some [(0, 0, 2, 0, 4)]); Reply 5 (Some [])].
Proof. vm_compute. reflexivity. Qed.

(* non-vacuity: "é😀 ab": the offset after the astral rune is a line boundary; positions round-trip *)
Example C23_examples :
  let text := [97; 10; 195; 169; 240; 159; 152; 128; 32; 97; 98] (* "a\né😀 ab" *) in
  line_boundary (skipn 2 text) 6 /\
  position_of text 8 = (1, 3) /\ resolve_position text 1 3 = Some 8 /\
  resolve_position text 1 2 = None (* between the surrogates *) /\
  position_of_pinned text 8 = (1, 6) /\
  run (fun _ => [(9, 11, 2, 8, [120])]) (fun _ => [mkId 9 11 1 true]) []
      [ROpen 0 (-1) text; RDef 1 0 1 5; RClose 0; RDef 2 0 1 5]
    = [Publish 0 4294967295 [(1, 4, 1, 6, [120])]; Reply 1 (Some [(0, 1, 4, 1, 6)]); Reply 2 None].
Proof.
  cbv zeta. split.
  - apply (lb_step _ 233 2 4); [reflexivity | auto | discriminate |].
    apply (lb_step _ 128512 4 0); [reflexivity | auto | discriminate | apply lb_0].
  - vm_compute. repeat split; reflexivity.
Qed.

Print Assumptions C23_async_is_sequential.
Print Assumptions C23_handler_bodies_are_mutually_exclusive.
Print Assumptions C23_body_runs_after_predecessors_replied.
Print Assumptions C23_every_intermediate_state_is_a_sequential_prefix.
Print Assumptions C23_position_round_trip.
Print Assumptions C23_pinned_outgoing_positions_refuted.
Print Assumptions C23_diagnostics_in_order_with_version.
Print Assumptions C23_definition_uses_latest.
Print Assumptions C23_same_name_locations.
Print Assumptions C23_response_written_once_iff_done.
Print Assumptions C23_exactly_one_response_per_call.
Print Assumptions C23_chain_never_deadlocks.
Print Assumptions C23_position_inside_surrogate_pair_rejected.
Print Assumptions C23_position_after_surrogate_pair.
