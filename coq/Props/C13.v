(* C13 — Desugaring extended notation preserves the language.
   Models: Syn/Expr.v (Expr tree, Equal, ProvisionalName), Syn/Expand.v (syntax.Expand: expandRule, expandExpr,
   extractNonterm, sortTail, Rearrange, list/optional rule synthesis), Syn/ExtLang.v (the meaning of the extended notation:
   [den]).  Lemmas: Syn/Expand_proofs.v, Expand_global.v, Expand_wf_proofs.v, ToCfg_proofs.v, SortPerm.v. *)
From Coq Require Import List ZArith Bool Lia Permutation.
From TM Require Import Gram.Cfg Gram.Derive Syn.Expr Syn.Expand Syn.ExtLang Syn.Expand_proofs Syn.Expand_global Syn.ToCfg_proofs Syn.CfgNonneg Syn.SortPerm Syn.ExpandWf Syn.Expand_wf_proofs.
Import ListNotations.
Local Open Scope Z_scope.

(* FULL STATEMENT:  forall M (well-formed), X original nonterminal, w,
       ext language of X in M  <->  derives (to_cfg (expand M)) (perm X) w.
   The language of a table of nonterminal values is the least solution (Knaster-Tarski) of its equations, [lfp].
   PROVED: C13_expand_correct_wf, for the model [expand] of syntax.Expand as a whole (phase 1 with extraction and reuse,
   sortTail / Rearrange, phase 2) and all expression kinds.  Its only hypothesis is the STATIC boolean [ExpandWf.wf_model]
   (references in range; every list separator reached by expandExpr expands to exactly one alternative, [n_alts sep = 1]:
   the "only simple separators" condition whose violation is the log.Fatal of Expand).  C13_wf_model_checks derives from it
   the run-time side conditions [expand_checks] of C13_expand_correct (no Fatal branch, references of the input and of the
   intermediate table in range, sortTail builds a permutation: loop invariant [Expand_wf_proofs.pinv]).  ./check evaluates
   both booleans on every generated model.
   C13_flat_table_is_cfg identifies the least solution of a table of flat choices with [Derive.derives] of the grammar
   [to_cfg] reads from it; C13_table_with_sets_is_cfg does so for every table to_cfg accepts: set nonterminals (ESet i: one
   rule per terminal of the resolved set, [setterms i], which must list exactly [setden i] inside [0,T): C15) and lookahead
   nonterminals (the empty rule).  C13_expand_correct_derives is the FULL STATEMENT with derivations on the right; its
   hypotheses: wf_model; [to_cfg ... = Some g] and [nonneg_rules g], both evaluated by the glue on the implementation's
   output of every case; correctly resolved sets.  The shape of the output table (flat choice / set / lookahead per
   nonterminal) is derived from the success of to_cfg (ToCfg_proofs.to_cfg_shape).
   NOT proved: that to_cfg always succeeds on the output of Expand for a wf_model with res_error = false (per rule:
   C13_expand_shape); it is checked per case.
   C13_expand_nonterm_preserves is the statement about one step of phase 1. *)

(* the whole of Expand, static hypothesis only *)
Theorem C13_expand_correct_wf :
  forall setden m,
    wf_model m = true ->
    forall X, nterms m <= X < nterms m + Z.of_nat (length (m_nonterms m)) -> forall w,
      lfp (nterms m) setden (map nt_value (m_nonterms m)) X w <->
      lfp (nterms m) setden (map snd (res_nonterms (expand m))) (perm_sym (nterms m) (x_perm (snd (phase1 m))) X) w.
Proof. exact expand_correct_wf. Qed.

(* the static predicate implies the run-time side conditions: no Fatal branch, references stay in range through
   phase 1, sortTail builds a permutation *)
Theorem C13_wf_model_checks : forall m, wf_model m = true -> expand_checks m = true.
Proof. exact wf_model_expand_checks. Qed.

(* expandExpr under the static predicate: the number of alternatives is the static n_alts, the Fatal flag is
   untouched, every produced alternative only mentions existing nonterminals *)
Theorem C13_expand_expr_static :
  forall c e st alts st',
    bounded (cT c + Z.of_nat (n_orig c)) e = true -> seps_ok e = true -> xinv c st ->
    expand_expr c st e = (alts, st') ->
    length alts = n_alts e /\ x_fatal st' = x_fatal st /\ xinv c st' /\
    Forall (fun a => bounded (cT c + Z.of_nat (n_orig c) + Z.of_nat (x_extra st')) a = true) alts.
Proof.
  intros c e st alts st' Hb Hs Hi Hx.
  destruct (expand_expr_wf c e st alts st' Hb Hs Hi Hx) as (A & (_ & _ & F & _) & C).
  split; [exact (expand_expr_length c e st alts st' Hx) | auto].
Qed.

(* the whole of Expand, run-time side conditions *)
Theorem C13_expand_correct :
  forall setden m,
    expand_checks m = true ->
    forall X, nterms m <= X < nterms m + Z.of_nat (length (m_nonterms m)) -> forall w,
      lfp (nterms m) setden (map nt_value (m_nonterms m)) X w <->
      lfp (nterms m) setden (map snd (res_nonterms (expand m))) (perm_sym (nterms m) (x_perm (snd (phase1 m))) X) w.
Proof. exact expand_correct_checked. Qed.

(* the whole of Expand, up to the order of the nonterminals *)
Theorem C13_expand_preserves :
  forall setden m vals1 st,
    phase1 m = (vals1, st) -> x_fatal st = false -> 0 <= nterms m ->
    (forall i, (i < length (m_nonterms m))%nat ->
        bounded (nterms m + Z.of_nat (length (m_nonterms m))) (value_at m i) = true) ->
    forall X, nterms m <= X < nterms m + Z.of_nat (length (m_nonterms m)) -> forall w,
      lfp (nterms m) setden (map nt_value (m_nonterms m)) X w <->
      lfp (nterms m) setden (phase2_table (nterms m) (vals1 ++ map snd (x_extras st))) X w.
Proof. intros setden m vals1 st Hp Hnf _. now apply expand_language_preserved. Qed.

(* a table of flat choices (what Expand produces for grammars without set / lookahead nonterminals) read as a
   plain grammar: least solution = derivations *)
Theorem C13_flat_table_is_cfg :
  forall T setden vals g, 0 <= T ->
    to_cfg T (fun _ => []) vals = Some g ->
    (forall k, (k < length vals)%nat ->
      exists alts, nth k vals (EChoice []) = EChoice alts /\
        forall a, In a alts -> exists rhs, rhs_of a = Some rhs /\ forall s, In s rhs -> 0 <= s) ->
    forall X w, T <= X -> (lfp T setden vals X w <-> derives g X w).
Proof. intros T setden vals g _. apply to_cfg_language. Qed.

(* the same for the tables Expand really produces: set nonterminals (with their resolved terminals) and lookahead
   nonterminals (empty rule) may remain; side conditions are executable (to_cfg succeeds, no negative symbol) *)
Theorem C13_table_with_sets_is_cfg :
  forall T (setden : Z -> Z -> Prop) setterms vals g, 0 <= T ->
    to_cfg T setterms vals = Some g -> nonneg_rules g = true ->
    (forall i a, setden i a <-> In a (setterms i)) ->
    (forall i a, In a (setterms i) -> 0 <= a < T) ->
    forall X w, T <= X -> (lfp T setden vals X w <-> derives g X w).
Proof. intros T setden setterms vals g _. apply to_cfg_language_checked. Qed.

(* FULL STATEMENT: extended language of X = derivations of the plain grammar read from the expanded model *)
Theorem C13_expand_correct_derives :
  forall (setden : Z -> Z -> Prop) setterms m g,
    wf_model m = true ->
    to_cfg (nterms m) setterms (map snd (res_nonterms (expand m))) = Some g -> nonneg_rules g = true ->
    (forall i a, setden i a <-> In a (setterms i)) ->
    (forall i a, In a (setterms i) -> 0 <= a < nterms m) ->
    forall X, nterms m <= X < nterms m + Z.of_nat (length (m_nonterms m)) -> forall w,
      lfp (nterms m) setden (map nt_value (m_nonterms m)) X w <->
      derives g (perm_sym (nterms m) (x_perm (snd (phase1 m))) X) w.
Proof. exact expand_correct_derives_checked. Qed.

(* the least solution is a solution: X derives w iff the value of X denotes w under the least solution *)
Theorem C13_language_is_a_solution :
  forall T setden vals Y w, in_sys T vals Y ->
    (lfp T setden vals Y w <-> den T (lfp T setden vals) setden (value_of T vals Y) w).
Proof. exact lfp_fixpoint. Qed.

(* every list extracted by Expand either is non-empty or has no separator (the comment in Expand) *)
Theorem C13_extracted_lists_invariant :
  forall m vals st, phase1 m = (vals, st) -> Forall (fun nv => list_inv (snd nv)) (x_extras st).
Proof. exact phase1_extras_inv. Qed.

(* multiConcat is the product of the two families of alternatives *)
Theorem C13_multi_concat_is_product :
  forall T rho setden a b w,
    lang_any (map (den T rho setden) (multi_concat a b)) w <->
    exists w1 w2, w = w1 ++ w2 /\ lang_any (map (den T rho setden) a) w1 /\ lang_any (map (den T rho setden) b) w2.
Proof. exact den_multi_concat. Qed.

(* expandExpr: the union of the produced alternatives denotes the expression, for EVERY expression kind *)
Theorem C13_expand_expr_preserves :
  forall T rho setden c, T = cT c ->
  forall e st alts st', expand_expr c st e = (alts, st') ->
    (exists more, x_extras st' = x_extras st ++ more) /\
    ((forall k nv, nth_error (x_extras st') k = Some nv ->
        forall w, rho (cT c + Z.of_nat (n_orig c + k)) w <-> den T rho setden (snd nv) w) ->
     x_fatal st' = false ->
     forall w, den T rho setden e w <-> lang_any (map (den T rho setden) alts) w).
Proof.
  intros T rho setden c HT e st alts st' H. subst T. split.
  - destruct (expand_expr_grows c e st alts st' H) as [(more & Hm & _) _]. now exists more.
  - intros Hc Hnf. exact (expand_expr_den (cT c) rho setden c eq_refl e st alts st' H (conj Hc Hnf)).
Qed.

(* one original nonterminal: its new value (choice of flat rules) denotes what its extended value denotes *)
Theorem C13_expand_nonterm_preserves :
  forall T rho setden c, T = cT c ->
  forall v st v' st', expand_nonterm c st v = (v', st') ->
    (forall k nv, nth_error (x_extras st') k = Some nv ->
        forall w, rho (cT c + Z.of_nat (n_orig c + k)) w <-> den T rho setden (snd nv) w) ->
    x_fatal st' = false ->
    forall w, den T rho setden v w <-> den T rho setden v' w.
Proof.
  intros T rho setden c HT v st v' st' H Hc Hnf. subst T.
  exact (expand_nonterm_den (cT c) rho setden c eq_refl v st v' st' H (conj Hc Hnf)).
Qed.

(* phase 2: list and optional nonterminals *)
Theorem C13_list_rules_unfold :
  forall T rho setden self v, 0 <= T ->
    (forall fl el sep, v = EList fl el sep -> Z.odd fl = false -> sep = None) ->
    (forall w, rho (T + Z.of_nat self) w <-> den T rho setden v w) ->
    forall w, den T rho setden (expand_top T self v) w <-> den T rho setden v w.
Proof. intros T rho setden self v _. apply expand_top_good. Qed.

(* reuse of an extracted nonterminal is decided by Expr.Equal: equal expressions denote the same language *)
Theorem C13_equal_expressions_same_language :
  forall T rho setden a b, expr_eqb a b = true -> forall w, den T rho setden a w <-> den T rho setden b w.
Proof. exact expr_eqb_den. Qed.

(* expand_shape: every alternative produced for a rule is free of optional / choice / list / set /
   lookahead nodes: a sequence of references, state markers and commands (grouped by arrows) *)
Theorem C13_expand_shape :
  forall c e st alts st', plain e = true -> expand_expr c st e = (alts, st') ->
    Forall (fun a => sugar_free a = true) alts.
Proof. exact expand_expr_shape. Qed.

(* sortTail: the sort is a sort (all name functions, all lists); the local list is duplicate free; a permutation
   of 0..n-1 satisfies the run-time check of C13_expand_correct (building blocks of C13_wf_model_checks) *)
Theorem C13_sort_tail_sort :
  (forall names l, Permutation (sort_by_name names l) l) /\
  (forall start curr total size, (S curr <= total - size)%nat ->
     NoDup (seq start (S curr - start) ++ seq (total - size) size)) /\
  (forall perm n, Permutation perm (seq 0 n) -> perm_ok perm n = true).
Proof. exact (conj sort_by_name_perm (conj (fun start curr total size => sort_tail_local_nodup start curr (total - size) size) (fun perm n => proj2 (perm_ok_iff perm n)))). Qed.

(* non-vacuity: N0 : (a separator b)* c? | set(a|b) ;  (terminals a b c = 0 1 2, N0 = 3) *)
Definition ex_model : model :=
  mkModel [[97]; [98]; [99]] []
    [mkNt [78; 48] [] (EChoice [ESeq [EList 0 (ERef 0 []) (Some (ERef 1 [])); EOpt (ERef 2 [])]; ESet 0]) 0]
    [mkInput 0 false] [TUnion [TSym 0 0; TSym 0 1]].

Example C13_example_expand :
  map snd (res_nonterms (expand ex_model)) =
  [ (* A_list_B_separated *) EChoice [ESeq [ERef 3 []; ERef 1 []; ERef 0 []]; ERef 0 []];
    (* A_list_B_separatedopt *) EChoice [ERef 3 []; EEmpty];
    (* N0 *) EChoice [ESeq [ERef 4 []; ERef 2 []]; ERef 4 []; ERef 6 []];
    (* setof_a_or_b *) ESet 0 ]
  /\ res_fatal (expand ex_model) = false /\ res_error (expand ex_model) = false.
Proof. vm_compute. repeat split; reflexivity. Qed.

Example C13_example_shape :
  plain (ESeq [EList 0 (ERef 0 []) (Some (ERef 1 [])); EOpt (ERef 2 [])]) = true /\
  ext_derives 3 (fun _ => [0; 1]) (map nt_value (m_nonterms ex_model)) 3 [0; 1; 0; 2] = true /\
  ext_derives 3 (fun _ => [0; 1]) (map nt_value (m_nonterms ex_model)) 3 [0; 1] = false.
Proof. vm_compute. repeat split; reflexivity. Qed.

Example C13_example_checks : expand_checks ex_model = true /\ wf_model ex_model = true.
Proof. vm_compute. split; reflexivity. Qed.

(* the static condition is tight on separators: a separator with two alternatives reaches the Fatal branch *)
Example C13_example_not_wf :
  let m := mkModel [[97]; [98]] [] [mkNt [78; 48] [] (EList 1 (ERef 0 []) (Some (EOpt (ERef 1 [])))) 0] [mkInput 0 false] [] in
  wf_model m = false /\ res_fatal (expand m) = true.
Proof. vm_compute. split; reflexivity. Qed.

Example C13_example_hypotheses :
  x_fatal (snd (phase1 ex_model)) = false /\
  (forall i, (i < length (m_nonterms ex_model))%nat ->
     bounded (nterms ex_model + Z.of_nat (length (m_nonterms ex_model))) (value_at ex_model i) = true).
Proof. split; [vm_compute; reflexivity|]. intros [|i] Hi; [vm_compute; reflexivity | cbn in Hi; lia]. Qed.

Print Assumptions C13_expand_correct_wf.
Print Assumptions C13_wf_model_checks.
Print Assumptions C13_expand_expr_static.
Print Assumptions C13_expand_correct.
Print Assumptions C13_expand_preserves.
Print Assumptions C13_flat_table_is_cfg.
(* non-vacuity: the expanded example model (three flat choices and the set nonterminal set(a | b)) is accepted by to_cfg *)
Example C13_example_sets_table :
  wf_model ex_model = true /\
  exists g, to_cfg 3 (fun _ => [0; 1]) (map snd (res_nonterms (expand ex_model))) = Some g /\ nonneg_rules g = true /\
            length (g_rules g) = 9%nat.
Proof. split; [vm_compute; reflexivity|]. eexists. split; [vm_compute; reflexivity|]. split; vm_compute; reflexivity. Qed.

Print Assumptions C13_table_with_sets_is_cfg.
Print Assumptions C13_expand_correct_derives.
Print Assumptions C13_language_is_a_solution.
Print Assumptions C13_extracted_lists_invariant.
Print Assumptions C13_multi_concat_is_product.
Print Assumptions C13_expand_expr_preserves.
Print Assumptions C13_expand_nonterm_preserves.
Print Assumptions C13_list_rules_unfold.
Print Assumptions C13_equal_expressions_same_language.
Print Assumptions C13_expand_shape.
Print Assumptions C13_sort_tail_sort.
