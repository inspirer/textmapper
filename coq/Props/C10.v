(* C10 — Regular expressions and character classes denote their documented sets.
   Models: Lex/Charset.v (lex/charset.go), Lex/RegexParse.v (lex/regexp.go), Lex/RegexSpec.v (specification
   evaluator used as the oracle; it is built from the operations proved here). *)
From Coq Require Import List ZArith Bool Lia.
From TM Require Import Lex.Charset Lex.Charset_proofs Lex.Charset_proofs2 Lex.RegexParse Lex.RegexParse_proofs Lex.RegexParse_proofs2 Lex.ClassText Lex.ClassText_proofs.
Import ListNotations.
Local Open Scope Z_scope.

(* mem x cs: code point x belongs to the range list cs; wf_cs lb cs: cs is in normal form (non-empty ranges,
   ascending, at least one code point between neighbours, nothing below lb). *)

(* newCharset: for EVERY list of ranges the result is in normal form and denotes the union *)
Theorem C10_new_charset_spec : forall r lb, (forall p, In p r -> lb <= fst p <= snd p) ->
  wf_cs lb (new_charset r) /\ forall x, mem x (new_charset r) = mem x r.
Proof. exact new_charset_spec. Qed.

(* invert: complement within [0, max] *)
Theorem C10_invert_spec : forall cs max, wf_cs 0 cs -> Forall (fun p => snd p <= max) cs ->
  wf_cs 0 (invert cs max) /\
  forall x, mem x (invert cs max) = (0 <=? x) && (x <=? max) && negb (mem x cs).
Proof. exact invert_spec. Qed.

(* subtract: set difference *)
Theorem C10_subtract_spec : forall a b lb lbb, wf_cs lb a -> wf_cs lbb b ->
  wf_cs lb (subtract a b) /\ forall x, mem x (subtract a b) = mem x a && negb (mem x b).
Proof. exact subtract_spec. Qed.

(* intersect: set intersection *)
Theorem C10_intersect_spec : forall a b lba lbb, wf_cs lba a -> wf_cs lbb b ->
  wf_cs (Z.max lba lbb) (intersect a b) /\ forall x, mem x (intersect a b) = mem x a && mem x b.
Proof. exact intersect_spec. Qed.

(* appendRange: union with one more range (merging with the last range only changes the representation) *)
Theorem C10_append_range_spec : forall r lo hi x, lo <= hi -> (forall p, In p r -> fst p <= snd p) ->
  mem x (append_range r lo hi) = mem x r || in_range x (lo, hi).
Proof. exact append_range_spec. Qed.

(* fold, one direction without any assumption on the fold function: for every sf and every orbit bound n, folding keeps
   every member and adds only code points reachable from a member by iterating sf — and in bytes mode (ascii) only such
   below 0x80. *)
Theorem C10_fold_sound_and_extensive : forall sf n cs ascii lb, (forall p, In p cs -> lb <= fst p <= snd p) ->
  (forall x, mem x cs = true -> mem x (fold sf n cs ascii) = true) /\
  (forall x, mem x (fold sf n cs ascii) = true ->
     mem x cs = true \/ exists c k, mem c cs = true /\ x = Nat.iter k sf c /\ (ascii = false \/ x < 128)).
Proof. exact fold_sound_and_extensive. Qed.

(* fold, EXACTLY: when sf walks cycles — the orbit of every member returns to it within the orbit bound n (closes; for
   Go's unicode.SimpleFold and n = 8 this is checked on the full map on every run, c10.foldmap) — the folded set is in
   normal form and is exactly the union of the members and their fold orbits (in bytes mode: orbit members below 0x80). *)
Theorem C10_fold_exact : forall sf n cs ascii lb, (forall p, In p cs -> lb <= fst p <= snd p) ->
  (forall c, mem c cs = true -> closes sf n c) ->
  (exists lb', wf_cs lb' (fold sf n cs ascii)) /\
  forall x, mem x (fold sf n cs ascii) = true <->
    (mem x cs = true \/ exists c j, mem c cs = true /\ x = Nat.iter j sf c /\ (ascii = false \/ x < 128)).
Proof. exact fold_exact. Qed.

(* class_spec, assembly level.
   (1) Every successful parseClass returns class_den (Fold option) (the character after '[' is '^') (bytes mode) items
       subs: newCharset of the member ranges it collected, minus every subtracted set in turn, then folded, then
       inverted — for the members and subtracted sets collected by its scanning loop.
   (2) class_den has the documented semantics: for member ranges within [0, max] (lo <= hi), subtracted sets in normal
       form and (when folding) closing, in-range fold orbits, the result is in normal form and contains x iff
         not negated: x is a member outside every subtracted set, or lies on the fold orbit of such a code point;
         negated:     0 <= x <= max and not so.
   (3) class_spec from the concrete syntax, below: C10_parse_class_of_print / C10_parse_class_rejects_descending. *)
Theorem C10_parse_class_is_class_den : forall sf named fuel p0 o p' cs, parse_class sf named fuel p0 o = Ok (p', cs) ->
  exists p1 items subs, next p0 = Ok p1 /\
    cs = class_den sf (o_fold o) (p_ch p1 =? 94) (o_bytes o) items subs.
Proof. exact parse_class_den. Qed.

Theorem C10_class_den_spec : forall sf fold neg bytes items subs,
  (forall p, In p items -> 0 <= fst p <= snd p /\ snd p <= cmax bytes) -> (forall s, In s subs -> wf_cs 0 s) ->
  (fold = true -> forall c, in_base items subs c ->
     closes sf 8 c /\ forall j, 0 <= Nat.iter j sf c /\ (bytes = false -> Nat.iter j sf c <= max_rune_u)) ->
  wf_cs 0 (class_den sf fold neg bytes items subs) /\
  forall x, mem x (class_den sf fold neg bytes items subs) = true <->
    if neg then 0 <= x <= cmax bytes /\ ~ in_folded sf fold bytes items subs x else in_folded sf fold bytes items subs x.
Proof. exact class_den_spec. Qed.

(* class_spec from the concrete syntax.  Lex/ClassText.v defines a grammar of bracket expressions: items are literal
   characters (ASCII, none of - . \ ] ^), ranges lo-hi, the escapes \a \f \n \r \t \v, and subtracted nested sets
   -[...] / -[^...] of such items (one level); print_class writes them down ('[', optional '^', the items, ']');
   wf_items: bodies non-empty, ranges ascending, a subtracted set placed at the start, after a range or after another
   subtracted set (after a single character "-[" would be read as a range, as in Go).
   For EVERY well-formed item list, both negations, both modes (runes / bytes), fold option on or off, any text after the
   class and any offset k of the class in an ASCII pattern (stt src k rem = the parser positioned at k): the scanning
   loop of parseClass consumes exactly the class and returns class_den (fold) (negated) (bytes) coll subs where coll
   contains exactly the code points of the WRITTEN ranges (appendRange may merge neighbours: same set, valid ranges) and
   subs are, in order, the denotations class_den false neg' bytes coll' [] of the WRITTEN subtracted sets.  With
   C10_class_den_spec this is the documented set. *)
Theorem C10_parse_class_of_print : forall sf named fuel' o src neg items k tl,
  wf_items items = true -> (length items < fuel')%nat ->
  (forall neg body, In (CSub neg body) items -> (S (length body) < fuel')%nat) ->
  ascii (print_class neg items ++ tl) ->
  Z.of_nat (length src) = k + Z.of_nat (length (print_class neg items ++ tl)) ->
  exists coll subs,
    parse_class sf named (S fuel') (stt src k (print_class neg items ++ tl)) o =
      Ok (stt src (k + Z.of_nat (length (print_class neg items))) tl, class_den sf (o_fold o) neg (o_bytes o) coll subs) /\
    (forall x, mem x coll = mem x (ranges_of items)) /\ (forall p, In p coll -> valid p) /\
    Forall2 (sub_rel sf (o_bytes o)) subs (subs_of items).
Proof. exact parse_class_of_print. Qed.

(* a range written with hi < lo at the start of a class is rejected with errClassRange spanning the range, for EVERY
   pair of literal characters and whatever follows *)
Theorem C10_parse_class_rejects_descending : forall sf named fuel' o src lo hi k tl,
  plainb lo = true -> plainb hi = true -> hi < lo -> ascii tl ->
  Z.of_nat (length src) = k + Z.of_nat (length (91 :: lo :: 45 :: hi :: tl)) ->
  parse_class sf named (S (S fuel')) (stt src k (91 :: lo :: 45 :: hi :: tl)) o = Err E_class_range (k + 1) (k + 1 + 1 + 1 + 1).
Proof. exact parse_class_rejects_descending. Qed.

(* the parser enters an ASCII pattern in the state stt src 0 src *)
Theorem C10_init_state : forall src, src <> [] -> ascii src -> init src = Ok (stt src 0 src).
Proof. exact init_stt. Qed.

(* [^a-z0-9_\n-[aeiou]-[^b-y]] : hypotheses met, and the parser's answer on it *)
Example C10_class_text_example :
  let items := [CS (SRange 97 122); CS (SRange 48 57); CS (SChar 95); CS (SEsc 110); CS (SRange 65 70); CSub false [SChar 97; SChar 101; SChar 105; SChar 111; SChar 117]; CSub true [SRange 98 121]] in
  let src := print_class true items in
  wf_items items = true /\ src = [91; 94; 97; 45; 122; 48; 45; 57; 95; 92; 110; 65; 45; 70; 45; 91; 97; 101; 105; 111; 117; 93; 45; 91; 94; 98; 45; 121; 93; 93] /\
  parse_regexp (fun c => c) (fun _ => None) src (mkOpts false false) =
    Ok (RCC [(0, 97); (101, 101); (105, 105); (111, 111); (117, 117); (122, 1114111)] 0).
Proof. vm_compute. repeat split; reflexivity. Qed.

(* escape_spec, digit level: hexval accepts exactly 0-9 A-F a-f with their values (F4: the pinned code took G-Z) *)
Theorem C10_hexval_spec : forall c,
  (is_hex_digit c /\ hexval c = hex_value c /\ 0 <= hexval c < 16) \/ (~ is_hex_digit c /\ hexval c = -1).
Proof. exact hexval_spec. Qed.

Theorem C10_octval_spec : forall c, (48 <= c <= 55 /\ octval c = c - 48) \/ (~ 48 <= c <= 55 /\ octval c = -1).
Proof. exact octval_spec. Qed.

(* escape_spec, accumulation: for EVERY digit string the accumulator of \x{...} / \u / \U is within
   unicode.MaxRune iff the exact (unbounded) value is, and then equals it — no wrap-around (F5) *)
Theorem C10_hex_accumulator_exact : forall ds, Forall (fun d => 0 <= d < 16) ds ->
  (fold_left hex_acc ds 0 <= max_rune_u <-> fold_left (fun r d => r * 16 + d) ds 0 <= max_rune_u) /\
  (fold_left hex_acc ds 0 <= max_rune_u -> fold_left hex_acc ds 0 = fold_left (fun r d => r * 16 + d) ds 0).
Proof. exact hex_acc_in_range_iff. Qed.

(* parser.next stays inside the pattern and reports "invalid rune" inside it *)
Theorem C10_next_in_range : forall p,  pst_ok p ->
  (forall p', next p = Ok p' -> pst_ok p' /\ p_off p' = p_scan p /\ p_src p' = p_src p /\ p_scan p <= p_scan p') /\
  (forall m a e, next p = Err m a e -> 0 <= a <= e /\ e <= Z.of_nat (length (p_src p))).
Proof. intros p H. split; [intros p'; apply next_ok; exact H | intros m a e; apply next_err; exact H]. Qed.

(* NOT proved (checked by the oracle on every generated and mutated pattern): "every error of parse/parseClass/
   parseEscape/parseQuantifier lies inside the pattern" for the whole parser; class_spec from the concrete syntax beyond
   the grammar of Lex/ClassText.v (non-ASCII literals, '.', \d \w \s \p{..} \x.. \u.. and octal escapes inside a class, a
   literal ']' in first position, deeper nesting) and print_parse are replaced by the specification evaluator
   Lex/RegexSpec.v, which is assembled from the operations proved above and compared with the implementation's AST at
   language level. *)

(* hexval and the accumulator of the pinned tree (modelled as hexval_pinned, hex_acc_pinned) violate the two statements;
   see known_findings.txt *)
Example C10_pinned_hexval_refuted : exists c, ~ is_hex_digit c /\ hexval_pinned c <> -1.
Proof. exists 90. split; [unfold is_hex_digit; lia | vm_compute; discriminate]. Qed.

(* \x{100000041} accumulated with 32-bit wrap-around is 'A' *)
Example C10_pinned_accumulator_refuted :
  exists ds, Forall (fun d => 0 <= d < 16) ds /\ fold_left (fun r d => r * 16 + d) ds 0 > max_rune_u /\
             fold_left hex_acc_pinned ds 0 = 65.
Proof. exists [1; 0; 0; 0; 0; 0; 0; 4; 1]. split; [repeat constructor; lia | split; vm_compute; reflexivity]. Qed.

(* non-vacuity *)
Example C10_examples :
  wf_cs 0 [(48, 57); (65, 90)] /\
  new_charset [(97, 99); (48, 57); (98, 122); (58, 58)] = [(48, 58); (97, 122)] /\
  invert [(48, 57); (65, 90)] 255 = [(0, 47); (58, 64); (91, 255)] /\
  subtract [(48, 57); (65, 90)] [(50, 52); (57, 70)] = [(48, 49); (53, 56); (71, 90)] /\
  intersect [(48, 57); (65, 90)] [(50, 52); (57, 70)] = [(50, 52); (57, 57); (65, 70)] /\
  fold (fun c => if c =? 107 then 8490 else if c =? 8490 then 75 else if c =? 75 then 107 else c) 8 [(107, 107)] false
    = [(75, 75); (107, 107); (8490, 8490)] /\
  fold (fun c => if c =? 107 then 8490 else if c =? 8490 then 75 else if c =? 75 then 107 else c) 8 [(107, 107)] true
    = [(75, 75); (107, 107)].
Proof. vm_compute. repeat split; try reflexivity; try (intro H; discriminate H); try discriminate. Qed.

(* hypotheses of C10_fold_exact / C10_class_den_spec are satisfiable: the Kelvin-sign orbit k -> K(U+212A) -> K -> k *)
Example C10_fold_exact_hypotheses_met :
  let sf := fun c => if c =? 107 then 8490 else if c =? 8490 then 75 else if c =? 75 then 107 else c in
  (forall c, mem c [(107, 107)] = true -> closes sf 8 c) /\
  class_den sf true true false [(107, 107); (97, 99)] [[(98, 98)]] = [(0, 74); (76, 96); (98, 98); (100, 106); (108, 8489); (8491, 1114111)].
Proof.
  cbv zeta. split; [|vm_compute; reflexivity].
  intros c Hc. assert (c = 107) by (unfold mem, in_range in Hc; cbn in Hc; lia). subst c. exists 3%nat. split; [lia|reflexivity].
Qed.

Example C10_parse_examples :
  let sf := fun c : Z => c in let named := fun _ : list Z => @None (Z * table * table) in
  parse_regexp sf named [92; 120; 52; 49; 43] (mkOpts false false) = Ok (RRep 1 (-1) (RCC [(65, 65)] 0)) /\   (* \x41+ *)
  parse_regexp sf named [92; 120; 90; 49] (mkOpts false false) = Err E_escape 0 3 /\                            (* \xZ1 *)
  parse_regexp sf named [92; 120; 123; 49; 48; 48; 48; 48; 48; 48; 52; 49; 125] (mkOpts false false)
    = Err E_exceeds_maxrune 0 13 /\                                                                            (* \x{100000041} *)
  parse_regexp sf named [91; 98; 45; 97; 93] (mkOpts false false) = Err E_class_range 1 4.                     (* [b-a] *)
Proof. vm_compute. repeat split; reflexivity. Qed.

Print Assumptions C10_new_charset_spec.
Print Assumptions C10_invert_spec.
Print Assumptions C10_subtract_spec.
Print Assumptions C10_intersect_spec.
Print Assumptions C10_append_range_spec.
Print Assumptions C10_fold_sound_and_extensive.
Print Assumptions C10_fold_exact.
Print Assumptions C10_parse_class_is_class_den.
Print Assumptions C10_class_den_spec.
Print Assumptions C10_hexval_spec.
Print Assumptions C10_octval_spec.
Print Assumptions C10_hex_accumulator_exact.
Print Assumptions C10_next_in_range.
Print Assumptions C10_parse_class_of_print.
Print Assumptions C10_parse_class_rejects_descending.
Print Assumptions C10_init_state.
