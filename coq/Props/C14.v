(* C14 — Template instantiation preserves meaning.
   Model: Syn/Templates.v (syntax/templates.go: Instantiate, resolveInstance, instance.resolve, allocate,
   check, doExpr, doSet, suffix, final sort + Rearrange) and the template semantics [tden] / [eval_pred].
   Lemmas: Syn/Templates_proofs.v, Templates_global.v, Templates_wf_proofs.v, SortPerm.v. *)
From Coq Require Import List ZArith.
From TM Require Import Syn.Expr Syn.Expand Syn.ExtLang Syn.Expand_global Syn.Templates Syn.Templates_proofs Syn.Templates_global Syn.TemplatesWf Syn.Templates_wf_proofs.
Import ListNotations.
Local Open Scope Z_scope.

(* FULL STATEMENT: derives (instantiate M) (inst X args) w <-> tlang M X (bind args) w, inputs at defaults.
   PROVED: C14_instantiate_correct_wf, for the model [instantiate] of syntax.Instantiate as a whole (entry points,
   instance work list, doExpr, names, sort by (nonterminal, suffix), Rearrange): every instance k = (nonterminal, bound
   arguments) has, in the instantiated table, exactly the language its template has under these arguments.  Both languages
   are least solutions (Knaster-Tarski): [tlfp] over pairs (nonterminal, arguments) with the template denotation [tden],
   [lfp] over the instantiated table with [den].  An input is the instance (input nonterminal, no arguments).
   Its only hypothesis is the STATIC boolean [TemplatesWf.wf_templates]: in the body of a nonterminal with parameters P every
   tested parameter is in P, every reference to a nonterminal is in range and passes exactly the parameters of its target,
   in the target's order, each one the literal true / false or taken from a parameter in P; inputs and nonterminals named
   in set expressions have no parameters; fuel exceeds the number of (nonterminal, boolean valuation) pairs.
   C14_wf_templates_checks derives from it the run-time side conditions [inst_checks_core] of C14_instantiate_correct_core
   (no Fatal branch, instances pairwise different, references in range): every allocated instance is one of these pairs,
   instances are found before they are allocated, so the work list is at most as long as the number of pairs.
   C14_sort_is_a_permutation: the final sort builds a permutation for every model, so [inst_checks] (C14_instantiate_correct)
   asks nothing more than [inst_checks_core].  ./check evaluates the booleans on every generated model.
   Also proved: the instantiator's predicate evaluation is the declarative one; no Fatal for bound predicates / arguments;
   the per-expression theorem for doExpr (C14_instantiate_preserves_partial).
   NOT PROVED / NOT MODELLED: PropagateLookaheads (lookahead flags); the bridge from [lfp] to [Derive.derives] is in
   Props/C13.v (the output of Instantiate still contains the extended notation, it is the input of Expand).
   READING of disabled alternatives (fixed by syntax/templates_test.go, `F<T>: a ([T] b) a` => `F: a a`):
   a disabled alternative of a choice is removed; a group left without alternatives and a conditional that
   is not an alternative of a choice match the empty string (see notes/design-C14.md). *)

(* Instantiate as a whole *)
Theorem C14_instantiate_correct :
  forall setden fuel m,
    m_params m <> [] -> inst_checks fuel m = true ->
    let st := snd (inst_loop fuel (nterms m) (m_nonterms m) O (inst_start m) []) in
    forall k cur, nth_error (is_list st) k = Some cur -> forall w,
      tlfp (nterms m) setden (m_nonterms m) (nterms m + i_nt cur) (i_sig cur) w <->
      lfp (nterms m) setden (map val3 (tr_nonterms (instantiate fuel m)))
          (nterms m + Z.of_nat (nth k (inst_perm m (is_list st)) O)) w.
Proof. exact instantiate_correct. Qed.

(* the permutation built by the final sort is a permutation, for all inputs (it is a sort) *)
Theorem C14_sort_is_a_permutation :
  forall m insts, perm_ok (inst_perm m insts) (length insts) = true.
Proof. exact inst_perm_ok. Qed.

(* Instantiate as a whole, without the side condition on the sort *)
Theorem C14_instantiate_correct_core :
  forall setden fuel m,
    m_params m <> [] -> inst_checks_core fuel m = true ->
    let st := snd (inst_loop fuel (nterms m) (m_nonterms m) O (inst_start m) []) in
    forall k cur, nth_error (is_list st) k = Some cur -> forall w,
      tlfp (nterms m) setden (m_nonterms m) (nterms m + i_nt cur) (i_sig cur) w <->
      lfp (nterms m) setden (map val3 (tr_nonterms (instantiate fuel m)))
          (nterms m + Z.of_nat (nth k (inst_perm m (is_list st)) O)) w.
Proof. exact instantiate_correct_core. Qed.

(* the static predicate implies the run-time side conditions: no Fatal branch, instances pairwise different,
   references of the instantiated table in range *)
Theorem C14_wf_templates_checks : forall fuel m, wf_templates fuel m = true -> inst_checks_core fuel m = true.
Proof. exact wf_templates_checks. Qed.

(* Instantiate as a whole, static hypothesis only *)
Theorem C14_instantiate_correct_wf :
  forall setden fuel m,
    m_params m <> [] -> wf_templates fuel m = true ->
    let st := snd (inst_loop fuel (nterms m) (m_nonterms m) O (inst_start m) []) in
    forall k cur, nth_error (is_list st) k = Some cur -> forall w,
      tlfp (nterms m) setden (m_nonterms m) (nterms m + i_nt cur) (i_sig cur) w <->
      lfp (nterms m) setden (map val3 (tr_nonterms (instantiate fuel m)))
          (nterms m + Z.of_nat (nth k (inst_perm m (is_list st)) O)) w.
Proof. exact instantiate_correct_wf. Qed.

(* doExpr in a well-formed body under the environment of an allocated instance: the Fatal flag is untouched, the
   instances stay pairwise different (boolean valuations of their nonterminals), the result only mentions
   existing instances *)
Theorem C14_do_expr_static :
  forall T nts P e x st x' st',
    env_ok P e -> wf_texpr T nts P x = true -> tinv nts st -> do_expr T (Some e) st x = (x', st') ->
    tinv nts st' /\ is_fatal st' = is_fatal st /\ bounded (T + Z.of_nat (length (is_list st'))) x' = true.
Proof.
  intros T nts P e x st x' st' He Hw Hi Hx.
  destruct (do_expr_wf T nts P e He x st x' st' Hw Hi Hx) as ((A & B) & C). auto.
Qed.

(* the template language is a solution of the template equations *)
Theorem C14_template_language_is_a_solution :
  forall T setden nts Y sg w,
    tlfp T setden nts Y sg w <-> tden T (tlfp T setden nts) setden (inst_env (mkInst (Y - T) sg)) (tvalue T nts Y) w.
Proof. exact tlfp_fixpoint. Qed.

Theorem C14_predicate_evaluation :
  forall e p b, check_pred (Some e) p = (b, false) -> b = eval_pred e p.
Proof. exact check_pred_eval. Qed.

Theorem C14_instantiate_preserves_partial :
  forall T trho setden rho e x st x' st', do_expr T (Some e) st x = (x', st') ->
    (exists more, is_list st' = is_list st ++ more) /\
    ((forall k i, nth_error (is_list st') k = Some i ->
        forall w, rho (T + Z.of_nat k) w <-> trho (T + i_nt i) (i_sig i) w) ->
     is_fatal st' = false ->
     forall w, den T rho setden x' w <-> tden T trho setden e x w).
Proof.
  intros T trho setden rho e x st x' st' H. split.
  - destruct (do_expr_grows T (Some e) x st x' st' H) as [(more & Hm & _) _]. now exists more.
  - intros Hc Hnf. exact (do_expr_den T trho setden rho e x st x' st' H (conj Hc Hnf)).
Qed.

Theorem C14_no_fatal_partial :
  (forall e p, pred_bound e p = true -> snd (check_pred (Some e) p) = false) /\
  (forall st e nt args, args_bound e args = true -> is_fatal (snd (resolve_instance st (Some e) nt args)) = is_fatal st).
Proof. split; [exact check_pred_no_fatal | exact resolve_instance_no_fatal]. Qed.

(* non-vacuity.  %flag A(0), B(1); terminals a b = 0 1;  N0 (2): N1<+A, B: false> ;
   N1<A,B> (3): [A && !B] a N1<A: B, B> | [B] b | a *)
Definition ex_tm : model :=
  mkModel [[97]; [98]] [mkParam [65] [] false; mkParam [66] [] false]
    [mkNt [78; 48] [] (ERef 3 [mkArg 0 s_true 0; mkArg 1 s_false 0]) 0;
     mkNt [78; 49] [0; 1]
       (EChoice [ECond (PAnd [PEq 0 s_true; PNot (PEq 1 s_true)]) (ESeq [ERef 0 []; ERef 3 [mkArg 0 [] 1; mkArg 1 [] 1]]);
                 ECond (PEq 1 s_true) (ERef 1 []);
                 ERef 0 []]) 0]
    [mkInput 0 false] [].

Example C14_example :
  map (fun '(n, v, _) => (n, v)) (tr_nonterms (instantiate 100 ex_tm)) =
    [ ([78; 48], ERef 4 []);                                   (* N0: N1_A *)
      ([78; 49], ERef 0 []);                                   (* N1: a *)
      ([78; 49; 95; 65], EChoice [ESeq [ERef 0 []; ERef 3 []]; ERef 0 []]) ]   (* N1_A: a N1 | a *)
  /\ tr_fatal (instantiate 100 ex_tm) = false
  /\ eval_pred [(0, s_true); (1, s_false)] (PAnd [PEq 0 s_true; PNot (PEq 1 s_true)]) = true
  /\ pred_bound [(0, s_true); (1, s_false)] (PAnd [PEq 0 s_true; PNot (PEq 1 s_true)]) = true.
Proof. vm_compute. repeat split; reflexivity. Qed.

Example C14_example_wf : wf_templates 100 ex_tm = true /\ wf_templates 5 ex_tm = false.
Proof. vm_compute. split; reflexivity. Qed.

(* the static condition matters: an argument taken from a parameter the enclosing nonterminal does not have
   reaches the TakeFrom Fatal *)
Example C14_example_not_wf :
  let m := mkModel [[97]] [mkParam [65] [] false]
             [mkNt [78; 48] [] (ERef 2 [mkArg 0 [] 0]) 0; mkNt [78; 49] [0] (ERef 0 []) 0] [mkInput 0 false] [] in
  wf_templates 100 m = false /\ tr_fatal (instantiate 100 m) = true.
Proof. vm_compute. split; reflexivity. Qed.

Example C14_example_checks : inst_checks 100 ex_tm = true /\ inst_checks_core 100 ex_tm = true /\ m_params ex_tm <> [] /\
  is_list (snd (inst_loop 100 (nterms ex_tm) (m_nonterms ex_tm) O (inst_start ex_tm) [])) =
    [mkInst 0 []; mkInst 1 [(0, s_true); (1, s_false)]; mkInst 1 [(0, s_false); (1, s_false)]].
Proof. split; [vm_compute; reflexivity|]. split; [vm_compute; reflexivity|]. split; [discriminate | vm_compute; reflexivity]. Qed.

Print Assumptions C14_instantiate_correct.
Print Assumptions C14_sort_is_a_permutation.
Print Assumptions C14_instantiate_correct_core.
Print Assumptions C14_wf_templates_checks.
Print Assumptions C14_instantiate_correct_wf.
Print Assumptions C14_do_expr_static.
Print Assumptions C14_template_language_is_a_solution.
Print Assumptions C14_predicate_evaluation.
Print Assumptions C14_instantiate_preserves_partial.
Print Assumptions C14_no_fatal_partial.
