(* C19 — Error recovery is safe and transparent.
   Model: Gram/Recover.v — the recovering parse loop of go_parser.go.tmpl (error reporting with the `recovering`
   counter, recoverFromError, skipBrokenCode, reduceAll) over the event loop of Gram/Events.v; the error handler
   is an ARBITRARY oracle (number of errors so far -> continue?). *)
From Coq Require Import List ZArith Bool Lia.
From TM Require Import Gram.PTables Gram.Run Gram.Validator Gram.Events Gram.Recover Gram.Recover_proofs Gram.Recover_progress.
From TM Require Import Gram.RedTerm Gram.RedTerm_proofs Gram.RedTermRec_proofs.
From TM Require Import Gram.Cfg Gram.CertGen Gram.RecoverSafe Gram.RecoverSafe_proofs Gram.RedTermFuel_proofs Gram.RecoverFuel_proofs.
Import ListNotations.
Local Open Scope Z_scope.

(* Transparency: on EVERY input the loop without recovery accepts (same tables, same event table), the recovering
   loop accepts as well, with the same stack, the same listener events, and without calling the error handler —
   for every error handler and fuel. *)
Theorem C19_recovery_transparent :
  forall p eh f x x' l,
  xrun_loop f (rp_m p) (rp_evt p) (rp_fixws p) (rp_eoi_off p) (rp_end p) x = (Accept, x') ->
  exists c', rrun_loop f p eh (mkRC x 0 [] l) = (RAccept, c') /\ rc_x c' = x' /\ rc_errors c' = [].
Proof. exact recovery_transparent. Qed.

(* Reported errors: for every input with non-decreasing token offsets, every error handler and fuel, at the end
   of the run (whatever its outcome) the remaining input is a suffix of the input, every error passed to the
   handler is the range of a token of the input or of the end-of-input token (hence inside the input), and the
   error offsets are non-decreasing. *)
Theorem C19_errors_inside_the_input_and_ordered :
  forall p eh f start input o c',
  sorted_offs p input ->
  rrun f p eh start input = (o, c') ->
  is_suffix (xc_input (rc_x c')) input /\
  Forall (in_tokens p input) (rc_errors c') /\
  nondecreasing (map fst (rc_errors c')).
Proof.
  intros p eh f start input o c' Hs Hrun. unfold rrun in Hrun.
  destruct (errors_in_input_and_ordered p eh f input _ _ _ Hs (einv_init p start input) Hrun) as (H1 & H2 & H3 & _).
  repeat split; assumption.
Qed.

(* recoverFromError terminates: its loop never needs more iterations than tokens plus recovery symbols *)
Theorem C19_recovery_loop_terminates :
  forall p stack input, recover_from_error p stack input <> RecFuel.
Proof. exact recover_terminates. Qed.

(* Conditions on the tables: LALR(1) actions (lalr1: the action ignores the tokens after the next one),
   reduceAll's final shift test agrees with the loop (shift_ok_sound), the end state is not negative.  They hold
   for both encodings the generated parsers use (theorems C19_conditions_hold_for_default_tables and _optimized_tables below). *)

(* Simulation of reduceAll by the main loop: if reduceAll, walking its state stack stack2 over the real stack,
   answers "the terminal can be shifted", then from every loop configuration whose stack is the real stack with
   entries for stack2 on top, the loop performs at most `fuel` iterations, all of them plain reductions (reduces_for) that leave the
   input, the recovery counter and the error list untouched, and arrives in the end state or in a state where
   it shifts that terminal. *)
Theorem C19_reduceAll_predicts_the_loop :
  forall p eh, lalr1 p -> shift_ok_sound p -> 0 <= rp_end p ->
  forall f stack stack2 state symbol s',
  reduce_all f p stack stack2 state symbol = Some (s', true) ->
  forall x r errs l,
  vstack (xc_stack x) stack stack2 -> stack2 <> [] -> hd 0 stack2 = state -> xc_state x = state ->
  t_sym (next_tok (rp_eoi_off p) (xc_input x)) = symbol ->
  exists k x', (k <= f)%nat /\ rsteps p eh k (mkRC x r errs l) (mkRC x' r errs l) /\ xc_input x' = xc_input x /\
    reduces_for p k x = true /\
    (xc_state x' = rp_end p \/ exists q, m_act (rp_m p) (xc_state x') symbol [] = Shift q).
Proof. exact reduce_all_sim. Qed.

(* Progress: whenever the error branch of the loop continues (recoverFromError returned a stack and a next
   token t), the loop performs at most 4 * (|stack| + 1) + 64 further iterations without touching the input or
   reporting an error, and is then in the end state or shifts t. *)
Theorem C19_progress_after_recovery :
  forall p eh, lalr1 p -> shift_ok_sound p -> 0 <= rp_end p ->
  forall c0 stack events c1, handle_error p eh c0 stack events = RContinue c1 ->
  is_suffix (xc_input (rc_x c1)) (xc_input (rc_x c0)) /\
  exists k c2, (k <= S (length stack) * 4 + 64)%nat /\ rsteps p eh k c1 c2 /\
    xc_input (rc_x c2) = xc_input (rc_x c1) /\ rc_errors c2 = rc_errors c1 /\ reduces_for p k (rc_x c1) = true /\
    (xc_state (rc_x c2) = rp_end p \/
     exists q c3, m_act (rp_m p) (xc_state (rc_x c2)) (t_sym (next_tok (rp_eoi_off p) (xc_input (rc_x c1)))) [] = Shift q /\
       rstep p eh c2 = RContinue c3 /\ xc_state (rc_x c3) = q /\ rc_errors c3 = rc_errors c1 /\
       xc_input (rc_x c3) = (if t_sym (next_tok (rp_eoi_off p) (xc_input (rc_x c1))) =? 0 then xc_input (rc_x c1)
                             else tl (xc_input (rc_x c1)))).
Proof.
  intros p eh Hnm Hso Hend c0 stack events c1 H.
  destruct (recovery_progress p eh Hnm Hso Hend _ _ _ _ H) as (Hsuf & _ & k & c2 & Hk & Hsteps & Hin & He & Hrf & Hfin).
  split; [exact Hsuf|]. exists k, c2. repeat (split; [assumption|]).
  destruct Hfin as [Hfin|(c3 & q & e & Hact & Hs & He3 & Ex)]; [left; exact Hfin|right].
  exists q, c3. rewrite <- Hin, <- He, Ex. auto 6.
Qed.

(* Hence every recovery episode consumes at least one input token or ends the parse (end-of-input is only
   shifted into the end state: eoi_ends). *)
Theorem C19_every_recovery_consumes_a_token_or_ends_the_parse :
  forall p eh, lalr1 p -> shift_ok_sound p -> 0 <= rp_end p -> eoi_ends p ->
  forall c0 stack events c1, handle_error p eh c0 stack events = RContinue c1 ->
  exists k c2, (k <= S (length stack) * 4 + 64)%nat /\ rsteps p eh k c1 c2 /\ rc_errors c2 = rc_errors c1 /\
    (xc_state (rc_x c2) = rp_end p \/
     exists c3, rstep p eh c2 = RContinue c3 /\ rc_errors c3 = rc_errors c1 /\
       ((length (xc_input (rc_x c3)) < length (xc_input (rc_x c0)))%nat \/ xc_state (rc_x c3) = rp_end p)).
Proof.
  intros p eh Hnm Hso Hend Heoi c0 stack events c1 H.
  destruct (recovery_progress p eh Hnm Hso Hend _ _ _ _ H) as (Hsuf & _ & k & c2 & Hk & Hsteps & Hin2 & He2 & _ & Hfin).
  exists k, c2. repeat (split; [assumption|]). destruct Hfin as [Hfin|(c3 & Hs)]; [left; exact Hfin|right]. exists c3.
  destruct (shift_consumes p eh (fun _ => True) (fun _ _ _ _ => I) (fun c q _ => Heoi _ q) c2 c3 I Hs) as [_ Hc].
  destruct Hs as (q & e & _ & Hs & He3 & _). split; [exact Hs|]. split; [congruence|].
  apply is_suffix_length in Hsuf. rewrite Hin2 in Hc. destruct Hc; [right; assumption|left; lia].
Qed.

(* Termination of the whole recovering parse, relative to the plain loop: if no configuration of the plain loop
   starts an infinite sequence of reductions (reductions_terminate; a property of the tables alone, the domain of
   C01), then for EVERY configuration (stack, input, recovery counter) and every error handler the recovering loop
   stops with some fuel: error recovery adds no divergence. *)
Theorem C19_recovering_parse_terminates :
  forall p eh, lalr1 p -> shift_ok_sound p -> 0 <= rp_end p -> eoi_ends p -> reductions_terminate p ->
  forall c, exists f, fst (rrun_loop f p eh c) <> RFuel.
Proof.
  intros p eh Hnm Hso Hend Heoi Hred c. apply (rrun_terminates_inv p eh Hnm Hso Hend (fun _ => True)); auto.
  intros c0 q _. apply Heoi.
Qed.

(* An explicit fuel bound, linear in the remaining input: if every reduction sequence of the plain loop has at most
   R steps (reductions_bounded R), then (|input| + 1) * (2 R + 3) + R + 1 iterations suffice for EVERY
   configuration and handler: at most |input| + 1 shifts, at most one recovery episode per shift, at most R
   reductions before each of them. *)
Theorem C19_recovering_parse_fuel_bound :
  forall p eh, lalr1 p -> shift_ok_sound p -> 0 <= rp_end p -> forall R, eoi_ends p -> reductions_bounded p R ->
  forall c, fst (rrun_loop ((length (xc_input (rc_x c)) + 1) * (2 * R + 3) + R + 1) p eh c) <> RFuel.
Proof.
  intros p eh Hnm Hso Hend R Heoi Hred c.
  destruct (rrun_fuel_weighted p eh Hnm Hso Hend (fun _ => True)) with (F := O) (K := R) (n := length (xc_input (rc_x c))) (c := c)
    as (f & Hfb & Hf); auto.
  - intros c0 q _. apply Heoi.
  - intros c0 _ j c' _ Hr. pose proof (reduces_for_lt p _ _ _ Hr (Hred _)). lia.
  - apply (halts_le p eh f); [|exact Hf]. unfold fuel_w in Hfb. lia.
Qed.

Theorem C19_more_fuel_changes_nothing :
  forall p eh f c o c', rrun_loop f p eh c = (o, c') -> o <> RFuel -> forall g, rrun_loop (f + g) p eh c = (o, c').
Proof. exact rrun_fuel_mono. Qed.

Theorem C19_conditions_hold_for_default_tables :
  forall p t rl rs, rp_m p = lalr1_machine t rl rs -> rp_shift_ok p = shift_ok_default t -> lalr1 p /\ shift_ok_sound p.
Proof. exact conditions_default. Qed.

Theorem C19_conditions_hold_for_optimized_tables :
  forall p o terms rl rs, rp_m p = opt_machine o terms rl rs -> rp_shift_ok p = shift_ok_opt o -> lalr1 p /\ shift_ok_sound p.
Proof. exact conditions_opt. Qed.

(* RedTerm.check_redterm m nstates T NS F (a boolean, evaluated on the real tables by the C19 check): for every state b,
   every symbol A with a goto t = goto(b, A) and every terminal a, the reductions on lookahead a from the stack
   [t; b] stop, or pop the entry b, within F steps.  check_range: shifts and gotos of table states are table
   states, reduced rules have a symbol of the tables as left-hand side.  Neither uses the grammar or a certificate;
   C01's Validator.check is not needed. *)

(* Reduction sequences are bounded by the stack depth: on tables passing the two checks, a configuration whose stack
   holds table states and whose next token is a terminal admits at most (|stack| + 1) * F + 1 consecutive reductions
   of the plain loop (each anchored phase ends within F steps and leaves a strictly lower stack). *)
Theorem C19_reductions_bounded_by_stack_depth :
  forall p nstates T NS F, lalr1 p ->
  check_redterm (rp_m p) nstates T NS F = true -> check_range (rp_m p) nstates T NS = true ->
  forall x, xinv p nstates T x -> reduces_for p (S (S (length (xc_stack x)) * F + 1)) x = false.
Proof. exact redterm_bound. Qed.

(* Termination of the whole recovering parse WITHOUT the hypotheses reductions_terminate / eoi_ends: on tables passing
   check_range, check_redterm and check_eoi (end-of-input is only shifted into the end state, table states only),
   whose 'error' symbol is a symbol of the tables and has no goto from the state -1 (the state a failed goto leaves
   on the stack), the recovering loop stops with some fuel from EVERY configuration over table states and terminals
   (rinv: any stack, any recovery counter, any error list) and hence for every input over the terminals, every start
   state of the tables and every error handler. *)
Theorem C19_recovering_parse_terminates_on_validated_tables :
  forall p eh nstates T NS F, lalr1 p -> shift_ok_sound p -> 0 <= rp_end p ->
  check_range (rp_m p) nstates T NS = true -> check_redterm (rp_m p) nstates T NS F = true ->
  check_eoi (rp_m p) nstates (rp_end p) = true ->
  0 <= rp_err_sym p < NS -> m_goto (rp_m p) (-1) (rp_err_sym p) = -1 ->
  (forall c, rinv nstates T c -> exists f, fst (rrun_loop f p eh c) <> RFuel) /\
  (forall start input, 0 <= start < nstates -> Forall (fun t => 0 <= t_sym t < T) input ->
     exists f, fst (rrun f p eh start input) <> RFuel).
Proof.
  intros p eh nstates T NS F Hnm Hso Hend Hrg Hrt Heoi Herr Hm1.
  destruct (rrun_fuel_validated p eh nstates T NS F Hnm Hso Hend Hrg Hrt Heoi Herr Hm1) as [H1 H2].
  split; [intros c Hc|intros start input Hs Ht]; eexists; [apply H1|apply H2]; assumption.
Qed.

(* The recovering loop relative to ANY invariant of its iterations (the general form of the theorem above). *)
Theorem C19_recovering_parse_terminates_under_an_invariant :
  forall p eh, lalr1 p -> shift_ok_sound p -> 0 <= rp_end p ->
  forall Inv : rconfig -> Prop,
  (forall c c', Inv c -> rstep p eh c = RContinue c' -> Inv c') ->
  (forall c, Inv c -> exists n, reduces_for p n (rc_x c) = false) ->
  (forall c q, Inv c -> m_act (rp_m p) (xc_state (rc_x c)) 0 [] = Shift q -> q = rp_end p) ->
  forall c, Inv c -> exists f, fst (rrun_loop f p eh c) <> RFuel.
Proof. intros p eh Hnm Hso Hend Inv Hstep Hred Heoi. exact (rrun_terminates_inv p eh Hnm Hso Hend Inv Hstep Heoi Hred). Qed.

(* What the generated code does with the state -1: the main loop pushes the result of gotoState after a reduction even
   when it is -1 and then calls recoverFromError, whose first loop evaluates gotoState(stack[size-1].state, errSymbol)
   for EVERY entry, i.e. also gotoState(-1, errSymbol): harmless with default tables (the FromTo search finds nothing),
   an index-out-of-range (tmAction[-1]) with optimized tables.  So the state -1 reaches gotoState exactly when a reduction
   finds no goto.  The theorems below show that this never happens on tables that pass C01's certificate check: the
   stack of the recovering loop always spells a path of the certified LR automaton from the start state (sinv: Validator_proofs.stk
   over the (symbol, state) pairs of the stack) -- also after recoverFromError has cut the stack and pushed the 'error'
   entry, provided gotoState on 'error' agrees with the action table (check_err_goto, a boolean evaluated on the real tables) --
   and on such stacks every reduction finds its goto (a table state) and leaves the bottom entry alone. *)
Theorem C19_certified_stack_invariant :
  forall g p nstates finals nl ft ann eh i,
  lalr1 p -> check g (rp_m p) nstates finals nl ft ann = true ->
  check_err_goto (rp_m p) nstates (vT g) (rp_err_sym p) = true -> (i < ninputs g)%nat ->
  (forall input, toks_in g input -> sinv g p i (mkRC (mkXC [mkX 0 0 0 (Z.of_nat i) (TLeaf 0 0 0)] (Z.of_nat i) input []) 0 [] (0, 0))) /\
  (forall c c', sinv g p i c -> rstep p eh c = RContinue c' -> sinv g p i c') /\
  (forall c, sinv g p i c -> Forall (fun e => 0 <= x_state e < nstates) (xc_stack (rc_x c))) /\
  (forall c rule, sinv g p i c ->
     m_act (rp_m p) (xc_state (rc_x c)) (t_sym (next_tok (rp_eoi_off p) (xc_input (rc_x c)))) [] = Reduce rule ->
     (Z.to_nat (m_rule_len (rp_m p) rule) < length (xc_stack (rc_x c)))%nat /\
     exists b rest, skipn (Z.to_nat (m_rule_len (rp_m p) rule)) (xc_stack (rc_x c)) = b :: rest /\
       0 <= m_goto (rp_m p) (x_state b) (m_rule_sym (rp_m p) rule) < nstates).
Proof.
  intros g p nstates finals nl ft ann eh i Hnm Hchk Herr Hi.
  split; [intros input Ht; apply sinv_init; exact Ht|]. split; [intros c c'; eapply rstep_sinv; eauto|].
  split; [intros c (_ & Hp & _); eapply spath_all; eauto|intros c rule; eapply reduce_goto_present; eauto].
Qed.

(* Crash freedom.  The model's RCrash outcomes stand for the index-out-of-range panics of the Go code: 1 = the main loop
   pops the bottom entry, 2 = reduceAll walks below the stack / indexes tmAction[-1], 3 = recoverFromError's loop does not end.
   The model's reduceAll also answers 2 when its own iteration budget 4 * (|stack| + 1) + 64 is used up (the Go function has no
   budget).  On certified tables, for every input over the terminals, every handler and fuel: the only possible crash outcome
   is that budget being exhausted by that many genuine consecutive reductions of the loop (model_fuel_exhausted) ... *)
Theorem C19_recovering_parse_crashes_only_by_model_fuel :
  forall g p nstates finals nl ft ann eh i,
  lalr1 p -> check g (rp_m p) nstates finals nl ft ann = true ->
  check_err_goto (rp_m p) nstates (vT g) (rp_err_sym p) = true -> (i < ninputs g)%nat ->
  forall f input why, toks_in g input -> fst (rrun f p eh (Z.of_nat i) input) = RCrash why ->
  why = 2 /\ model_fuel_exhausted g p i.
Proof.
  intros g p nstates finals nl ft ann eh i Hnm Hchk Herr Hi f input why Ht E. unfold rrun in E.
  destruct (rrun_loop f p eh _) as [o c'] eqn:Erun.
  exact (rrun_loop_safe g p nstates finals nl ft ann eh i Hnm Hchk Herr Hi f _ o c' (sinv_init g p i input Ht) Erun why E).
Qed.

(* ... and when every anchored reduction phase ends within F <= 4 steps (check_redterm with F = 4: at most 4 * (h + 1) + 1
   consecutive reductions on a stack of height h, below reduceAll's budget) the recovering loop never returns RCrash. *)
Theorem C19_recovering_parse_never_crashes :
  forall g p nstates finals nl ft ann eh F i,
  lalr1 p -> check g (rp_m p) nstates finals nl ft ann = true ->
  check_err_goto (rp_m p) nstates (vT g) (rp_err_sym p) = true ->
  check_range (rp_m p) nstates (vT g) (vNS g) = true -> check_redterm (rp_m p) nstates (vT g) (vNS g) F = true ->
  (F <= 4)%nat -> (i < ninputs g)%nat ->
  forall f input why, toks_in g input -> fst (rrun f p eh (Z.of_nat i) input) <> RCrash why.
Proof.
  intros g p nstates finals nl ft ann eh F i Hnm Hchk Herr Hrg Hrt HF Hi f input why Ht. unfold rrun.
  destruct (rrun_loop f p eh _) as [o c'] eqn:Erun.
  exact (rrun_loop_never_crashes g p nstates finals nl ft ann eh i Hnm Hchk Herr Hi F Hrg Hrt HF f _ o c' why (sinv_init g p i input Ht) Erun).
Qed.

(* Termination on certified tables, WITHOUT the premise m_goto (-1) err = -1 (the state -1 never gets on the stack), for any
   machine whose action looks at one terminal: every configuration of the invariant, every input over the terminals. *)
Theorem C19_recovering_parse_terminates_on_certified_tables :
  forall g p nstates finals nl ft ann eh F i,
  lalr1 p -> shift_ok_sound p -> 0 <= rp_end p ->
  check g (rp_m p) nstates finals nl ft ann = true ->
  check_err_goto (rp_m p) nstates (vT g) (rp_err_sym p) = true ->
  check_range (rp_m p) nstates (vT g) (vNS g) = true -> check_redterm (rp_m p) nstates (vT g) (vNS g) F = true ->
  check_eoi (rp_m p) nstates (rp_end p) = true -> (i < ninputs g)%nat ->
  (forall c, sinv g p i c -> exists f, fst (rrun_loop f p eh c) <> RFuel) /\
  (forall input, toks_in g input -> exists f, fst (rrun f p eh (Z.of_nat i) input) <> RFuel).
Proof.
  intros g p nstates finals nl ft ann eh F i Hnm Hso Hend Hchk Herr Hrg Hrt Heoi Hi.
  destruct (rrun_fuel_certified g p nstates finals nl ft ann eh F i Hnm Hso Hend Hchk Herr Hrg Hrt Heoi Hi) as [H1 H2].
  split; [intros c Hc|intros input Ht]; eexists; [apply H1|apply H2]; assumption.
Qed.

(* in particular for the optimized (displacement) encoding: opt_machine with reduceAll's test shift_ok_opt *)
Theorem C19_recovering_parse_terminates_on_validated_optimized_tables :
  forall g p o terms rl rs nstates finals nl ft ann eh F i,
  rp_m p = opt_machine o terms rl rs -> rp_shift_ok p = shift_ok_opt o -> 0 <= rp_end p ->
  check g (rp_m p) nstates finals nl ft ann = true ->
  check_err_goto (rp_m p) nstates (vT g) (rp_err_sym p) = true ->
  check_range (rp_m p) nstates (vT g) (vNS g) = true -> check_redterm (rp_m p) nstates (vT g) (vNS g) F = true ->
  check_eoi (rp_m p) nstates (rp_end p) = true -> (i < ninputs g)%nat ->
  forall input, toks_in g input -> exists f, fst (rrun f p eh (Z.of_nat i) input) <> RFuel.
Proof.
  intros g p o terms rl rs nstates finals nl ft ann eh F i Hm Hs Hend Hchk Herr Hrg Hrt Heoi Hi input Ht.
  destruct (conditions_opt p o terms rl rs Hm Hs) as [Hnm Hso]. eexists.
  apply (rrun_fuel_certified g p nstates finals nl ft ann eh F i Hnm Hso Hend Hchk Herr Hrg Hrt Heoi Hi). exact Ht.
Qed.

(* the evaluated form of C01's check (CertGen.validate = check_report on the generated certificate) *)
Theorem C19_validate_zero_is_check :
  forall g m nstates finals nl ft ann, check_report g m nstates finals nl ft ann = 0 -> check g m nstates finals nl ft ann = true.
Proof. exact check_report_zero. Qed.

(* Explicit fuel for the whole parse from the validators alone: no uniform bound R on reduction sequences is assumed. *)
(* Amortised reduction bound: k consecutive reductions of the plain loop (reduce_n k x = Some y) from a configuration of the
   invariant satisfy  k + F * |stack y| <= F * |stack x| + F^2 + 2 F + 1 : a phase that pops its anchor pays for its <= F
   steps with the entry it removes, only the last phase can raise the stack (by <= F).  Implies the bound of
   C19_reductions_bounded_by_stack_depth and bounds the height afterwards. *)
Theorem C19_reductions_amortized_by_stack_depth :
  forall p nstates T NS F, lalr1 p ->
  check_redterm (rp_m p) nstates T NS F = true -> check_range (rp_m p) nstates T NS = true ->
  forall x, xinv p nstates T x -> forall k y, reduce_n p k x = Some y ->
  (k + F * length (xc_stack y) <= F * length (xc_stack x) + F * F + 2 * F + 1)%nat.
Proof. exact redterm_amortized. Qed.

(* With the potential F * |stack| (a shift or a recovery raises it by at most 2 F, every reduction sequence is paid by it up to
   F^2 + 2 F + 1):  parse_fuel F h n = F h + F^2 + 2 F + 1 + (n + 1) (2 F^2 + 8 F + 4) + 3  iterations suffice from every
   configuration of the invariant with stack height h and n tokens left, for every error handler -- linear in the input;
   a parse of `input` needs at most parse_fuel F 1 |input| iterations.  Validated tables (default encoding): *)
Theorem C19_recovering_parse_fuel_bound_on_validated_tables :
  forall p eh nstates T NS F, lalr1 p -> shift_ok_sound p -> 0 <= rp_end p ->
  check_range (rp_m p) nstates T NS = true -> check_redterm (rp_m p) nstates T NS F = true ->
  check_eoi (rp_m p) nstates (rp_end p) = true ->
  0 <= rp_err_sym p < NS -> m_goto (rp_m p) (-1) (rp_err_sym p) = -1 ->
  (forall c, rinv nstates T c ->
     fst (rrun_loop (parse_fuel F (length (xc_stack (rc_x c))) (length (xc_input (rc_x c)))) p eh c) <> RFuel) /\
  (forall start input, 0 <= start < nstates -> Forall (fun t => 0 <= t_sym t < T) input ->
     fst (rrun (parse_fuel F 1 (length input)) p eh start input) <> RFuel).
Proof. exact rrun_fuel_validated. Qed.

(* certified tables (both encodings) *)
Theorem C19_recovering_parse_fuel_bound_on_certified_tables :
  forall g p nstates finals nl ft ann eh F i,
  lalr1 p -> shift_ok_sound p -> 0 <= rp_end p ->
  check g (rp_m p) nstates finals nl ft ann = true ->
  check_err_goto (rp_m p) nstates (vT g) (rp_err_sym p) = true ->
  check_range (rp_m p) nstates (vT g) (vNS g) = true -> check_redterm (rp_m p) nstates (vT g) (vNS g) F = true ->
  check_eoi (rp_m p) nstates (rp_end p) = true -> (i < ninputs g)%nat ->
  (forall c, sinv g p i c ->
     fst (rrun_loop (parse_fuel F (length (xc_stack (rc_x c))) (length (xc_input (rc_x c)))) p eh c) <> RFuel) /\
  (forall input, toks_in g input -> fst (rrun (parse_fuel F 1 (length input)) p eh (Z.of_nat i) input) <> RFuel).
Proof. exact rrun_fuel_certified. Qed.

(* NOT proved: (1) crash freedom without the side condition F <= 4: the model's reduceAll carries an iteration budget
   the Go code does not have, so for tables with longer anchored reduction phases the model may answer RCrash 2 where the
   generated parser simply keeps reducing (C19_recovering_parse_crashes_only_by_model_fuel pins the outcome down to exactly
   that case); (2) for tables that only pass check_range/check_redterm (no certificate) the premise m_goto (-1) err = -1 of
   C19_recovering_parse_terminates_on_validated_tables remains, and it is false in the model of optimized tables; note also
   that eoi_ends (all integers as states) fails for opt_machine, so C19_recovering_parse_terminates is vacuous for optimized
   tables while the validated/certified theorems use check_eoi (table states only). *)

(* non-vacuity: a two-state machine with an 'error' transition; the input "x y" has a syntax error at x, recovery
   skips x, pushes the error entry, and the loop then shifts y into the end state *)
Definition mx : machine :=
  mkMachine (fun s a _ => if (s =? 1) && (a =? 3) then Shift 2 else Err)
            (fun s x => if (s =? 0) && (x =? 1) then 1 else -1) (fun _ => 0) (fun _ => 0).
Definition px : rparams := mkRP mx [] true 2 2 1 [3] (fun s a => (s =? 1) && (a =? 3)) (fun _ _ => false).

Example C19_example :
  lalr1 px /\ shift_ok_sound px /\ 0 <= rp_end px /\ eoi_ends px /\ reductions_terminate px /\ reductions_bounded px 0 /\
  (let '(o, c) := rrun 10 px (fun _ => true) 0 [mkTok 2 0 1; mkTok 3 1 2] in
   o = RAccept /\ rc_errors c = [(0, 1)] /\ xc_input (rc_x c) = [] /\ map x_sym (xc_stack (rc_x c)) = [3; 1; 0]).
Proof.
  split; [intros s a more; reflexivity|]. split.
  { intros s a H. simpl in *. rewrite H. eauto. }
  split; [simpl; discriminate|]. split.
  { intros s q H. simpl in H. rewrite andb_false_r in H. discriminate. }
  split.
  { intros x. exists 1%nat. simpl. unfold plain_reduce. simpl. destruct (_ && _); reflexivity. }
  split.
  { intros x. simpl. unfold plain_reduce. simpl. destruct (_ && _); reflexivity. }
  vm_compute. repeat split; reflexivity.
Qed.

(* non-vacuity of the validated-tables theorem: textmapper's real tables of C01's example grammar
   N0 : 'a' 'b' 'b' N0 | %empty  (7 states, 4 terminals, 5 symbols; terminal 1 plays the 'error' symbol) pass the
   checks with F = 8, and the recovering loop stops on "abba" *)
Definition t0 : default_enc :=      (* the tables of Props/C01.v *)
  mkDefaultEnc [-3; -1; -1; -9; 0; -1; -2] [2; -1; 0; 1; -1; -2; 2; -1; 0; 1; -1; -2] [0; 2; 2; 6; 10; 14]
               [5; 6; 0; 1; 3; 1; 1; 2; 2; 3; 0; 5; 3; 4].
Definition m0 : machine := lalr1_machine t0 [4; 0] [4; 4].
Definition p0 : rparams := mkRP m0 [] false 4 6 1 [] (shift_ok_default t0) (fun _ _ => false).

Example C19_validated_example :
  lalr1 p0 /\ shift_ok_sound p0 /\ 0 <= rp_end p0 /\
  check_range (rp_m p0) 7 4 5 = true /\ check_redterm (rp_m p0) 7 4 5 8 = true /\ check_eoi (rp_m p0) 7 (rp_end p0) = true /\
  0 <= rp_err_sym p0 < 5 /\ m_goto (rp_m p0) (-1) (rp_err_sym p0) = -1 /\
  rinv 7 4 (mkRC (mkXC [mkX 0 0 0 0 (TLeaf 0 0 0)] 0 (toks_of [2; 3; 3; 2]) []) 0 [] (0, 0)) /\
  fst (rrun 40 p0 (fun _ => true) 0 (toks_of [2; 3; 3; 2])) = RSyntax 4 4.
Proof.
  destruct (conditions_default p0 t0 [4; 0] [4; 4] eq_refl eq_refl) as [H1 H2].
  split; [exact H1|]. split; [exact H2|]. split; [simpl; discriminate|].
  split; [vm_compute; reflexivity|]. split; [vm_compute; reflexivity|]. split; [vm_compute; reflexivity|].
  split; [simpl; split; [discriminate|reflexivity]|]. split; [vm_compute; reflexivity|]. split.
  - unfold rinv. cbn [rc_x xc_stack xc_state xc_input]. split; [discriminate|].
    split; [constructor; [unfold st_in; simpl; split; [discriminate|reflexivity]|constructor]|]. split; [reflexivity|].
    repeat constructor; unfold tok_in; simpl; try discriminate.
  - vm_compute. reflexivity.
Qed.

(* non-vacuity of the certified-tables theorems: the same real tables with C01's grammar and generated certificate
   pass check, check_err_goto, and check_redterm with F = 4 *)
Definition g0 : grammar := mkGrammar 4 1 [mkRule 4 [2; 3; 3; 4] 0; mkRule 4 [] 0] [(4, true)] [].

Example C19_certified_example :
  check g0 (rp_m p0) 7 [6] (nullable_set g0) (first_sets g0) (fst (gen_cert g0 400)) = true /\
  check_err_goto (rp_m p0) 7 (vT g0) (rp_err_sym p0) = true /\
  check_range (rp_m p0) 7 (vT g0) (vNS g0) = true /\ check_redterm (rp_m p0) 7 (vT g0) (vNS g0) 4 = true /\
  (0 < ninputs g0)%nat /\ toks_in g0 (toks_of [2; 3; 3; 2]) /\
  parse_fuel 4 1 4 = 372%nat /\ fst (rrun (parse_fuel 4 1 4) p0 (fun _ => true) 0 (toks_of [2; 3; 3; 2])) = RSyntax 4 4.
Proof.
  split; [vm_compute; reflexivity|]. split; [vm_compute; reflexivity|]. split; [vm_compute; reflexivity|].
  split; [vm_compute; reflexivity|]. split; [vm_compute; lia|].
  split; [repeat constructor; simpl; discriminate|]. split; vm_compute; reflexivity.
Qed.

Print Assumptions C19_recovery_transparent.
Print Assumptions C19_errors_inside_the_input_and_ordered.
Print Assumptions C19_recovery_loop_terminates.
Print Assumptions C19_reduceAll_predicts_the_loop.
Print Assumptions C19_progress_after_recovery.
Print Assumptions C19_every_recovery_consumes_a_token_or_ends_the_parse.
Print Assumptions C19_recovering_parse_terminates.
Print Assumptions C19_recovering_parse_fuel_bound.
Print Assumptions C19_reductions_bounded_by_stack_depth.
Print Assumptions C19_recovering_parse_terminates_on_validated_tables.
Print Assumptions C19_recovering_parse_terminates_under_an_invariant.
Print Assumptions C19_certified_stack_invariant.
Print Assumptions C19_recovering_parse_crashes_only_by_model_fuel.
Print Assumptions C19_recovering_parse_never_crashes.
Print Assumptions C19_recovering_parse_terminates_on_certified_tables.
Print Assumptions C19_recovering_parse_terminates_on_validated_optimized_tables.
Print Assumptions C19_validate_zero_is_check.
Print Assumptions C19_reductions_amortized_by_stack_depth.
Print Assumptions C19_recovering_parse_fuel_bound_on_validated_tables.
Print Assumptions C19_recovering_parse_fuel_bound_on_certified_tables.
Print Assumptions C19_more_fuel_changes_nothing.
Print Assumptions C19_conditions_hold_for_default_tables.
Print Assumptions C19_conditions_hold_for_optimized_tables.
