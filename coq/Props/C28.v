(* C28 — Symbol names map to valid target identifiers.
   Model: Util/Ident.v (ident.Produce for all four styles, the ID bookkeeping of compiler/resolver.go). *)
From Coq Require Import List ZArith.
From TM Require Import Util.Ident Util.Ident_proofs Util.Ident_proofs2.
Import ListNotations.
Local Open Scope Z_scope.

(* For EVERY byte string and style: the produced identifier consists of ASCII letters, digits and '_' and
   does not begin with a digit — hence it is a valid identifier in all targets whenever it is non-empty. *)
Theorem C28_produce_valid_when_nonempty :
  forall name st, byte_list name -> produce name st <> [] -> is_valid_ascii (produce name st) = true.
Proof. exact produce_valid. Qed.

(* Non-emptiness, quoted names: any 'quoted' or "quoted" name with a non-empty body. *)
Theorem C28_quoted_names_nonempty :
  forall name st body, byte_list name -> strip_quotes name = Some body -> produce name st <> [].
Proof. exact produce_quoted_nonempty. Qed.

(* Non-emptiness, unquoted names: any name containing an ASCII letter or digit. *)
Theorem C28_names_with_alnum_nonempty :
  forall name st c, byte_list name -> In c name -> is_alnum c = true -> strip_quotes name = None ->
  produce name st <> [].
Proof. exact produce_alnum_nonempty. Qed.

(* The full statement of C28 ("every name the syntax admits gets a non-empty identifier") is FALSE of the
   faithful model, and of the code (known findings underscore-only-name, empty-quoted-id): the ID `_`
   and the quoted id `''` are admitted by the tm lexer and produce the empty string. *)
Theorem C28_nonempty_refuted :
  (exists name, name = [95] /\ produce name CamelCase = []) /\
  (exists name, name = [39; 39] /\ forall st, produce name st = []).
Proof.
  split; [exists [95]; split; reflexivity|].
  exists [39; 39]. split; [reflexivity|]. intros []; reflexivity.
Qed.

(* After any sequence of symbol declarations for which the resolver reported no clash, identifiers are
   pairwise distinct (two entries with the same ID are the same symbol). *)
Theorem C28_ids_unique_unless_error_reported :
  forall ds s, ids_injective (r_ids s) ->
  r_errors (declare_all s ds) = r_errors s -> ids_injective (r_ids (declare_all s ds)).
Proof. exact resolver_injective. Qed.

(* Produce itself is NOT injective (foo-bar and foo_bar both give FooBar); it is injective up to the collision
   check: whenever two DIFFERENT declared names (each declared with the style sty assigns to it) get the same
   identifier, the resolver reports an error ... *)
Theorem C28_colliding_names_are_reported :
  forall (sty : bytes -> style) names n1 n2, In n1 names -> In n2 names -> n1 <> n2 ->
  produce n1 (sty n1) = produce n2 (sty n2) ->
  (1 <= r_errors (declare_all (mkR [] 0) (decls sty names)))%nat.
Proof. exact collision_reported. Qed.

(* ... and when no error is reported, the identifier determines the declared name. *)
Theorem C28_produce_injective_on_declared_unless_reported :
  forall (sty : bytes -> style) names n1 n2,
  r_errors (declare_all (mkR [] 0) (decls sty names)) = 0%nat ->
  In n1 names -> In n2 names -> produce n1 (sty n1) = produce n2 (sty n2) -> n1 = n2.
Proof. exact produce_injective_on_declared. Qed.

Example C28_collision_example :   (* foo-bar / foo_bar: same identifier FooBar, reported *)
  produce [102;111;111;45;98;97;114] CamelCase = produce [102;111;111;95;98;97;114] CamelCase /\
  r_errors (declare_all (mkR [] 0) (decls (fun _ => CamelCase) [[102;111;111;45;98;97;114]; [120]; [102;111;111;95;98;97;114]])) = 1%nat.
Proof. vm_compute. split; reflexivity. Qed.

Example C28_examples :
  produce [102;111;111;45;98;97;114] CamelCase = [70;111;111;66;97;114] (* foo-bar -> FooBar *) /\
  produce [39;43;39] UpperCase = [80;76;85;83] (* '+' -> PLUS *) /\
  produce [39;97;39] UpperCase = [67;72;65;82;95;65] (* 'a' -> CHAR_A *) /\
  byte_list [102;111;111;45;98;97;114] /\ strip_quotes [39;43;39] = Some [43] /\
  r_errors (declare_all (mkR [] 0) [([102;111;111], CamelCase); ([70;111;111], CamelCase)]) = 1%nat.
Proof. repeat apply conj; try (vm_compute; reflexivity). repeat constructor; discriminate. Qed.

Print Assumptions C28_produce_valid_when_nonempty.
Print Assumptions C28_quoted_names_nonempty.
Print Assumptions C28_names_with_alnum_nonempty.
Print Assumptions C28_nonempty_refuted.
Print Assumptions C28_ids_unique_unless_error_reported.
Print Assumptions C28_colliding_names_are_reported.
Print Assumptions C28_produce_injective_on_declared_unless_reported.
