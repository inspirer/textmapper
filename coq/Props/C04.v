(* C04 — Precedence and associativity resolve conflicts as documented.
   Model: Gram/Prec.v (resolvePrec, ruleAction, per-cell fold of populateTables). *)
From Coq Require Import List ZArith.
From TM Require Import Gram.Cfg Gram.Prec Gram.Prec_proofs.
Import ListNotations.
Local Open Scope Z_scope.

(* The rule's precedence terminal: %prec if given, otherwise the last terminal of its right-hand side. *)
Theorem C04_rule_precedence_explicit :
  forall g r, r_prec (rule_at g r) <> 0 -> rule_prec g r = r_prec (rule_at g r).
Proof. exact rule_prec_explicit. Qed.

Theorem C04_rule_precedence_is_last_terminal :
  forall g r pre t post, r_prec (rule_at g r) = 0 -> r_rhs (rule_at g r) = pre ++ t :: post ->
  0 < t < g_terms g -> (forall s, In s post -> ~ (0 < s < g_terms g)) -> rule_prec g r = t.
Proof. exact rule_prec_last_terminal. Qed.

(* Both sides declared: higher group wins; equal groups follow the associativity of the group. *)
Theorem C04_declared_precedence_decides :
  forall g r t gr ar gs assoc, rule_prec g r <> 0 -> t <> 0 ->
  prec_group g (rule_prec g r) = Some (gr, ar) -> prec_group g t = Some (gs, assoc) ->
  resolve_prec g r t =
    if gr >? gs then do_reduce else if gr <? gs then do_shift
    else if assoc =? 0 then do_reduce else if assoc =? 1 then do_shift
    else if assoc =? 2 then do_error else res_conflict.
Proof. exact resolve_prec_declared. Qed.

(* Any undeclared side (or end of input as lookahead): precedence cannot decide. *)
Theorem C04_undeclared_is_a_conflict :
  forall g r t, rule_prec g r = 0 \/ t = 0 \/ prec_group g (rule_prec g r) = None \/ prec_group g t = None ->
  resolve_prec g r t = res_conflict.
Proof. exact resolve_prec_undeclared. Qed.

(* What the table cell becomes for a shift against one reduction; undecided => reported conflict, shift kept;
   nonassoc => error cell. *)
Theorem C04_shift_reduce_cell :
  forall g t r, merge_cell g true t [r] =
    let res := resolve_prec g r t in
    ((if res =? do_reduce then r else if res =? do_error then -3 else -1), Some (mkAmb true [r] res)).
Proof. exact cell_shift_reduce. Qed.

Theorem C04_undecided_defaults_to_shift :
  forall g t r, resolve_prec g r t = res_conflict -> merge_cell g true t [r] = (-1, Some (mkAmb true [r] res_conflict)).
Proof. exact undecided_defaults_to_shift. Qed.

Theorem C04_nonassoc_is_a_syntax_error :
  forall g t r, resolve_prec g r t = do_error -> final_action (fst (merge_cell g true t [r])) = -2.
Proof. exact nonassoc_is_error. Qed.

(* Unresolved reduce/reduce: reported, the earlier rule stays in the cell. *)
Theorem C04_reduce_reduce_keeps_the_earlier_rule :
  forall g t r1 r2, 0 <= r1 -> merge_cell g false t [r1; r2] = (r1, Some (mkAmb false [r2; r1] res_conflict)).
Proof. exact cell_reduce_reduce. Qed.

Theorem C04_unresolved_cell_is_frozen :
  forall g term rules action amb, has_conflict amb = true -> action <> -2 ->
  fst (fold_left (fun '(action, amb) rule =>
         if action =? -2 then (rule, amb) else rule_action g action term rule amb) rules (action, amb)) = action.
Proof. exact conflict_freezes_cell. Qed.

(* E -> E plus E | E times E | id with %left plus; %left times (terminals: 1 id, 2 plus, 3 times):
   after E times E on plus reduce; after E plus E on times shift; after E plus E on plus reduce (left). *)
Definition ex_g : grammar :=
  mkGrammar 4 1 [mkRule 4 [4; 2; 4] 0; mkRule 4 [4; 3; 4] 0; mkRule 4 [1] 0] [(4, true)] [(0, [2]); (0, [3])].

Example C04_example :
  resolve_prec ex_g 1 2 = do_reduce /\ resolve_prec ex_g 0 3 = do_shift /\ resolve_prec ex_g 0 2 = do_reduce /\
  rule_prec ex_g 0 = 2 /\ prec_group ex_g 3 = Some (1, 0).
Proof. vm_compute. repeat split; reflexivity. Qed.

Print Assumptions C04_declared_precedence_decides.
Print Assumptions C04_undeclared_is_a_conflict.
Print Assumptions C04_shift_reduce_cell.
Print Assumptions C04_reduce_reduce_keeps_the_earlier_rule.
Print Assumptions C04_unresolved_cell_is_frozen.
Print Assumptions C04_rule_precedence_is_last_terminal.
