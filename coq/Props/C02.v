(* C02 — Parser listener events reproduce the derivation.
   Models: Gram/Events.v — xrun (the parse loop of go_parser.go.tmpl with applyRule, fixTrailingWS and reportRange,
   carrying the derivation forest on its stack) and spec_events (post-order list of the arrows of a derivation
   tree, each from the first to the last token of its part, an empty part at the token that follows it). *)
From Coq Require Import List ZArith.
From TM Require Import Gram.PTables Gram.Run Gram.Validator Gram.Events Gram.Events_proofs Gram.Events_strict Gram.Events_run Gram.Events_loose.
Import ListNotations.
Local Open Scope Z_scope.

(* For EVERY machine, event table, token sequence and fuel: if the fixWhitespace loop accepts with the stack
   [EOI; S; bottom], then the tree it built for S has exactly the input tokens as leaves and the listener
   events are exactly the specification's events of that tree (types, order and byte ranges).
   Hypotheses: tokens are non-empty and in order; the tree of S is well-formed w.r.t. the event table (report
   ranges inside the rule, no empty range at the end of a rule, rules flagged "cannot end with an empty symbol"
   end with a non-empty subtree) and contains no end-of-input leaf. *)
Theorem C02_events_are_the_postorder_of_the_derivation :
  forall m evt rl eoi_off fuel start end_state input c' etop eS b,
  Forall (fun t => t_sym t <> 0) input ->
  ordered (map tok_range input) eoi_off ->
  xrun fuel m evt true start end_state eoi_off input = (Accept, c') ->
  xc_stack c' = [etop; eS; b] ->
  x_tree etop = TLeaf 0 eoi_off eoi_off ->
  ~ In (eoi_off, eoi_off) (leaves (x_tree eS)) ->
  wf_tree evt rl (x_tree eS) ->
  leaves (x_tree eS) = map tok_range input /\
  xc_events c' = spec_events (arrows_of_ev rl evt) (x_tree eS) eoi_off.
Proof.
  intros m evt rl eoi_off fuel start end_state input c' etop eS b Hnz Hord Hrun Hst Htop HnoE Hwf.
  destruct (xrun_accept_tree _ _ _ _ _ _ _ _ _ _ _ _ Hnz Hord Hrun Hst Htop HnoE) as [Hl Hev].
  split; [exact Hl|]. rewrite <- Hev, (tree_run_strict evt rl _ Hwf); [reflexivity|]. rewrite Hl. exact Hord.
Qed.

(* the range the fixWhitespace loop gives to any subtree is its first-to-last-token span (an empty subtree sits
   at the following token), and its events are the specification's — for every well-formed tree *)
Theorem C02_ranges_and_events_of_a_subtree :
  forall evt rl t, wf_tree evt rl t -> forall after, ordered (leaves t) after ->
  tree_run true evt t after = (span_of (leaves t) after, spec_events (arrows_of_ev rl evt) t after).
Proof. exact tree_run_strict. Qed.

(* at EVERY point of EVERY run (either fixWhitespace setting, accepted or not) the events emitted so far are the
   events of the forest on the stack, in stack order, and its leaves are the consumed tokens *)
Theorem C02_events_follow_the_stack :
  forall m evt fixws eoi_off input0 end_state fuel start o c',
  Forall (fun t => t_sym t <> 0) input0 ->
  xrun fuel m evt fixws start end_state eoi_off input0 = (o, c') ->
  exists lvs k, sok evt fixws (xc_stack c') (next_off eoi_off c') (xc_events c') lvs /\
    lvs ++ map tok_range (xc_input c') = map tok_range input0 ++ repeat (eoi_off, eoi_off) k.
Proof.
  intros m evt fixws eoi_off input0 end_state fuel start o c' Hnz Hrun.
  destruct (xrun_inv _ _ _ _ _ _ _ _ _ _ _ _ (xinv_init evt fixws eoi_off start input0 Hnz) Hrun)
    as (lvs & k & _ & Hs & Hst & _).
  exists lvs, k. split; assumption.
Qed.

(* the well-formedness hypothesis has a boolean form, evaluated on every sampled run *)
Theorem C02_wellformedness_is_checkable :
  forall evt rl t, wf_treeb evt rl t = true -> wf_tree evt rl t.
Proof. exact wf_treeb_sound. Qed.

(* ---- without fixWhitespace ---- *)
(* Token streams without gaps (each token starts where the previous one ends, end-of-input at the end of the last
   token): the loop WITHOUT fixWhitespace emits exactly the specification's events too. *)
Theorem C02_events_without_fixWhitespace_no_gaps :
  forall m evt rl eoi_off fuel start end_state input c' etop eS b,
  Forall (fun t => t_sym t <> 0) input ->
  ordered (map tok_range input) eoi_off ->
  contiguous (map tok_range input) eoi_off ->
  xrun fuel m evt false start end_state eoi_off input = (Accept, c') ->
  xc_stack c' = [etop; eS; b] ->
  x_tree etop = TLeaf 0 eoi_off eoi_off ->
  ~ In (eoi_off, eoi_off) (leaves (x_tree eS)) ->
  wf_reports evt rl (x_tree eS) ->
  leaves (x_tree eS) = map tok_range input /\
  xc_events c' = spec_events (arrows_of_ev rl evt) (x_tree eS) eoi_off.
Proof.
  intros m evt rl eoi_off fuel start end_state input c' etop eS b Hnz Hord Hcont Hrun Hst Htop HnoE Hwf.
  destruct (xrun_accept_tree _ _ _ _ _ _ _ _ _ _ _ _ Hnz Hord Hrun Hst Htop HnoE) as [Hl Hev].
  split; [exact Hl|]. rewrite <- Hev, (tree_run_nogap evt rl _ Hwf); [reflexivity|]. rewrite Hl. exact Hcont.
Qed.

(* there the "loose" ranges coincide with the strict ones, for every subtree *)
Theorem C02_no_gaps_ranges_and_events_of_a_subtree :
  forall evt rl t, wf_reports evt rl t -> forall after, contiguous (leaves t) after ->
  tree_run false evt t after = (span_of (leaves t) after, spec_events (arrows_of_ev rl evt) t after).
Proof. exact tree_run_nogap. Qed.

(* In general (every token stream, no orderedness needed) the loop without fixWhitespace gives every subtree the
   range (first token, loose end) and emits the loose events: each arrow from the first token of its part (an
   empty part: the following token) to the loose end of the last symbol of the part. *)
Theorem C02_loose_ranges_and_events_of_a_subtree :
  forall evt rl t, wf_reports evt rl t -> forall after,
  tree_run false evt t after = (loose_range t after, loose_events (arrows_of_ev rl evt) t after).
Proof. exact tree_run_loose. Qed.

(* The loose end: a node ends at the START OF THE FOLLOWING TOKEN exactly when its last symbol is (recursively)
   empty -- it then extends over the whitespace in between --, and at the end of its last token otherwise.
   (the known finding "node ranges include trailing whitespace without fixWhitespace", made exact) *)
Theorem C02_loose_end_characterisation :
  forall t a,
  (ends_empty t = true -> lend t a = a) /\
  (ends_empty t = false -> leaves t <> [] /\ lend t a = snd (span_of (leaves t) a)).
Proof. exact lend_cases. Qed.

(* and the run-level statement: accepted runs without fixWhitespace emit exactly the loose events of the derivation *)
Theorem C02_events_without_fixWhitespace :
  forall m evt rl eoi_off fuel start end_state input c' etop eS b,
  Forall (fun t => t_sym t <> 0) input ->
  ordered (map tok_range input) eoi_off ->
  xrun fuel m evt false start end_state eoi_off input = (Accept, c') ->
  xc_stack c' = [etop; eS; b] ->
  x_tree etop = TLeaf 0 eoi_off eoi_off ->
  ~ In (eoi_off, eoi_off) (leaves (x_tree eS)) ->
  wf_reports evt rl (x_tree eS) ->
  leaves (x_tree eS) = map tok_range input /\
  xc_events c' = loose_events (arrows_of_ev rl evt) (x_tree eS) eoi_off.
Proof.
  intros m evt rl eoi_off fuel start end_state input c' etop eS b Hnz Hord Hrun Hst Htop HnoE Hwf.
  destruct (xrun_accept_tree _ _ _ _ _ _ _ _ _ _ _ _ Hnz Hord Hrun Hst Htop HnoE) as [Hl Hev].
  split; [exact Hl|]. rewrite <- Hev, (tree_run_loose evt rl _ Hwf). reflexivity.
Qed.

(* non-vacuity: textmapper's tables for  N0 : 'a' ('b' 'b' -> T2) N0 -> T1 | %empty -> T3 ;  on "a bb abb " *)
Definition t0 : default_enc :=
  mkDefaultEnc [-3; -1; -1; -9; 0; -1; -2] [2; -1; 0; 1; -1; -2; 2; -1; 0; 1; -1; -2] [0; 2; 2; 6; 10; 14]
               [5; 6; 0; 1; 3; 1; 1; 2; 2; 3; 0; 5; 3; 4].
Definition m0 : machine := lalr1_machine t0 [4; 0] [4; 4].
Definition evt0 : ev_table := [mkEvRule 1 [(1%nat, 3%nat, 2)] true; mkEvRule 3 [] false].
Definition input0 : list tok := [mkTok 2 0 1; mkTok 3 2 3; mkTok 3 3 4; mkTok 2 5 6; mkTok 3 6 7; mkTok 3 7 8].

Example C02_example :
  let '(o, c) := xrun 100 m0 evt0 true 0 6 9 input0 in
  o = Accept /\
  xc_events c = [(3, 9, 9); (2, 6, 8); (1, 5, 8); (2, 2, 4); (1, 0, 8)] /\
  match xc_stack c with
  | [etop; eS; b] => xc_events c = spec_events (arrows_of_ev (zn [4; 0]) evt0) (x_tree eS) 9
  | _ => False
  end.
Proof. vm_compute. repeat split; reflexivity. Qed.

(* non-vacuity without fixWhitespace: "abbabb" (no gaps) gives the specification's events; "a bb abb " gives the
   loose ones: both T1 nodes end with the empty N0 and extend to the end of input (9 instead of 8) *)
Definition input1 : list tok := [mkTok 2 0 1; mkTok 3 1 2; mkTok 3 2 3; mkTok 2 3 4; mkTok 3 4 5; mkTok 3 5 6].
Example C02_example_without_fixWhitespace :
  (let '(o, c) := xrun 100 m0 evt0 false 0 6 6 input1 in
   o = Accept /\
   xc_events c = [(3, 6, 6); (2, 4, 6); (1, 3, 6); (2, 1, 3); (1, 0, 6)] /\
   match xc_stack c with
   | [etop; eS; b] => xc_events c = spec_events (arrows_of_ev (zn [4; 0]) evt0) (x_tree eS) 6
   | _ => False
   end) /\
  (let '(o, c) := xrun 100 m0 evt0 false 0 6 9 input0 in
   o = Accept /\
   xc_events c = [(3, 9, 9); (2, 6, 8); (1, 5, 9); (2, 2, 4); (1, 0, 9)] /\
   match xc_stack c with
   | [etop; eS; b] => xc_events c = loose_events (arrows_of_ev (zn [4; 0]) evt0) (x_tree eS) 9 /\ ends_empty (x_tree eS) = true
   | _ => False
   end).
Proof. vm_compute. repeat split; reflexivity. Qed.

Print Assumptions C02_events_are_the_postorder_of_the_derivation.
Print Assumptions C02_events_without_fixWhitespace_no_gaps.
Print Assumptions C02_no_gaps_ranges_and_events_of_a_subtree.
Print Assumptions C02_loose_ranges_and_events_of_a_subtree.
Print Assumptions C02_loose_end_characterisation.
Print Assumptions C02_events_without_fixWhitespace.
Print Assumptions C02_ranges_and_events_of_a_subtree.
Print Assumptions C02_events_follow_the_stack.
Print Assumptions C02_wellformedness_is_checkable.
