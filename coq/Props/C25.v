(* C25 — Integer set algebra and set-equation closure are exact.
   This file holds only the property theorems (closed by [exact lemma]), non-vacuity examples
   and Print Assumptions.  Models: Util/IntSet.v, Util/Closure.v; lemmas: *_proofs.v. *)
From Coq Require Import List ZArith.
From TM Require Import Util.IntSet Util.IntSet_proofs.
Import ListNotations.
Open Scope Z_scope.

(* den s x : x belongs to the (possibly co-finite) subset of Z denoted by s. *)
Theorem C25_merge_is_union :
  forall a b x, wf a -> wf b -> (den (set_merge a b) x <-> den a x \/ den b x).
Proof. exact merge_spec. Qed.

Theorem C25_intersect_is_intersection :
  forall a b x, wf a -> wf b -> (den (set_intersect a b) x <-> den a x /\ den b x).
Proof. exact intersect_spec. Qed.

Theorem C25_complement_is_complement :
  forall s x, den (complement s) x <-> ~ den s x.
Proof. exact complement_spec. Qed.

Theorem C25_results_stay_sorted :
  forall a b, wf a -> wf b -> wf (set_merge a b) /\ wf (set_intersect a b) /\ wf (complement a).
Proof. intros a b Ha Hb. exact (conj (merge_wf a b Ha Hb) (conj (intersect_wf a b Ha Hb) (complement_wf a Ha))). Qed.

Theorem C25_mem_decides_den : forall s x, mem x s = true <-> den s x.
Proof. exact mem_den. Qed.

Theorem C25_equals_is_equality : forall a b, set_equals a b = true <-> a = b.
Proof. exact equals_spec. Qed.

(* non-vacuity: co-finite and finite operands, hypotheses satisfied, non-trivial result *)
Example C25_example :
  let a := mkIntSet true [5; 7] in let b := mkIntSet true [3; 4] in
  wf a /\ wf b /\ set_intersect a b = mkIntSet true [3; 4; 5; 7]
  /\ set_merge a (mkIntSet false [5; 9]) = mkIntSet true [7].
Proof. vm_compute. repeat split; reflexivity. Qed.

Print Assumptions C25_merge_is_union.
Print Assumptions C25_intersect_is_intersection.
Print Assumptions C25_complement_is_complement.
Print Assumptions C25_results_stay_sorted.
Print Assumptions C25_mem_decides_den.
Print Assumptions C25_equals_is_equality.
