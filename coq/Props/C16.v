(* C16 — Semantic action references bind to the right symbols.
   Model: Gram/ActionRefs.v (convertPart/pushName positions and names, expandExpr, compiler traverse with
   mid-rule extraction, ActionVars.resolve, goParserAction: left()/first()/last() and the slot arithmetic).
   Proofs: Gram/ActionRefs_proofs.v, Gram/ActionNames_proofs.v (the Names table), Gram/ActionMarks_proofs.v (state
   markers). *)
From Coq Require Import List ZArith.
From TM Require Import Gram.ActionRefs Gram.ActionRefs_proofs Gram.ActionNames_proofs Gram.ActionMarks_proofs.
Import ListNotations.
Local Open Scope nat_scope.

(* [agree st rm b]: the rule has pushed the entries [st]; [b] lists (position, entry) for every positioned
   symbol of the expansion seen so far; the compiler's actualPos map [rm] sends each such position to the
   index of exactly that entry, and no other position to anything. *)

(* The generated expression stack[len(stack)-(SymRefCount-index)] reads the rule's own entry number [index],
   whatever lies below the rule on the parser stack (this is also why a mid-rule action, reduced when only
   the preceding symbols are on the stack, needs no delta in the Go back-end). *)
Theorem C16_slot_reads_own_entry : forall (base st : list entry) i,
  i < length st -> slot (base ++ st) (length st - i) = nth_error st i.
Proof. exact slot_own_entries. Qed.

(* Numeric references: $N, ${N.offset}, ${N.endoffset} evaluate to the value / start / end of the symbol
   carrying position N+1 of the original rule when it is in this expansion (before the action), to nil / -1
   otherwise -- for every stack below the rule. *)
Theorem C16_ref_binds_numeric : forall ca rm st b base lhs n pr,
  agree st rm b -> S n < ca_maxpos ca ->
  eval_ref ca rm (length st) (base ++ st) lhs (RNum n) pr =
    match b_get b (S n) with
    | Some e => entry_arg e pr
    | None => absent_arg pr
    end.
Proof. exact eval_num_binds. Qed.

(* Named references: with [ps] the positions the name stands for in the original rule, ${name.offset} is the
   start of the first of them present in the expansion, ${name.endoffset} the end of the last one present,
   $name the value of the only one present; nil / -1 when none is present. (When several are present $name
   is a generation error -- AErr 3 -- the statement leaves that case as it is.) The hypothesis about the table
   is discharged for the tables convert builds by C16_names_table_sound / C16_named_ref_denotes_occurrence. *)
Theorem C16_ref_binds_named : forall ca rm st b base lhs nm ps pr,
  agree st rm b -> nm_get (ca_names ca) nm = Some ps -> ps <> [] ->
  eval_ref ca rm (length st) (base ++ st) lhs (RName nm) pr =
    match filter (present b) ps with
    | [] => absent_arg pr
    | a0 :: rest =>
        match b_get b a0, b_get b (last (a0 :: rest) a0) with
        | Some e0, Some e1 =>
            match pr with
            | POffset => AInt (e_off e0)
            | PEndoffset => AInt (e_end e1)
            | PValue => match rest with
                        | [] => val_arg (e_val e0)
                        | _ => eval_ref ca rm (length st) (base ++ st) lhs (RName nm) PValue
                        end
            end
        | _, _ => AErr 4
        end
    end.
Proof. exact eval_name_binds. Qed.

(* The hypothesis [agree] holds at every action site the model reaches, mid-rule (the action's own
   nonterminal is reduced with lhs = an empty symbol at the current offset) or final: running a rule up to a
   site leaves the stack, the remap and the bindings in agreement, and the site's commands are evaluated in
   exactly that state. *)
Theorem C16_sites_run_in_agreeing_states : forall tab cas l1 site l2 base ch start st rm b ch' cur,
  state_after l1 [] [] [] ch start = Some (st, rm, b, ch', cur) ->
  agree st rm b /\
  exists before after,
    run tab cas (l1 ++ site :: l2) base [] [] ch start = before ++
      match site with
      | LMid cs => run_cmds tab cas cs rm base st (mkE VNil cur cur)
      | LFinal cs => run_cmds tab cas cs rm base st (mkE VNil (first_off st cur) cur)
      | LRef _ | LMark _ => []
      end ++ after.
Proof.
  intros tab cas l1 site l2 base ch start st rm b ch' cur E. split.
  - exact (proj1 (state_after_start _ _ _ _ _ _ _ _ E)).
  - rewrite (run_app tab cas l1 (site :: l2) base [] [] [] ch start st rm b ch' cur E).
    eexists. destruct site as [pos|cs|cs|m]; cbn [run].
    + eexists. cbn [app]. reflexivity.
    + eexists. reflexivity.
    + eexists. reflexivity.
    + eexists. cbn [app]. reflexivity.
Qed.

(* "the symbol carrying that position" is unique: in every expansion of a converted rule each position
   occurs at most once, positions start at 1 and stay below the MaxPos reached at the end of the rule. *)
Theorem C16_positions_identify_symbols : forall p x,
  In x (expand (fst (convert_rule p))) ->
  NoDup (positions x) /\ Forall (fun q => 1 <= q < c_pos (snd (convert_rule p))) (positions x).
Proof.
  intros p x Hin. unfold convert_rule in *. destruct (convert_expansions_increasing p _ x Hin) as [I F]. split.
  - eapply incr_from_NoDup; exact I.
  - apply incr_from_bound in I. cbn in I. rewrite Forall_forall in *. intros q Hq. split; [apply I|apply F]; exact Hq.
Qed.

(* the expansion a derivation selects is one of the expansions of the rule *)
Theorem C16_pick_is_an_expansion : forall p sel, In (fst (pick p sel)) (expand p).
Proof. exact pick_in_expand. Qed.

(* The Names table (pushName / convertPart / popRule).
   [pushes p'] lists the names convert pushes for the converted body p', in the order it pushes them (textual
   order; an alias right after its content, with [collect] of the content = the positions pushName receives);
   [occs nm l] are the position lists pushed under the base name nm: occurrence 0, 1, 2, ...;
   [key_index]: the key  name  and  name#0  stand for occurrence 0,  name#k  for occurrence k. *)

(* In the Names table of EVERY command of EVERY rule body (top level, parenthesised alternatives at
   any depth, after popRule merges), a key name / name#k is bound to the positions of the k-th push of that
   name -- for a symbol its own position, for an alias the positions collected beneath it; the list is not
   empty and lies inside [1, MaxPos) of that command (allocated before the command). This is the hypothesis
   of C16_ref_binds_named, a theorem about the model of convertPart / pushName. *)
Theorem C16_names_table_sound : forall p c ca nm k ps,
  In (c, ca) (c_cmds (snd (convert_rule p))) ->
  nm_get (ca_names ca) (nm, k) = Some ps ->
  ps <> [] /\ Forall (fun q => 1 <= q < ca_maxpos ca) ps /\
  nth_error (occs nm (pushes (fst (convert_rule p)))) (key_index k) = Some ps.
Proof. exact names_table_sound. Qed.

(* "the positions beneath it": what an alias is pushed with ([collect] of the converted content) is exactly
   the set of positions that occur in some expansion of that content. *)
Theorem C16_alias_covers_exactly_its_symbols : forall p s pos, 1 <= c_pos s ->
  (In pos (collect (fst (convert p s))) <->
   exists x, In x (expand (fst (convert p s))) /\ In pos (positions x)).
Proof. exact alias_covers_exactly_its_symbols. Qed.

(* completeness at the top level: after the whole body the table of the rule is EXACTLY
   { name -> its push } for names pushed once and { name#k -> k-th push, k = 0..n-1 } for names pushed n >= 2
   times ([top_spec]); the loop "index++ until name#index is free" always stops at n. *)
Theorem C16_top_table_exact : forall p nm k,
  nm_get (c_top (snd (convert_rule p))) (nm, k) = top_spec (occs nm (pushes (fst (convert_rule p)))) k.
Proof.
  intros p nm k. unfold convert_rule.
  pose proof (convert_inv p _ [] inv_init) as [He _ _ _ _ _]. cbn [app] in He. apply He.
Qed.

(* ... and that is the table a final action "body { code }" is given, with MaxPos = the next free position *)
Theorem C16_final_action_table_exact : forall p c,
  let r := convert_rule (PSeq p (PCmd c)) in
  exists ca, In (c, ca) (c_cmds (snd r)) /\
    ca_maxpos ca = c_pos (snd r) /\
    forall nm k, nm_get (ca_names ca) (nm, k) = top_spec (occs nm (pushes (fst r))) k.
Proof.
  intros p c. cbv zeta. unfold convert_rule. cbn [convert].
  pose proof (convert_inv p _ [] inv_init) as [He _ _ _ _ _]. cbn [app] in He.
  pose proof (convert_stack_length p (mkC [] [] 1 [])) as Hl. cbn [c_stack length] in Hl.
  destruct (convert p (mkC [] [] 1 [])) as [p' s1]. cbn [fst snd pushes c_cmds c_pos] in *.
  exists (mkCA (cur_names s1) (c_pos s1)). split; [apply in_or_app; right; now left|]. split; [reflexivity|].
  intros nm k. cbn [ca_names]. unfold cur_names. destruct (c_stack s1); [|discriminate].
  rewrite app_nil_r. apply He.
Qed.

(* C16_ref_binds_named with its hypothesis discharged: for every rule body, every command of it and every key
   its table binds, the key denotes the k-th push of the name and the reference evaluates to the start of the
   first / end of the last / value of the only present symbol among exactly those positions. *)
Theorem C16_named_ref_denotes_occurrence : forall p c ca nm k ps rm st b base lhs pr,
  In (c, ca) (c_cmds (snd (convert_rule p))) ->
  nm_get (ca_names ca) (nm, k) = Some ps ->
  agree st rm b ->
  nth_error (occs nm (pushes (fst (convert_rule p)))) (key_index k) = Some ps /\
  eval_ref ca rm (length st) (base ++ st) lhs (RName (nm, k)) pr =
    match filter (present b) ps with
    | [] => absent_arg pr
    | a0 :: rest =>
        match b_get b a0, b_get b (last (a0 :: rest) a0) with
        | Some e0, Some e1 =>
            match pr with
            | POffset => AInt (e_off e0)
            | PEndoffset => AInt (e_end e1)
            | PValue => match rest with
                        | [] => val_arg (e_val e0)
                        | _ => eval_ref ca rm (length st) (base ++ st) lhs (RName (nm, k)) PValue
                        end
            end
        | _, _ => AErr 4
        end
    end.
Proof.
  intros p c ca nm k ps rm st b base lhs pr Hin Hget Hag.
  destruct (names_table_sound p c ca nm k ps Hin Hget) as (Hne & _ & Hocc). split; [exact Hocc|].
  now apply eval_name_binds.
Qed.

(* Not stated for nested alternatives: completeness (which pushes a parenthesised alternative's table contains).
   It holds only up to renaming -- after  ( ta ( ta {c1} ) {c2} )  the outer alternative still has the stale key
   ta next to ta#0 and ta#1 (both bound to the first ta, which is what soundness says) -- so only soundness
   is a theorem there; the tables themselves are compared with the compiler's (c16.table). *)

(* ta ta[x] (ta tb)[y] { .. } : ta is pushed three times, x covers the second ta, y the group *)
Example C16_names_example :
  let body := PSeq (PSym 1 1 0) (PSeq (PAlias 1000 (PSym 1 1 0))
              (PSeq (PAlias 1001 (PScope (PSeq (PSym 1 1 0) (PSym 2 2 0)))) (PCmd 7))) in
  let r := convert_rule body in
  exists ca, In (7%N, ca) (c_cmds (snd r)) /\ ca_maxpos ca = 5 /\
    nm_get (ca_names ca) (1%N, Some 2%N) = Some [3] /\
    nm_get (ca_names ca) (1%N, None) = None /\
    nm_get (ca_names ca) (1000%N, None) = Some [2] /\
    nm_get (ca_names ca) (1001%N, None) = Some [3; 4] /\
    occs 1%N (pushes (fst r)) = [[1]; [2]; [3]] /\
    occs 1001%N (pushes (fst r)) = [[3; 4]].
Proof.
  cbv zeta. eexists. split; [vm_compute; left; reflexivity|]. vm_compute. repeat split; reflexivity.
Qed.

(* ${first()} / ${last()} (gen/funcs.go goParserAction).
   At every site the model reaches (the state after the items l1 of the expansion): ${first()..} reads the FIRST
   entry the rule has pushed and ${last()..} the LAST one pushed before the action -- value / start / end of
   that entry -- when it belongs to a symbol carrying a position ([entry_tags]: true for such symbols, false for
   an extracted mid-rule nonterminal and for the recursive reference of a list rule); for an entry without a
   position the generator stops with "internal error: cannot find the position for index" (AErr 7); when
   the rule has pushed nothing both are nil / -1. So first()/last() denote the first / last symbol of the
   EXPANDED rule up to the action, not a position of the original rule. *)
Theorem C16_first_last_bind : forall ca l1 ch start st rm b ch' cur base lhs pr,
  state_after l1 [] [] [] ch start = Some (st, rm, b, ch', cur) ->
  eval_ref ca rm (length st) (base ++ st) lhs RFirst pr =
    match st with
    | [] => absent_arg pr
    | e0 :: _ => if hd false (entry_tags l1) then entry_arg e0 pr else AErr 7
    end /\
  eval_ref ca rm (length st) (base ++ st) lhs RLast pr =
    match rev st with
    | [] => absent_arg pr
    | e1 :: _ => if hd false (rev (entry_tags l1)) then entry_arg e1 pr else AErr 7
    end.
Proof. exact first_last_bind. Qed.

(* ta? tb { first().offset, last() } tc { first(), last().endoffset } without ta;
   { first().offset } ta { first().offset, last().offset } : the first entry is the mid-rule nonterminal *)
Example C16_first_last_example :
  let body := PSeq (POpt (PSym 1 1 0)) (PSeq (PSym 2 2 0) (PSeq (PCmd 5) (PSeq (PSym 3 3 0) (PCmd 7)))) in
  let tab := [(5%N, [(RFirst, POffset); (RLast, PValue)]); (7%N, [(RFirst, PValue); (RLast, PEndoffset)])] in
  let body2 := PSeq (PCmd 5) (PSeq (PSym 1 1 0) (PCmd 7)) in
  let tab2 := [(5%N, [(RFirst, POffset)]); (7%N, [(RFirst, POffset); (RLast, POffset)])] in
  run_node tab body false [false] [mkE (V 99) 0 1] [mkE (V 5) 3 4; mkE (V 6) 4 5] 3%Z
    = [(5%N, [AInt 3%Z; AVal 5]); (7%N, [AVal 5; AInt 5%Z])] /\
  run_node tab2 body2 false [] [] [mkE (V 4) 0 1] 0%Z
    = [(5%N, [AM1]); (7%N, [AErr 7; AInt 0%Z])].
Proof. cbv zeta. split; vm_compute; reflexivity. Qed.

(* ta[x]? tb { $$ = f($x, $1, ${x.offset}) } : the expansion without ta *)
Example C16_example :
  let body := PSeq (POpt (PAlias 1000 (PSym 1 1 0))) (PSeq (PSym 2 2 0) (PCmd 7)) in
  let tab := [(7%N, [(RName (1000%N, None), PValue); (RNum 1, PValue); (RName (1000%N, None), POffset);
                     (RNum 0, PValue); (RNum 1, PEndoffset)])] in
  run_node tab body false [false] [mkE (V 99) 0 1] [mkE (V 5) 3 4] 3%Z
    = [(7%N, [ANil; AVal 5; AM1; ANil; AInt 4%Z])] /\
  run_node tab body false [true] [] [mkE (V 4) 2 3; mkE (V 5) 3 4] 2%Z
    = [(7%N, [AVal 4; AVal 5; AInt 2%Z; AVal 4; AInt 4%Z])] /\
  agree [mkE (V 4) 2 3; mkE (V 5) 3 4] [(2, 1); (1, 0)] [(2, mkE (V 5) 3 4); (1, mkE (V 4) 2 3)].
Proof.
  cbv zeta. split; [vm_compute; reflexivity|]. split; [vm_compute; reflexivity|].
  intro pos. destruct pos as [|[|[|pos]]]; cbn; eauto.
Qed.


(* State markers (.name).
   compiler/syntax.go convertPart gives a state marker no position and no name; compiler.go traverse appends it
   to rule.RHS (for the LALR generator) but neither counts it in numRefs nor records it in actualPos, and
   SymRefCount / RuleLen skip it: a marker occupies no stack slot and is not counted by $N.
   [erase_marks body] is the rule as written with every marker removed; [drop_marks] removes them from an
   expansion. *)

(* markers_transparent: for every rule body, every derivation (sel), every stack below the rule and all children,
   each action of the rule logs exactly the values it logs in the rule without the markers -- so all the
   theorems above about $N / $name / ${..offset} hold verbatim for rules with markers anywhere (before the
   referenced symbols, between them, at the end, after a mid-rule action). *)
Theorem C16_markers_transparent : forall tab body lead sel base ch start,
  run_node tab (erase_marks body) lead sel base ch start = run_node tab body lead sel base ch start.
Proof. exact markers_transparent. Qed.

(* ... the Names / MaxPos tables recorded for the commands are the same, and so is the next free position *)
Theorem C16_markers_keep_tables : forall body,
  c_cmds (snd (convert_rule (erase_marks body))) = c_cmds (snd (convert_rule body)) /\
  c_pos (snd (convert_rule (erase_marks body))) = c_pos (snd (convert_rule body)).
Proof. intro body. unfold convert_rule. rewrite convert_erase. split; reflexivity. Qed.

(* ... and the positions an expansion mentions (what $N counts) do not see the markers *)
Theorem C16_markers_have_no_position : forall l, positions (drop_marks l) = positions l.
Proof. induction l as [|[pos|c|m] l IH]; cbn [drop_marks positions]; [reflexivity| |exact IH|exact IH]; now rewrite IH. Qed.

(* The one thing a marker changes: compiler.go refuses to extract a mid-rule action from a rule that already
   has a marker on its right-hand side ("mixing mid-rule actions with state markers is not supported"),
   [rule_mixes]. A rule without markers is never refused for that reason. *)
Theorem C16_unmarked_rule_never_mixes : forall body, rule_mixes (erase_marks body) = false.
Proof.
  intro body. unfold rule_mixes, convert_rule. rewrite convert_erase. cbn [fst].
  rewrite expand_erase.
  induction (expand (fst (convert body (mkC [] [] 1 [])))) as [|x l IH]; [reflexivity|].
  cbn [map existsb]. rewrite traverse_drop, mixes_drop. exact IH.
Qed.

(* ta .m tb[x] tc? .n { $x, $1, ${2.offset}, ${0.endoffset} } with and without tc: $1 is tb, not the marker;
   .m ta {c} tb and ta {c} .m tb are refused, ta {c} tb .m tc {d} is not *)
Example C16_marker_example :
  let body := PSeq (PSym 1 1 0) (PSeq (PMark 0) (PSeq (PAlias 1000 (PSym 2 2 0))
              (PSeq (POpt (PSym 3 3 0)) (PSeq (PMark 1) (PCmd 7))))) in
  let tab := [(7%N, [(RName (1000%N, None), PValue); (RNum 1, PValue); (RNum 2, POffset); (RNum 0, PEndoffset)])] in
  run_node tab body false [true] [mkE (V 99) 0 1] [mkE (V 4) 2 3; mkE (V 5) 3 4; mkE (V 6) 4 5] 2%Z
    = [(7%N, [AVal 5; AVal 5; AInt 4%Z; AInt 3%Z])] /\
  run_node tab body false [false] [mkE (V 99) 0 1] [mkE (V 4) 2 3; mkE (V 5) 3 4] 2%Z
    = [(7%N, [AVal 5; AVal 5; AM1; AInt 3%Z])] /\
  rule_mixes body = false /\
  rule_mixes (PSeq (PMark 0) (PSeq (PSym 1 1 0) (PSeq (PCmd 5) (PSym 2 2 0)))) = true /\
  rule_mixes (PSeq (PSym 1 1 0) (PSeq (PCmd 5) (PSeq (PMark 0) (PSym 2 2 0)))) = true /\
  rule_mixes (PSeq (PSym 1 1 0) (PSeq (PCmd 5) (PSeq (PSym 2 2 0) (PSeq (PMark 0) (PSeq (PSym 3 3 0) (PCmd 6)))))) = false.
Proof. cbv zeta. repeat split; vm_compute; reflexivity. Qed.

Print Assumptions C16_slot_reads_own_entry.
Print Assumptions C16_ref_binds_numeric.
Print Assumptions C16_ref_binds_named.
Print Assumptions C16_sites_run_in_agreeing_states.
Print Assumptions C16_positions_identify_symbols.
Print Assumptions C16_pick_is_an_expansion.
Print Assumptions C16_names_table_sound.
Print Assumptions C16_alias_covers_exactly_its_symbols.
Print Assumptions C16_top_table_exact.
Print Assumptions C16_final_action_table_exact.
Print Assumptions C16_named_ref_denotes_occurrence.
Print Assumptions C16_first_last_bind.
Print Assumptions C16_markers_transparent.
Print Assumptions C16_markers_keep_tables.
Print Assumptions C16_markers_have_no_position.
Print Assumptions C16_unmarked_rule_never_mixes.
