(* C22 — The grammar compiler never crashes and reports in-range diagnostics (partial: the part that is
   logic — position arithmetic and error construction).
   Model: Util/LineCol.v (lineOffsets, sort.Search, Node.LineColumn, Node.SourceRange, status.AddError /
   FromError / Err, the error hand-over of compiler.Compile); Util/PatternErr.v (compiler/lexer.go parsePattern:
   mapping of regexp error offsets into the grammar text). *)
From Coq Require Import List ZArith.
From TM Require Import Util.LineCol Util.LineCol_proofs Util.PatternErr Util.PatternErr_proofs.
Import ListNotations.
Local Open Scope Z_scope.

(* For EVERY text and every offset inside it (end included): Node.LineColumn — a binary search over the
   table built by lineOffsets — never indexes out of range and returns exactly the position obtained by
   scanning the text: line = 1 + newlines before the offset, column = 1 + bytes since the line start. *)
Theorem C22_line_column_consistent :
  forall content off, 0 <= off <= Z.of_nat (length content) ->
  line_column (line_offsets content) off = Some (line_col content off).
Proof. exact line_column_spec. Qed.

(* The scanning specification read declaratively: if the offset splits the text as a ++ b ++ rest where a is
   empty or ends with a newline and b contains no newline, the position is (1 + #newlines of a, |b| + 1). *)
Theorem C22_line_col_meaning :
  forall a b rest, (a = [] \/ last a 0 = NL) -> ~ In NL b ->
  line_col (a ++ b ++ rest) (Z.of_nat (length a + length b)) = (1 + count_nl a, Z.of_nat (length b) + 1).
Proof. exact line_col_decl. Qed.

(* Inverse: the byte offset is recovered from (line, column) through the line table; hence two offsets of
   the same text never share a (line, column). *)
Theorem C22_line_column_inverse :
  forall lines off lc, line_column lines off = Some lc -> offset_of lines lc = off.
Proof. exact line_column_inverse. Qed.

Theorem C22_line_col_injective :
  forall content o1 o2, 0 <= o1 <= Z.of_nat (length content) -> 0 <= o2 <= Z.of_nat (length content) ->
  line_col content o1 = line_col content o2 -> o1 = o2.
Proof. exact line_col_injective. Qed.

(* sort.Search as used above: on a monotone predicate it returns the partition point. *)
Theorem C22_search_partition_point :
  forall f fuel i j, 0 <= i <= j -> (Z.to_nat (j - i) <= fuel)%nat ->
  (forall a b, i <= a <= b -> b < j -> f a = true -> f b = true) ->
  i <= search fuel f i j <= j /\
  (forall k, i <= k < search fuel f i j -> f k = false) /\
  (forall k, search fuel f i j <= k < j -> f k = true).
Proof. exact search_spec. Qed.

(* status_wellformed: whatever the front end reports — a syntax error whose offsets lie in the text and
   whose line is the lexer's line of that offset, or any list of diagnostics attached to nodes inside the
   text — the error value returned by (the repaired) Compile unpacks with status.FromError into errors
   that all carry the compiled file's name, 0 <= Offset <= EndOffset <= len, 1 <= Line, 1 <= Column and
   (Line, Column) = line_col content Offset. No LineColumn panic is possible (the result is Some). *)
Theorem C22_status_wellformed :
  forall path content r, front_end_ok content r ->
  exists e, compile path content r = Some e /\
            Forall (fun x => wellformed path content (e_origin x)) (from_error e).
Proof. exact status_wellformed. Qed.

(* ... and exactly one error per diagnostic. *)
Theorem C22_one_error_per_diagnostic :
  forall path content ds, Forall (diag_ok content) ds ->
  exists e, compile path content (ParseOk ds) = Some e /\ length (from_error e) = length ds.
Proof. exact compile_error_count. Qed.

(* The pinned tree (defect F12): Compile returned the raw tm.SyntaxError, which
   status.FromError can only turn into an origin-less error — ill-formed for EVERY text and syntax error. *)
Theorem C22_pinned_glue_refuted :
  forall path content se,
  exists e, compile_pinned path content (ParseFail se) = Some e /\
            from_error e = [mkErr empty_range syntax_error_msg] /\
            ~ wellformed path content (e_origin (mkErr empty_range syntax_error_msg)).
Proof. exact pinned_syntax_error_originless. Qed.

(* The boolean check evaluated by the oracle glue on every error the implementation returns. *)
Theorem C22_wellformed_check_sound :
  forall path content r, wellformedb path content r = true <-> wellformed path content r.
Proof. exact wellformedb_iff. Qed.

(* For EVERY grammar text pre ++ pat ++ rest in which pat (the pattern node, slashes
   included, at least "//") contains no line break, and EVERY lex.ParseError whose Offset is not negative
   (EndOffset arbitrary, even nonsense): the origin that parsePattern builds exists (no LineColumn panic, no
   slicing panic), carries the file name, lies inside the pattern's own range [|pre|, |pre|+|pat|] - hence in the
   text -, is on the pattern's line, and its (Line, Column) is line_col of its Offset, i.e. the column
   arithmetic "Column += Offset + 1" agrees with the byte offset arithmetic. *)
Theorem C22_pattern_error_in_range :
  forall path pre pat rest pe,
  (2 <= length pat)%nat -> ~ In NL pat -> 0 <= pe_off pe ->
  let content := pre ++ pat ++ rest in
  let nd := mkNode (Z.of_nat (length pre)) (Z.of_nat (length pre + length pat)) in
  exists r, pattern_error_range path (line_offsets content) nd pe = Some r /\
            wellformed path content r /\
            n_off nd <= sr_off r /\ sr_end r <= n_end nd /\
            sr_line r = fst (line_col content (n_off nd)).
Proof. exact pattern_error_wellformed. Qed.

(* ... and it points at the offender: when the error's offsets are what ParseRegexp promises
   (0 <= Offset <= EndOffset <= len(text), Offset < len(text)), the reported range starts exactly at byte
   Offset of the text between the slashes, never covers a slash, ends at EndOffset for a non-empty error
   range and at the closing slash for an empty one, and the column moved as far as the offset. *)
Theorem C22_pattern_error_points_at_offender :
  forall rng pe,
  0 <= pe_off pe <= pe_end pe -> pe_end pe <= pattern_text_len rng -> pe_off pe < pattern_text_len rng ->
  let r := map_pattern_error rng pe in
  sr_off r = sr_off rng + 1 + pe_off pe /\
  sr_end r = (if pe_off pe <? pe_end pe then sr_off rng + 1 + pe_end pe else sr_end rng - 1) /\
  sr_off rng + 1 <= sr_off r /\ sr_off r < sr_end rng - 1 /\ sr_off r <= sr_end r <= sr_end rng - 1 /\
  sr_col r - sr_col rng = sr_off r - sr_off rng.
Proof. exact map_pattern_error_exact. Qed.

(* An error the guard rejects (e.g. "missing closing parenthesis" at the very end of the text) is reported for
   the whole pattern. *)
Theorem C22_pattern_error_fallback :
  forall rng pe, pattern_guard rng pe = false -> map_pattern_error rng pe = rng.
Proof. exact map_pattern_error_fallback. Qed.

(* The hypothesis 0 <= Offset of C22_pattern_error_in_range cannot be dropped: parsePattern's guard does not test
   it, a negative Offset would be mapped in front of the pattern. (lex.ParseRegexp never produces one: checked
   on every c22.pattern case by the oracle, not proved.) *)
Theorem C22_pattern_guard_relies_on_nonnegative_offsets :
  exists rng pe, sr_off rng + 2 <= sr_end rng /\ pattern_guard rng pe = true /\
                 sr_off (map_pattern_error rng pe) < sr_off rng.
Proof. exact pattern_guard_needs_nonneg. Qed.

(* NOT modelled (partial): the generated tm lexer/parser that produces the nodes and the syntax error
   (hypothesis front_end_ok; its line counter is C12's subject), option parsing, the passes that decide
   WHICH diagnostics exist, and their log.Fatal invariants: panic/exit/hang-freedom of those is only
   exercised by the mutation search in a subprocess. lex.ParseRegexp itself is C10's model; that its error
   offsets lie in the pattern text is checked per case, not proved. *)

Example C22_examples :
  let text := [97;10;98;99;10;10;100] (* "a\nbc\n\nd" *) in
  line_offsets text = [0; 2; 5; 6] /\
  line_column (line_offsets text) 3 = Some (2, 2) /\
  line_column (line_offsets text) 5 = Some (3, 1) /\
  line_column (line_offsets text) 7 = Some (4, 2) /\
  line_col text 4 = (2, 3) /\
  front_end_ok text (ParseFail (mkSE 2 3 4)) /\
  compile [103] text (ParseFail (mkSE 2 3 4)) = Some (EOne (mkErr (mkSR [103] 3 4 2 2) syntax_error_msg)) /\
  front_end_ok text (ParseOk [(Some (mkNode 6 7), [120])]) /\
  compile [103] text (ParseOk [(Some (mkNode 6 7), [120])]) = Some (EStatus [mkErr (mkSR [103] 6 7 4 1) [120]]) /\
  compile_pinned [103] text (ParseFail (mkSE 2 3 4)) = Some (EOther syntax_error_msg).
Proof.
  vm_compute. repeat split; try reflexivity; try discriminate.
  constructor; [|constructor]. eexists; split; [reflexivity|]. vm_compute. repeat split; discriminate.
Qed.

Example C22_pattern_examples :
  (* "a: /x[z-a]y/\n": pattern node [3, 12), error "invalid character class range" at text offsets [2, 5) *)
  let text := [97;58;32;47;120;91;122;45;97;93;121;47;10] in
  pattern_error_range [103] (line_offsets text) (mkNode 3 12) (mkPE 2 5) = Some (mkSR [103] 6 9 1 7) /\
  (* an empty error range is extended to the closing slash *)
  pattern_error_range [103] (line_offsets text) (mkNode 3 12) (mkPE 2 2) = Some (mkSR [103] 6 11 1 7) /\
  (* an error at the end of the text falls back to the whole pattern *)
  pattern_error_range [103] (line_offsets text) (mkNode 3 12) (mkPE 7 7) = Some (mkSR [103] 3 12 1 4).
Proof. vm_compute. repeat split; reflexivity. Qed.

Print Assumptions C22_line_column_consistent.
Print Assumptions C22_pattern_error_in_range.
Print Assumptions C22_pattern_error_points_at_offender.
Print Assumptions C22_pattern_error_fallback.
Print Assumptions C22_pattern_guard_relies_on_nonnegative_offsets.
Print Assumptions C22_line_col_meaning.
Print Assumptions C22_line_column_inverse.
Print Assumptions C22_line_col_injective.
Print Assumptions C22_search_partition_point.
Print Assumptions C22_status_wellformed.
Print Assumptions C22_one_error_per_diagnostic.
Print Assumptions C22_pinned_glue_refuted.
Print Assumptions C22_wellformed_check_sound.
