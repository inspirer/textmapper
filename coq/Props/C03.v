(* C03 — Lookahead sets and conflict reports are exactly LALR(1).
   The reference construction (Gram/LalrRef.v, Gram/LalrTables.v) is an executable definition: LR(0) collection
   over kernels, lookaheads = least solution of the closure/goto propagation constraints, cells and conflict
   counts by the precedence fold.  It is compared with textmapper on every run.
   PROVED here: (1) the lookahead table lalr_la IS the declarative LALR(1) lookahead function of Gram/LalrSpec.v
   (LR(1)-validity by start / closure / goto rules, union over all symbol strings reaching the state):
   soundness for every automaton whose states consist of LR(0)-valid items, completeness for every stable
   table; the side conditions are a boolean certificate (Gram/LalrCert.v: aut_cert / la_cert) that is evaluated
   on the reference construction for every generated grammar; (2) the cell/conflict layer.
   (3) build_loop creates only states justified by a symbol string (C03_build_loop_sound).
   (4) The automaton clauses of the certificate are THEOREMS about the reference construction: for every grammar
   whose rule heads are nonterminals and whose right-hand sides consist of symbols (wf_grammar) and every fuel with
   which build_loop emptied its work list (ref_done - a boolean mirror of the loop), closure reaches its fixpoint
   (C03_closure_closed), build_loop yields the complete LR(0) collection and add_finals (private copy of the
   accepting state, synthesized final / after-EOI states) preserves what the LALR(1) theorems need
   (C03_reference_automaton_ok).  la_fix returns a stable table unless its fuel ran out (C03_la_fix_stable_or_fuel).
   first_sets and nullable_set always reach their fixpoints (C03_first_sets_closed, C03_nullable_set_closed).
   Hence the reference's lookahead table is exactly LALR(1) under the LIGHT certificate ref_cert_light =
   wf_grammar && ref_done && la_stable (C03_reference_is_LALR1): these three are what is evaluated per grammar.
   NOT proved: that the fuel always suffices (ref_done / la_stable for the fuel 400 the glue uses: the number of
   LR(0) states is exponential in the grammar in general). *)
From Coq Require Import List ZArith.
From TM Require Import Gram.Derive.
From TM Require Import Gram.Cfg Gram.LalrRef Gram.Prec Gram.Prec_proofs Gram.LalrTables.
From TM Require Import Gram.LalrSpec Gram.LalrSpec_proofs Gram.LalrSpec_proofs2 Gram.LalrSpec_proofs3 Gram.LalrCert Gram.LalrCert_proofs Gram.LalrBuild_proofs.
From TM Require Import Gram.LalrDone Gram.LalrClosure_proofs Gram.LalrRef_proofs.
Import ListNotations.
Local Open Scope Z_scope.

(* A cell with a shift and no reduction, or one reduction and no shift, is not a conflict and keeps its
   only action. *)
Theorem C03_single_action_cells :
  forall g t r, merge_cell g true t [] = (-1, None) /\ merge_cell g false t [r] = (r, None) /\
                merge_cell g false t [] = (-2, None).
Proof. intros. repeat split; reflexivity. Qed.

(* A cell with a shift and a reduction is a conflict exactly when precedence does not decide it. *)
Theorem C03_shift_reduce_cell_counts_iff_undecided :
  forall g t r, cell_conflict g (mkView [] 0 [r] [(t, 1)] false [[t]] [[t]]) t =
                if resolve_prec g r t =? res_conflict then (1, 0) else (0, 0).
Proof.
  intros g t r. unfold cell_conflict. cbn [v_shifts v_reduce v_la_all existsb combine flat_map fst snd app].
  rewrite Z.eqb_refl. cbn [orb mem existsb]. rewrite Z.eqb_refl. cbn [orb app].
  rewrite cell_shift_reduce. cbn [snd am_res am_can_shift]. reflexivity.
Qed.

(* Two reductions on the same lookahead without a shift: always one reduce/reduce conflict. *)
Theorem C03_reduce_reduce_cell_counts :
  forall g t r1 r2, 0 <= r1 ->
  cell_conflict g (mkView [] 0 [r1; r2] [] false [[t]; [t]] [[t]; [t]]) t = (0, 1).
Proof.
  intros g t r1 r2 H. unfold cell_conflict. cbn [v_shifts v_reduce v_la_all existsb combine flat_map app].
  cbn [mem existsb]. rewrite Z.eqb_refl. cbn [orb app].
  rewrite (cell_reduce_reduce g t r1 r2 H). reflexivity.
Qed.

(* The lookahead sets are LALR(1) *)
(* Soundness: every lookahead the iteration puts on an item of a state is LALR(1)-valid: the item with this
   lookahead belongs to the LR(1) item set of some symbol string that leads to the state. *)
Theorem C03_lalr_la_sound :
  forall g a, seeds_ok g a -> aut_sound g a ->
  forall fuel q it x, In x (la_get (lalr_la g a fuel) q it) -> lalr1 g a q it x.
Proof. exact lalr_la_sound. Qed.

(* Completeness: when the iteration has become stable (the test la_fix itself uses) and nullable/FIRST are
   closed under the rules, every LALR(1)-valid lookahead is in the table. *)
Theorem C03_lalr_la_complete :
  forall g a fuel,
  wf_lhs g = true ->
  nullable_closed g (nullable_set g) = true ->
  first_closed g (nullable_set g) (first_sets g) = true ->
  la_stable g a (nullable_set g) (first_sets g) (lalr_la g a fuel) = true ->
  starts_present g a -> aut_complete g a ->
  forall q it x, lalr1 g a q it x -> In x (la_get (lalr_la g a fuel) q it).
Proof. exact lalr_la_complete. Qed.

(* nullable_set always reaches its fixpoint when the rule heads are nonterminals in range (bounded inflationary
   iteration), so the nullable hypothesis of the completeness theorem can be dropped for such grammars.  (The
   same for first_sets and for the fuel of closure: C03_first_sets_closed, C03_closure_closed below.) *)
Theorem C03_nullable_set_closed :
  forall g, (forall r, In r (g_rules g) -> g_terms g <= r_lhs r < g_terms g + g_nonterms g) ->
  nullable_closed g (nullable_set g) = true.
Proof. exact nullable_set_closed. Qed.

Theorem C03_lalr_la_complete_range :
  forall g a fuel,
  (forall r, In r (g_rules g) -> g_terms g <= r_lhs r < g_terms g + g_nonterms g) ->
  first_closed g (nullable_set g) (first_sets g) = true ->
  la_stable g a (nullable_set g) (first_sets g) (lalr_la g a fuel) = true ->
  starts_present g a -> aut_complete g a ->
  forall q it x, lalr1 g a q it x -> In x (la_get (lalr_la g a fuel) q it).
Proof. exact lalr_la_complete_range. Qed.

(* Both directions from the boolean certificate (all side conditions above are decided by la_cert). *)
Theorem C03_lalr_la_exact :
  forall g a fuel, la_cert g a fuel = true ->
  forall q it x, In x (la_get (lalr_la g a fuel) q it) <-> lalr1 g a q it x.
Proof. exact lalr_la_exact. Qed.

(* The LR(0) collection (soundness direction, every grammar and fuel): each state build_loop creates is reached
   from a start state over some symbol string gamma, its kernel consists of kernel items of goto*(start_i, gamma)
   and all its items are LR(0)-valid for gamma.  (The converse - every non-empty goto*(start_i, gamma) is a state,
   and kernels are complete - needs the fuel of build_loop to suffice: C03_build_loop_complete below; per grammar
   it is also covered by cert_complete_state inside aut_cert.) *)
Theorem C03_build_loop_sound :
  forall g fuel,
  let a := build_loop fuel g (mkAut (map (fun inp => mkState [] (Some (fst inp)) 0) (g_inputs g)) []) 0 in
  forall q st, 0 <= q -> nth_error (a_states a) (Z.to_nat q) = Some st ->
  exists i gamma, reach a i gamma q /\
                  (forall it, In it (s_kernel st) -> lr0_kernel g i gamma it) /\
                  (forall it, In it (closure g (s_kernel st) (s_seed st)) -> lr0_valid g i gamma it).
Proof. exact build_loop_sound. Qed.

(* The certificate clauses as theorems about the reference construction *)
(* first_sets always reaches its fixpoint within its S(N*T) rounds: FIRST is closed under the rules. *)
Theorem C03_first_sets_closed :
  forall g, (forall r, In r (g_rules g) -> g_terms g <= r_lhs r < g_terms g + g_nonterms g) ->
  first_closed g (nullable_set g) (first_sets g) = true.
Proof. exact first_sets_closed. Qed.

(* closure always reaches its fixpoint within the S(N) rounds the model gives it (rule heads in range): the result
   contains, with every item [A -> alpha . B beta], all items [B -> . delta]. *)
Theorem C03_closure_closed :
  forall g, (forall r, In r (g_rules g) -> g_terms g <= r_lhs r < g_terms g + g_nonterms g) ->
  forall kernel seed it s r, In it (closure g kernel seed) -> sym_after g it = Some s -> is_term g s = false ->
  In r (rules_of g s) -> In (r, 0) (closure g kernel seed).
Proof. exact closure_closed. Qed.

(* The LR(0) collection is complete whenever build_loop stopped because its work list was empty (ref_done, which
   mirrors the recursion of build_loop and only reports whether the fuel ran out): the automaton before the final
   states are added satisfies every hypothesis of the lookahead theorems and has a transition for every symbol
   after a dot. *)
Theorem C03_build_loop_complete :
  forall g fuel, wf_grammar g = true -> ref_done g fuel = true ->
  let a := build_loop fuel g (mkAut (map (fun inp => mkState [] (Some (fst inp)) 0) (g_inputs g)) []) 0 in
  seeds_ok g a /\ aut_sound g a /\ starts_present g a /\ aut_complete g a /\ aut_total g a.
Proof. intros g fuel Hwf Hd. apply lr0_ok_conj, build_loop_complete; assumption. Qed.

(* ... and so does the automaton of build_automaton, i.e. after add_finals redirected the start state's transition
   to a private copy of the accepting state and appended the synthesized final and after-EOI states.  These are
   all consequences of aut_cert that the lookahead theorems use. *)
Theorem C03_reference_automaton_ok :
  forall g fuel, wf_grammar g = true -> ref_done g fuel = true ->
  let a := fst (build_automaton g fuel) in
  seeds_ok g a /\ aut_sound g a /\ starts_present g a /\ aut_complete g a /\ aut_total g a.
Proof. intros g fuel Hwf Hd. apply lr0_ok_conj, build_automaton_ok; assumption. Qed.

(* la_fix stops on a stable table or has used up its fuel, and then the table has at least `fuel` entries plus
   lookaheads: la_stable of the certificate can fail only by lack of fuel. *)
Theorem C03_la_fix_stable_or_fuel :
  forall g a fuel,
  la_stable g a (nullable_set g) (first_sets g) (lalr_la g a fuel) = true \/
  (fuel <= length (lalr_la g a fuel) + la_size (lalr_la g a fuel))%nat.
Proof. exact lalr_la_stable_or_fuel. Qed.

(* Soundness of the reference's lookahead table needs no evaluated table clause at all. *)
Theorem C03_reference_la_sound :
  forall g fuel, wf_grammar g = true -> ref_done g fuel = true ->
  let a := fst (build_automaton g fuel) in
  forall fuel' q it x, In x (la_get (lalr_la g a fuel') q it) -> lalr1 g a q it x.
Proof. exact ref_la_sound. Qed.

(* Exactness under the light certificate (what the glue evaluates per grammar): grammar well-formed, work list
   empty, table stable. *)
Theorem C03_reference_is_LALR1 :
  forall g fuel, ref_cert_light g fuel = true ->
  let a := fst (build_automaton g fuel) in
  forall q it x, In x (la_get (lalr_la g a fuel) q it) <-> lalr1 g a q it x.
Proof. exact ref_la_exact. Qed.

Theorem C03_reference_covers :
  forall g fuel, ref_cert_light g fuel = true ->
  let a := fst (build_automaton g fuel) in
  forall i gamma it x, lr1_valid g i gamma it x ->
  exists q, reach a i gamma q /\ In x (la_get (lalr_la g a fuel) q it).
Proof. exact ref_la_covers. Qed.

Theorem C03_reference_views_are_LALR1_light :
  forall g fuel, ref_cert_light g fuel = true ->
  let a := fst (build_automaton g fuel) in
  forall q v, nth_error (ro_views (reference g fuel)) q = Some v ->
  forall j r L, nth_error (v_reduce v) j = Some r -> nth_error (v_la_all v) j = Some L ->
  forall x, In x L <-> lalr1 g a (Z.of_nat q) (r, rule_len g r) x.
Proof. exact reference_views_la_light. Qed.

(* The definition of LR(1)-validity used above always contains the textbook one (a single closure rule with
   b in FIRST(beta a)), and coincides with it when the grammar has a terminal and every symbol used in a rule
   is nullable or has a non-empty FIRST (in particular for reduced grammars). *)
Theorem C03_lr1_valid_contains_textbook :
  forall g i gamma it x, lr1_valid_tb g i gamma it x -> lr1_valid g i gamma it x.
Proof. exact tb_included. Qed.

Theorem C03_lr1_valid_is_textbook :
  forall g, 0 < g_terms g ->
  (forall r X, In r (g_rules g) -> In X (r_rhs r) -> (exists b, first_sym g X b) \/ nullable_sym g X) ->
  forall i gamma it x, lr1_valid g i gamma it x <-> lr1_valid_tb g i gamma it x.
Proof. exact lr1_valid_textbook. Qed.

(* What is compared with textmapper: the lookahead set the reference shows for reduction r in state q (v_la_all,
   also the input of the cell oracle canonical_cell) is exactly the LALR(1) lookahead set of the completed item
   of r in q, whenever the certificate holds for the grammar (it is evaluated for every generated grammar). *)
Theorem C03_reference_views_are_LALR1 :
  forall g fuel, ref_cert g fuel = true ->
  let a := fst (build_automaton g fuel) in
  forall q v, nth_error (ro_views (reference g fuel)) q = Some v ->
  forall j r L, nth_error (v_reduce v) j = Some r -> nth_error (v_la_all v) j = Some L ->
  forall x, In x L <-> lalr1 g a (Z.of_nat q) (r, rule_len g r) x.
Proof. exact reference_views_la. Qed.

(* With the certificate the automaton is also the complete collection: every viable prefix gamma (LR(1)-valid
   item with lookahead x) leads to a state, and x is in that state's table entry. *)
Theorem C03_lalr_la_covers :
  forall g a fuel, la_cert g a fuel = true ->
  forall i gamma it x, lr1_valid g i gamma it x ->
  exists q, reach a i gamma q /\ In x (la_get (lalr_la g a fuel) q it).
Proof. exact lalr_la_covers. Qed.

(* With the literal textbook closure rule the statement is FALSE for the reference (and for textmapper, whose
   lookahead sets agree with it) on grammars with a non-productive nonterminal: in  S -> A B; A -> C x; B -> B;
   C -> c  the item [C -> . c] of the start state gets lookahead x although [A -> . C x] has no textbook
   lookahead at all (FIRST(B eoi) is empty).  This is why lr1_valid splits the closure rule. *)
Theorem C03_lalr_la_textbook_refuted :
  exists g fuel q it x, let a := fst (build_automaton g fuel) in
    la_cert g a fuel = true /\ In x (la_get (lalr_la g a fuel) q it) /\
    ~ (exists i gamma, reach a i gamma q /\ lr1_valid_tb g i gamma it x).
Proof. exact lalr_la_textbook_refuted. Qed.

(* The inductive nullable / FIRST of the definition against the derivations of Gram/Derive.v: nullable is
   "derives the empty string", and FIRST(X) contains the first terminal of every terminal string X derives
   (FIRST itself is defined on sentential forms, so it does not depend on productivity). *)
Theorem C03_nullable_is_derives_empty :
  forall g X, nullable_sym g X <-> derives g X [].
Proof. exact nullable_sym_iff_derives. Qed.

Theorem C03_first_contains_derivable_firsts :
  forall g X a w, derives g X (a :: w) -> first_sym g X a.
Proof. exact first_sym_of_derivation. Qed.

(* FIRST and nullable compute only derivable facts. *)
Theorem C03_first_sound :
  forall g, (forall x, In x (nullable_set g) -> nullable_sym g x) /\
            (forall X b, In b (ft_get (first_sets g) X) -> first_sym g X b).
Proof. intros g. split; [exact (nullable_set_ok g)|exact (first_sets_ok g)]. Qed.

(* The classic LALR(1)-but-not-SLR(1) grammar: S -> L = R | R; L -> * R | id; R -> L
   (terminals: 1 '=', 2 '*', 3 id; nonterminals 4 S, 5 L, 6 R).  The reference finds no conflict, and in the
   state {S -> L . = R, R -> L .} the reduction R -> L has lookahead {eoi} only (SLR would add '='). *)
Definition ex_g : grammar :=
  mkGrammar 4 3 [mkRule 4 [5; 1; 6] 0; mkRule 4 [6] 0; mkRule 5 [2; 6] 0; mkRule 5 [3] 0; mkRule 6 [5] 0]
            [(4, true)] [].

Example C03_reference_on_the_classic_grammar :
  let ro := reference ex_g 200 in
  ro_sr ro = 0 /\ ro_rr ro = 0 /\
  exists v, In v (ro_views ro) /\ v_kernel v = [(0, 1); (4, 1)] /\ v_reduce v = [4] /\ v_la v = [[0]].
Proof. vm_compute. repeat split; try reflexivity. eexists. split; [right; right; right; left; reflexivity|repeat split]. Qed.

(* The certificate holds for the reference construction of the classic grammar: the hypotheses of the
   theorems above are satisfiable, and its lookahead table is exactly LALR(1). *)
Example C03_certificate_on_the_classic_grammar : ref_cert ex_g 200 = true.
Proof. vm_compute. reflexivity. Qed.

(* the certificate rejects a collection cut short by too little fuel *)
Example C03_certificate_rejects_truncated_collection : ref_cert ex_g 2 = false /\ ref_cert ex_g 20 = true.
Proof. vm_compute. split; reflexivity. Qed.

Example C03_classic_grammar_la_is_LALR1 :
  let a := fst (build_automaton ex_g 200) in
  forall q it x, In x (la_get (lalr_la ex_g a 200) q it) <-> lalr1 ex_g a q it x.
Proof. apply lalr_la_exact, ref_cert_la_cert, C03_certificate_on_the_classic_grammar. Qed.

(* the light certificate holds for the classic grammar, fails when the collection is cut short, and a grammar
   whose start symbol is recursive (S -> S a | a: the accepting state gets a private copy) passes it too *)
Example C03_light_certificate_on_the_classic_grammar :
  ref_cert_light ex_g 200 = true /\ ref_cert_light ex_g 2 = false /\
  ref_cert_light (mkGrammar 2 1 [mkRule 2 [2; 1] 0; mkRule 2 [1] 0] [(2, true)] []) 200 = true.
Proof. vm_compute. repeat split; reflexivity. Qed.

Print Assumptions C03_first_sets_closed.
Print Assumptions C03_closure_closed.
Print Assumptions C03_build_loop_complete.
Print Assumptions C03_reference_automaton_ok.
Print Assumptions C03_la_fix_stable_or_fuel.
Print Assumptions C03_reference_la_sound.
Print Assumptions C03_reference_is_LALR1.
Print Assumptions C03_reference_covers.
Print Assumptions C03_reference_views_are_LALR1_light.
Print Assumptions C03_shift_reduce_cell_counts_iff_undecided.
Print Assumptions C03_reduce_reduce_cell_counts.
Print Assumptions C03_lalr_la_sound.
Print Assumptions C03_lalr_la_complete.
Print Assumptions C03_lalr_la_exact.
Print Assumptions C03_first_sound.
Print Assumptions C03_lr1_valid_contains_textbook.
Print Assumptions C03_lr1_valid_is_textbook.
Print Assumptions C03_build_loop_sound.
Print Assumptions C03_lalr_la_covers.
Print Assumptions C03_nullable_is_derives_empty.
Print Assumptions C03_first_contains_derivable_firsts.
Print Assumptions C03_reference_views_are_LALR1.
Print Assumptions C03_lalr_la_textbook_refuted.
Print Assumptions C03_nullable_set_closed.
Print Assumptions C03_lalr_la_complete_range.
