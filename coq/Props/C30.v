(* C30 — Bison export describes the grammar Textmapper parses.
   Model: Syn/Bison.v (grammar/gen.go: Parser.RulesByNonterm, Grammar.ExprString, Grammar.TokensWithoutPrec;
   the line skeleton of gen/templates/bison.go.tmpl), Syn/BisonRead.v (a reader of the .y file, the boolean
   well-formedness of names and rules).  Lemmas: Syn/Bison_proofs.v, Syn/BisonRead_proofs.v. *)
From Coq Require Import List ZArith Bool.
From TM Require Import Syn.Expr Syn.Sets Syn.Bison Syn.Bison_proofs Syn.BisonRead Syn.BisonRead_proofs.
Import ListNotations.
Local Open Scope Z_scope.

(* PARTIAL by design: the text/template engine and the rewriting of action code (bison_parser_action) are
   outside the model.  That the MODEL's file lists exactly the rules of the grammar is C30_read_back_exact
   below; that the generated file is the model's file is compared byte for byte per run. *)

(* clause rules_by_nonterm_partition of DESIGN: every rule appears exactly under its left-hand side, in the original order;
   the groups come in order of first appearance, each once *)
Theorem C30_rules_by_nonterm_partition :
  forall (A : Type) (rules : list (Z * A)),
    (forall x, glookup x (rules_by_nonterm rules) = map snd (filter (fun r => fst r =? x) rules)) /\
    map fst (rules_by_nonterm rules) = first_occurrences (map fst rules) /\
    NoDup (map fst (rules_by_nonterm rules)).
Proof.
  intros A rules. split; [intro x; apply rules_by_nonterm_lookup|]. split; [apply rules_by_nonterm_keys|].
  rewrite rules_by_nonterm_keys. apply first_occurrences_nodup.
Qed.

(* clause expr_string_symbols of DESIGN, structure: the symbol words of a rule are its right-hand side (oneRule.accept) *)
Theorem C30_expr_string_symbols : forall e, word_syms (expr_words e) = accept e.
Proof. exact expr_words_symbols. Qed.

(* clause expr_string_symbols of DESIGN, characters: for names without spaces the printed text is the space-joined word
   list, and splitting the text on spaces gives the words back *)
Theorem C30_expr_string_read_back :
  forall sym_name sym_id,
    (forall s, spaceless (sym_name s)) -> (forall s, spaceless (sym_id s)) ->
    forall e, exportable sym_name sym_id e ->
      exists text, expr_string sym_name sym_id e = Some text /\ read_back text = text_words sym_name sym_id e.
Proof.
  intros sym_name sym_id Hn Hi e He. pose proof (text_words_spaceless sym_name sym_id Hn Hi e He) as Hs.
  eexists. split; [exact (expr_string_text sym_name sym_id e He Hs) | now apply read_back_join].
Qed.

(* non-vacuity: E: E '+' E %prec '+' | /*.m*/ id ;  symbols: 1 = '+' (PLUS), 2 = id (ID), 5 = E *)
Definition ex_name (s : Z) : bytes := if s =? 1 then [80;76;85;83] else if s =? 2 then [73;68] else [69].
Example C30_example :
  expr_string ex_name ex_name (EPrec 1 (ESeq [ERef 5 []; ERef 1 []; ECmd [123;125]; ERef 5 []]))
    = Some [69; 32; 80;76;85;83; 32; 69; 32; 37;112;114;101;99; 32; 80;76;85;83]      (* "E PLUS E %prec PLUS" *)
  /\ word_syms (expr_words (ESeq [EMarker [109]; ERef 2 []])) = [2]
  /\ rules_by_nonterm [(5, 10); (6, 20); (5, 30)] = [(5, [10; 30]); (6, [20])]
  /\ read_back [69; 32; 80;76;85;83; 32; 69] = [[69]; [80;76;85;83]; [69]].
Proof. vm_compute. repeat split; reflexivity. Qed.

Print Assumptions C30_rules_by_nonterm_partition.
Print Assumptions C30_expr_string_symbols.
Print Assumptions C30_expr_string_read_back.

(* For a well-formed grammar (bison_wf: symbol texts non-empty, without blank, tab, newline,
   '%', '/', ':', ';', '|' and pairwise distinct; every rule a flat body under at most one %prec; symbols in
   range) the rule section of the model's .y file exists, sits in the fixed frame of the file, and the reader
   (lines -> groups -> words -> symbols) returns exactly the grouped rules: left-hand side, right-hand side
   symbols (oneRule.accept) and %prec terminal of every rule, in order. *)
Theorem C30_read_back_exact :
  forall g, bison_wf g = true ->
    exists section,
      rule_section g = Some section /\
      bison_text g = Some (file_of_section g section) /\
      read_rules g section = Some (expected_groups g).
Proof. exact read_back_exact_frame. Qed.

(* what is read is the rule list itself: under each left-hand side its rules in the original order, the
   left-hand sides in order of first appearance *)
Theorem C30_read_back_rules :
  forall g,
    (forall x, glookup x (expected_groups g) = map rule_spec (filter (fun r => br_lhs r =? x) (bg_rules g))) /\
    map fst (expected_groups g) = first_occurrences (map br_lhs (bg_rules g)).
Proof.
  intro g. unfold expected_groups. split.
  - intro x. transitivity (map rule_spec (glookup x (rules_by_nonterm (map (fun r => (br_lhs r, r)) (bg_rules g))))).
    + induction (rules_by_nonterm _) as [|[y rs] groups IH]; [reflexivity|]. cbn [map glookup].
      destruct (y =? x); [reflexivity | exact IH].
    + rewrite rules_by_nonterm_lookup. f_equal.
      induction (bg_rules g) as [|r rs IH]; [reflexivity|]. cbn [map filter fst].
      destruct (br_lhs r =? x); cbn [map snd]; now rewrite IH.
  - rewrite map_map.
    rewrite (map_ext (fun p : Z * list brule => fst (let '(x, rs) := p in (x, map rule_spec rs))) fst) by (intros [x rs]; reflexivity).
    rewrite rules_by_nonterm_keys, map_map. reflexivity.
Qed.

(* With decls_wf in addition (start symbols are nonterminals, associativities 0..2, precedence
   terminals are tokens) the reader applied to the WHOLE model file (split at the %% lines) returns the start
   symbols with their no-eoi flags, the precedence list (associativity, terminals) in order, the %token
   terminals (TokensWithoutPrec from the second on) and the grouped rules *)
Theorem C30_read_back_file :
  forall g, bison_wf g = true -> decls_wf g = true ->
    exists text, bison_text g = Some text /\ read_file g text = Some (expected_file g).
Proof. exact read_file_exact. Qed.

(* non-vacuity: 4 terminals (eoi, '+' PLUS, id ID, u U), nonterminals E (4), L (5);
   E : E PLUS {} E %prec U | /*.m*/ ID -> X ;   L : %empty | L x=E ; *)
Definition ex_g : bgrammar :=
  mkBG [mkBSym [101;111;105] [69;79;73]; mkBSym [39;43;39] [80;76;85;83]; mkBSym [105;100] [73;68]; mkBSym [117] [85];
        mkBSym [69] [69]; mkBSym [76] [76]]
       4 [(0, false); (1, true)] [(0, [1]); (2, [3])]
       [mkBRule 4 (EPrec 3 (ESeq [ERef 4 []; ERef 1 []; ECmd [123;125]; ERef 4 []])) true;
        mkBRule 5 (ESeq []) false;
        mkBRule 4 (EArrow [88] [] (ESeq [EMarker [109]; ERef 2 []])) false;
        mkBRule 5 (ESeq [ERef 5 []; EAssign [120] (ERef 4 [])]) false]
       [].
Example C30_read_back_example :
  bison_wf ex_g = true /\ decls_wf ex_g = true /\
  match rule_section ex_g with Some t => read_rules ex_g t | None => None end
    = Some [(4, [([4; 1; 4], Some 3); ([2], None)]); (5, [([], None); ([5; 4], None)])] /\
  match bison_text ex_g with Some t => read_file ex_g t | None => None end
    = Some (mkY [(4, false); (5, true)] [(0, [1]); (2, [3])] [2]
                [(4, [([4; 1; 4], Some 3); ([2], None)]); (5, [([], None); ([5; 4], None)])]).
Proof. vm_compute. repeat split; reflexivity. Qed.

Print Assumptions C30_read_back_exact.
Print Assumptions C30_read_back_rules.
Print Assumptions C30_read_back_file.
