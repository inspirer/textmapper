(* C01 — Generated parsers accept exactly the grammar's language.
   Models: Gram/Run.v (the parse loop of go_parser.go.tmpl), Gram/PTables.v (table decoders),
   Gram/Validator.v (boolean check of grammar x tables x LR-item certificate), Gram/Derive.v (derivations).
   Every theorem is universal in the grammar, the tables (any machine whose action looks at one terminal:
   both table encodings), the certificate, the input index, the fuel and the TOKEN SEQUENCE.
   Per sampled grammar the check is evaluated (extracted) on textmapper's real tables: a passing run means
   the statements below hold for that grammar's parser on all inputs. *)
From Coq Require Import List ZArith Bool.
From TM Require Import Gram.Cfg Gram.PTables Gram.Run Gram.Derive Gram.Validator Gram.CertGen Gram.Validator_proofs.
From TM Require Import Gram.ValidatorLive.
Import ListNotations.
Local Open Scope Z_scope.

(* accept => the tokens are a sentence of the input nonterminal (no-eoi inputs: begin with one) *)
Theorem C01_parser_sound :
  forall g m nstates finals nl ft ann,
  (forall s a more, m_act m s a more = m_act m s a []) ->
  check g m nstates finals nl ft ann = true ->
  forall i nt eoi ws fuel,
  nth_error (g_inputs g) i = Some (nt, eoi) -> toks_ok g ws ->
  fst (parse fuel m finals i ws) = Accept -> sentence g nt eoi ws.
Proof.
  intros g m nstates finals nl ft ann Hm Hc i nt eoi ws fuel Hi Hw Ha.
  exact (parse_sound g m nstates finals nl ft ann Hm Hc i (input_index_lt _ _ _ Hi) ws fuel nt eoi Hw Hi Ha).
Qed.

(* every sentence is accepted (with enough fuel: the loop terminates on it) *)
Theorem C01_parser_complete :
  forall g m nstates finals nl ft ann,
  (forall s a more, m_act m s a more = m_act m s a []) ->
  check g m nstates finals nl ft ann = true ->
  forall i nt eoi ws,
  nth_error (g_inputs g) i = Some (nt, eoi) -> toks_ok g ws ->
  sentence g nt eoi ws -> exists fuel, fst (parse fuel m finals i ws) = Accept.
Proof.
  intros g m nstates finals nl ft ann Hm Hc i nt eoi ws Hi Hw Hs.
  exact (parse_complete g m nstates finals nl ft ann Hm Hc i (input_index_lt _ _ _ Hi) ws nt eoi Hw Hi Hs).
Qed.

(* the loop never pops below the stack bottom (the Go code would panic there) *)
Theorem C01_parser_never_crashes :
  forall g m nstates finals nl ft ann,
  (forall s a more, m_act m s a more = m_act m s a []) ->
  check g m nstates finals nl ft ann = true ->
  forall i x ws fuel why,
  nth_error (g_inputs g) i = Some x -> toks_ok g ws ->
  fst (parse fuel m finals i ws) <> Crash why.
Proof.
  intros g m nstates finals nl ft ann Hm Hc i x ws fuel why Hi Hw.
  exact (parse_never_crashes g m nstates finals nl ft ann Hm Hc i (input_index_lt _ _ _ Hi) ws fuel why Hw).
Qed.

(* a syntax error reported after k shifted tokens: the input is not a sentence and, if token k exists,
   no sentence starts with tokens 0..k — the error is not reported later than the first offending token *)
Theorem C01_error_not_late :
  forall g m nstates finals nl ft ann,
  (forall s a more, m_act m s a more = m_act m s a []) ->
  check g m nstates finals nl ft ann = true ->
  forall i nt eoi ws fuel off eoff k,
  nth_error (g_inputs g) i = Some (nt, eoi) -> toks_ok g ws ->
  fst (parse fuel m finals i ws) = SyntaxError off eoff k ->
  ~ sentence g nt eoi ws /\
  ((Z.to_nat k < length ws)%nat -> forall z, toks_ok g z -> ~ sentence g nt eoi (firstn (S (Z.to_nat k)) ws ++ z)).
Proof.
  intros g m nstates finals nl ft ann Hm Hc i nt eoi ws fuel off eoff k Hi Hw He.
  exact (parse_error_position g m nstates finals nl ft ann Hm Hc i (input_index_lt _ _ _ Hi) ws fuel nt eoi off eoff k Hw Hi He).
Qed.

(* the error is not reported EARLIER than the first offending token (correct-prefix property): the k tokens
   shifted before the error are a prefix of some sentence.  Needs the second validator check_live (every state
   has an item, the symbols after every dot are productive, every item [A -> . alpha] is justified by an item
   of the same state through well-founded chains); rk is an untrusted rank hint. *)
Theorem C01_error_not_early :
  forall g m nstates finals nl ft ann rk,
  (forall s a more, m_act m s a more = m_act m s a []) ->
  check g m nstates finals nl ft ann = true ->
  check_live g nstates ann rk = true ->
  forall i nt eoi ws fuel off eoff k,
  nth_error (g_inputs g) i = Some (nt, eoi) -> toks_ok g ws ->
  fst (parse fuel m finals i ws) = SyntaxError off eoff k ->
  exists z, toks_ok g z /\ sentence g nt eoi (firstn (Z.to_nat k) ws ++ z).
Proof.
  intros g m nstates finals nl ft ann rk Hm Hc Hl i nt eoi ws fuel off eoff k Hi Hw He.
  exact (parse_error_viable g m nstates finals nl ft ann rk Hm Hc Hl i (input_index_lt _ _ _ Hi) nt eoi Hi ws fuel off eoff k Hw He).
Qed.

(* both table encodings fall under the theorems *)
Theorem C01_machines_look_one_token_ahead :
  (forall t rl rs s a more, m_act (lalr1_machine t rl rs) s a more = m_act (lalr1_machine t rl rs) s a []) /\
  (forall o terms rl rs s a more, m_act (opt_machine o terms rl rs) s a more = m_act (opt_machine o terms rl rs) s a []).
Proof. split; [exact lalr1_machine_nomore|exact opt_machine_nomore]. Qed.

(* non-vacuity: textmapper's real tables for  N0 : 'a' 'b' 'b' N0 | %empty ;  (tm numbering: 4 terminals) pass
   the check with the generated certificate, and the loop accepts "abbabb" and rejects "abba" at token 4 *)
Definition g0 : grammar := mkGrammar 4 1 [mkRule 4 [2; 3; 3; 4] 0; mkRule 4 [] 0] [(4, true)] [].
Definition t0 : default_enc :=
  mkDefaultEnc [-3; -1; -1; -9; 0; -1; -2] [2; -1; 0; 1; -1; -2; 2; -1; 0; 1; -1; -2] [0; 2; 2; 6; 10; 14]
               [5; 6; 0; 1; 3; 1; 1; 2; 2; 3; 0; 5; 3; 4].
Definition m0 : machine := lalr1_machine t0 [4; 0] [4; 4].

Example C01_check_holds_on_real_tables :
  check g0 m0 7 [6] (nullable_set g0) (first_sets g0) (fst (gen_cert g0 400)) = true /\
  toks_ok g0 [2; 3; 3; 2; 3; 3] /\
  fst (parse 100 m0 [6] 0 [2; 3; 3; 2; 3; 3]) = Accept /\
  fst (parse 100 m0 [6] 0 [2; 3; 3; 2]) = SyntaxError 4 4 4.
Proof.
  split; [vm_compute; reflexivity|]. split; [repeat constructor; vm_compute; congruence|].
  split; vm_compute; reflexivity.
Qed.

Example C01_check_live_holds_on_real_tables :
  let c := fst (gen_cert g0 400) in check_live g0 7 c (live_ranks g0 c) = true.
Proof. vm_compute. reflexivity. Qed.

Print Assumptions C01_parser_sound.
Print Assumptions C01_parser_complete.
Print Assumptions C01_parser_never_crashes.
Print Assumptions C01_error_not_late.
Print Assumptions C01_error_not_early.
Print Assumptions C01_machines_look_one_token_ahead.
