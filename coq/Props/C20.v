(* C20 — Parse events form a well-nested tree; the tree builder is specified on such streams.
   Models: Gram/TreeBuilder.v (builder.addNode of go_ast_parse.go.tmpl on a stack of trees; the conditions
   ok_events / in_input on event streams; wf_forest on the result), Gram/Events.v (the parse loop xrun that emits
   the events), Gram/Pending.v (the same loop with reported skipped tokens). *)
From Coq Require Import List ZArith Bool Permutation.
From TM Require Import Gram.PTables Gram.Run Gram.Validator Gram.Events Gram.Events_proofs Gram.Events_strict Gram.Events_run
  Gram.TreeBuilder Gram.TreeBuilder_proofs Gram.Events_nest Gram.Pending Gram.Pending_nest.
Import ListNotations.
Local Open Scope Z_scope.

(* For EVERY event stream in which any two nodes are disjoint or nested and a container is reported after its
   contents (ok_events), the builder ends with a forest that (1) has exactly the reported nodes (as a multiset
   of (type, offset, endoffset)), and (2) is nested by ranges: every child lies inside its parent, siblings
   (and roots) are in source order and pairwise disjoint, recursively. *)
Theorem C20_builder_correct :
  forall evs, ok_events evs = true ->
  wf_forest (rev (build evs)) = true /\ Permutation (forest_nodes (rev (build evs))) evs.
Proof. exact builder_correct. Qed.

(* the step invariant: whatever was built so far, one more compatible event keeps the forest specified *)
Theorem C20_add_node_keeps_the_forest :
  forall seen st e, binv seen st -> ev_off e <= ev_end e -> (forall a, In a seen -> compatible a e = true) ->
  binv (e :: seen) (add_node st e).
Proof. exact add_node_inv. Qed.

(* Producer half, for the parse loop with fixWhitespace and without error recovery (Gram/Events.v xrun).
   For EVERY machine, event table whose reports are laminar with inner arrows first (nested_table; what
   generateTables' post-order traversal emits), input of ordered non-empty tokens inside [0, eoi_off], fuel and
   outcome (accepted, syntax error, out of fuel -- wherever the loop stops): if the trees on the final stack are
   well formed (wf_tree, the hypothesis of C02) and an end-of-input leaf only occurs as a stack entry of its own,
   the listener events emitted so far are well nested (ok_events: pairwise disjoint or nested, a container
   after its contents) and lie inside the input (in_input).
   Proof: by C02 the events are those of the forest on the stack and each is the span of a sub-forest (or the
   empty range at the following token); spans of nested/disjoint child segments are nested/disjoint, events of
   different stack entries are disjoint and ordered. *)
Theorem C20_parser_events_are_well_nested :
  forall m evt rl eoi_off fuel start end_state input o c',
  nested_table evt ->
  Forall (fun t => t_sym t <> 0) input ->
  ordered (map tok_range input) eoi_off ->
  Forall (fun t => 0 <= t_off t) input -> 0 <= eoi_off ->
  xrun fuel m evt true start end_state eoi_off input = (o, c') ->
  Forall (fun e => wf_tree evt rl (x_tree e)) (xc_stack c') ->
  Forall (fun e => is_leaf (x_tree e) \/ ~ In (eoi_off, eoi_off) (leaves (x_tree e))) (xc_stack c') ->
  ok_events (xc_events c') = true /\ in_input eoi_off (xc_events c') = true.
Proof.
  intros m evt rl eoi_off fuel start end_state input o c' Hnest Hnz Hord Hpos Hpos0 Hrun Hwf Hlf.
  destruct (xrun_events_okp _ _ _ _ _ _ _ _ _ _ Hnest Hnz Hord Hpos Hpos0 Hrun Hwf Hlf) as [Ok In].
  split; [apply okp_ok_events; exact Ok|]. apply forallb_forall. rewrite Forall_forall in In. intros ev Hev.
  rewrite andb_true_iff, !Z.leb_le. exact (In ev Hev).
Qed.

(* the same with a condition on the machine instead of the final stack: end-of-input is only shifted into the end
   state (then the loop stops, so an end-of-input leaf is never reduced into a tree) *)
Theorem C20_parser_events_are_well_nested_eoi :
  forall m evt rl eoi_off fuel start end_state input o c',
  nested_table evt -> eoi_stops m end_state ->
  Forall (fun t => t_sym t <> 0) input ->
  ordered (map tok_range input) eoi_off ->
  Forall (fun t => 0 <= t_off t) input -> 0 <= eoi_off ->
  xrun fuel m evt true start end_state eoi_off input = (o, c') ->
  Forall (fun e => wf_tree evt rl (x_tree e)) (xc_stack c') ->
  ok_events (xc_events c') = true /\ in_input eoi_off (xc_events c') = true.
Proof.
  intros m evt rl eoi_off fuel start end_state input o c' Hnest Heoi Hnz Hord Hpos Hpos0 Hrun Hwf.
  eapply C20_parser_events_are_well_nested; eauto using xrun_eoi_leaf_only.
Qed.

(* Consequently the AST builder fed by such a parser builds a well-formed forest with exactly the reported nodes *)
Theorem C20_parser_and_builder :
  forall m evt rl eoi_off fuel start end_state input o c',
  nested_table evt ->
  Forall (fun t => t_sym t <> 0) input ->
  ordered (map tok_range input) eoi_off ->
  Forall (fun t => 0 <= t_off t) input -> 0 <= eoi_off ->
  xrun fuel m evt true start end_state eoi_off input = (o, c') ->
  Forall (fun e => wf_tree evt rl (x_tree e)) (xc_stack c') ->
  Forall (fun e => is_leaf (x_tree e) \/ ~ In (eoi_off, eoi_off) (leaves (x_tree e))) (xc_stack c') ->
  wf_forest (rev (build (xc_events c'))) = true /\
  Permutation (forest_nodes (rev (build (xc_events c')))) (xc_events c').
Proof. intros. apply builder_correct. eapply C20_parser_events_are_well_nested; eauto. Qed.

(* the events of one derivation tree: pairwise compatible, inside the tree's span or empty at the following token *)
Theorem C20_events_of_a_tree_are_nested :
  forall evt rl, nested_table evt -> forall t, wf_tree evt rl t -> forall aft, ordered (leaves t) aft ->
  okp (spec_events (arrows_of_ev rl evt) t aft) /\
  evs_in (span_of (leaves t) aft) aft (spec_events (arrows_of_ev rl evt) t aft).
Proof. exact tree_nest. Qed.

(* the laminarity hypothesis has a boolean form *)
Theorem C20_nested_table_is_checkable : forall evt, nested_tableb evt = true -> nested_table evt.
Proof. exact nested_tableb_sound. Qed.

(* Reported skipped tokens (injected comments, invalid_token): Gram/Pending.v extends the loop by the lexer output
   with skipped tokens, fetchNext's pending list and flush (called when a token is shifted, as in the template).
   For EVERY machine, table, fixWhitespace setting, lexer output, fuel and outcome: erasing the skipped tokens from
   the lexer output and the skipped-token callbacks from the listener stream gives EXACTLY the run of Events.xrun on
   the real tokens (same outcome, stack, node events in the same order), and the skipped-token callbacks, followed
   by what is still pending and what the lexer has not produced, are the skipped tokens in lexer order (none lost,
   none reported twice): the stream is a merge of the node stream of Events.xrun with the skipped tokens in source order. *)
Theorem C20_flushed_stream_is_merge :
  forall m evt fixws fuel start end_state eoi_off lex o c',
  pxrun fuel m evt fixws start end_state eoi_off lex = (o, c') ->
  xrun fuel m evt fixws start end_state eoi_off (reals lex) = (o, erase c') /\
  skips_of (pc_events c') ++ pc_pending c' ++ skipped (pc_lex c') = skipped lex.
Proof. exact pxrun_sim. Qed.

(* Producer half WITH reported skipped tokens. For EVERY machine, laminar event table, lexer output (real tokens and
   reported skipped tokens, all non-empty, in source order, not overlapping: every skipped token lies in a gap
   between two consecutive real tokens, before the first or after the last), fuel and outcome: under the hypotheses
   of C20_parser_events_are_well_nested on the final stack, the WHOLE listener stream of the fixWhitespace loop --
   node events and skipped tokens, in callback order -- is well nested and inside the input. No further condition:
   flush runs only in a shift, so a skipped token of the gap before token b is reported after every node that was
   reduced before b is shifted; with fixWhitespace such a node ends at the end of a token shifted earlier (or is the
   empty range at b's offset), hence lies before the skipped token; every node reported later has both ends at token
   boundaries, so it contains the skipped token or is disjoint from it. *)
Theorem C20_parser_events_with_skipped_tokens_are_well_nested :
  forall m evt rl eoi_off fuel start end_state lex o c',
  nested_table evt ->
  Forall (fun t => t_sym t <> 0) (reals lex) ->
  ordered (map l_range lex) eoi_off ->
  Forall (fun r => 0 <= fst r) (map l_range lex) -> 0 <= eoi_off ->
  pxrun fuel m evt true start end_state eoi_off lex = (o, c') ->
  Forall (fun e => wf_tree evt rl (x_tree e)) (pc_stack c') ->
  Forall (fun e => is_leaf (x_tree e) \/ ~ In (eoi_off, eoi_off) (leaves (x_tree e))) (pc_stack c') ->
  ok_events (stream_of c') = true /\ in_input eoi_off (stream_of c') = true.
Proof.
  intros m evt rl eoi_off fuel start end_state lex o c' Hnest Hnz Hord Hpos Hpos0 Hrun Hwf Hlf.
  destruct (pxrun_events_okp _ _ _ _ _ _ _ _ _ _ Hnest Hnz Hord Hpos Hpos0 Hrun Hwf Hlf) as [Ok In].
  split; [apply okp_ok_events; exact Ok|]. apply forallb_forall. rewrite Forall_forall in In. intros ev Hev.
  rewrite andb_true_iff, !Z.leb_le. exact (In ev Hev).
Qed.

(* the same with the condition on the machine (end-of-input is only shifted into the end state) *)
Theorem C20_parser_events_with_skipped_tokens_are_well_nested_eoi :
  forall m evt rl eoi_off fuel start end_state lex o c',
  nested_table evt -> eoi_stops m end_state ->
  Forall (fun t => t_sym t <> 0) (reals lex) ->
  ordered (map l_range lex) eoi_off ->
  Forall (fun r => 0 <= fst r) (map l_range lex) -> 0 <= eoi_off ->
  pxrun fuel m evt true start end_state eoi_off lex = (o, c') ->
  Forall (fun e => wf_tree evt rl (x_tree e)) (pc_stack c') ->
  ok_events (stream_of c') = true /\ in_input eoi_off (stream_of c') = true.
Proof.
  intros m evt rl eoi_off fuel start end_state lex o c' Hnest Heoi Hnz Hord Hpos Hpos0 Hrun Hwf.
  eapply C20_parser_events_with_skipped_tokens_are_well_nested; eauto.
  exact (xrun_eoi_leaf_only _ _ _ _ _ _ _ _ _ _ Heoi (proj1 (reals_ordered _ _ Hord)) (proj1 (pxrun_sim _ _ _ _ _ _ _ _ _ _ Hrun))).
Qed.

(* and the AST builder fed with that stream builds a well-formed forest with exactly the reported nodes and tokens *)
Theorem C20_parser_with_skipped_tokens_and_builder :
  forall m evt rl eoi_off fuel start end_state lex o c',
  nested_table evt ->
  Forall (fun t => t_sym t <> 0) (reals lex) ->
  ordered (map l_range lex) eoi_off ->
  Forall (fun r => 0 <= fst r) (map l_range lex) -> 0 <= eoi_off ->
  pxrun fuel m evt true start end_state eoi_off lex = (o, c') ->
  Forall (fun e => wf_tree evt rl (x_tree e)) (pc_stack c') ->
  Forall (fun e => is_leaf (x_tree e) \/ ~ In (eoi_off, eoi_off) (leaves (x_tree e))) (pc_stack c') ->
  wf_forest (rev (build (stream_of c'))) = true /\
  Permutation (forest_nodes (rev (build (stream_of c')))) (stream_of c').
Proof. intros. apply builder_correct. eapply C20_parser_events_with_skipped_tokens_are_well_nested; eauto. Qed.

(* once nothing is pending and the lexer has no skipped token left (e.g. after end-of-input was shifted), every
   skipped token has been reported, in source order *)
Theorem C20_all_skipped_tokens_reported :
  forall m evt fixws eoi_off fuel start end_state lex o c',
  pxrun fuel m evt fixws start end_state eoi_off lex = (o, c') ->
  pc_pending c' = [] -> skipped (pc_lex c') = [] -> skips_of (pc_events c') = skipped lex.
Proof.
  intros m evt fixws eoi_off fuel start end_state lex o c' H Hp Hl.
  destruct (pxrun_sim _ _ _ _ _ _ _ _ _ _ H) as [_ Hs]. rewrite Hp, Hl, !app_nil_r in Hs. exact Hs.
Qed.

(* NOT proved here (partial): the same for the loop with error recovery (Gram/Recover.v: the error entry pushed by
   recoverFromError spans dropped stack entries and skipped tokens; flush is also called with the error symbol there
   and may keep tokens pending), for reported REAL tokens (reportConsumedNext of mapped tokens) and for the
   hand-written js loop; and for parsers without fixWhitespace (there a node ending with an empty symbol extends
   over the following whitespace, see C02, and C20_skipped_tokens_without_fixWhitespace_refuted below). These are
   monitored on every run: ok_events and in_input are evaluated on the listener callbacks of the shipped tm, js,
   json and test parsers on valid and broken inputs, and of generated parsers (c20.gen). *)

(* non-vacuity: a stream with nested, empty and out-of-order nodes *)
Example C20_example :
  let evs := [(1, 2, 3); (2, 0, 0); (3, 5, 7); (4, 4, 4); (5, 2, 8); (6, 0, 9)] in
  ok_events evs = true /\
  rev (build evs) = [BNode 6 0 9 [BNode 2 0 0 []; BNode 5 2 8 [BNode 1 2 3 []; BNode 4 4 4 []; BNode 3 5 7 []]]].
Proof. vm_compute. split; reflexivity. Qed.

(* non-vacuity of the producer theorem: the tables of C02's example  N0 : 'a' ('b' 'b' -> T2) N0 -> T1 | %empty -> T3 *)
Definition t0 : default_enc :=
  mkDefaultEnc [-3; -1; -1; -9; 0; -1; -2] [2; -1; 0; 1; -1; -2; 2; -1; 0; 1; -1; -2] [0; 2; 2; 6; 10; 14]
               [5; 6; 0; 1; 3; 1; 1; 2; 2; 3; 0; 5; 3; 4].
Definition m0 : machine := lalr1_machine t0 [4; 0] [4; 4].
Definition evt0 : ev_table := [mkEvRule 1 [(1%nat, 3%nat, 2)] true; mkEvRule 3 [] false].
Definition input0 : list tok := [mkTok 2 0 1; mkTok 3 2 3; mkTok 3 3 4; mkTok 2 5 6; mkTok 3 6 7; mkTok 3 7 8].

Example C20_producer_example :
  nested_tableb evt0 = true /\
  let '(o, c) := xrun 100 m0 evt0 true 0 6 9 input0 in
  o = Accept /\
  forallb (fun e => wf_treeb evt0 (zn [4; 0]) (x_tree e)) (xc_stack c) = true /\
  map (fun e => match x_tree e with TLeaf _ _ _ => true | t => negb (existsb (fun r => (fst r =? 9) && (snd r =? 9)) (leaves t)) end)
      (xc_stack c) = [true; true; true] /\
  xc_events c = [(3, 9, 9); (2, 6, 8); (1, 5, 8); (2, 2, 4); (1, 0, 8)] /\
  ok_events (xc_events c) = true /\ in_input 9 (xc_events c) = true.
Proof. vm_compute. repeat split; reflexivity. Qed.

(* non-vacuity with skipped tokens: the same tables, comments (type 9, 8) before the first token, inside nodes, between two
   nodes and after the last token; right-recursive grammar, so all reductions happen at the end of input, after the
   comments of all gaps were flushed, and the trailing comment is reported by the shift of end-of-input *)
Definition lex0 : list ltok :=
  [LSkip (9, 0, 1); LReal (mkTok 2 1 2); LSkip (9, 2, 3); LReal (mkTok 3 3 4); LReal (mkTok 3 4 5); LSkip (9, 5, 6);
   LSkip (8, 6, 7); LReal (mkTok 2 7 8); LReal (mkTok 3 8 9); LReal (mkTok 3 10 11); LSkip (9, 11, 13)].

Example C20_skipped_example :
  let '(o, c) := pxrun 100 m0 evt0 true 0 6 14 lex0 in
  o = Accept /\
  forallb (fun e => wf_treeb evt0 (zn [4; 0]) (x_tree e)) (pc_stack c) = true /\
  pc_events c = [PSkip (9, 0, 1); PSkip (9, 2, 3); PSkip (9, 5, 6); PSkip (8, 6, 7); PNode (3, 14, 14); PNode (2, 8, 11);
                 PNode (1, 7, 11); PNode (2, 3, 5); PNode (1, 1, 11); PSkip (9, 11, 13)] /\
  pc_pending c = [] /\ ok_events (stream_of c) = true /\ in_input 14 (stream_of c) = true /\
  rev (build (stream_of c)) =
    [BNode 9 0 1 [];
     BNode 1 1 11 [BNode 9 2 3 []; BNode 2 3 5 []; BNode 9 5 6 []; BNode 8 6 7 []; BNode 1 7 11 [BNode 2 8 11 []]];
     BNode 9 11 13 []; BNode 3 14 14 []].
Proof. vm_compute. repeat split; reflexivity. Qed.

(* fixWhitespace is necessary once skipped tokens are reported (the property's scope: "trims trailing whitespace from
   node ranges or reports no skipped tokens"): the same machine, table and lexer output WITHOUT fixWhitespace -- the
   nodes ending with the empty N0 extend to the offset of end-of-input, T1[7,14) and T1[1,14) contain the trailing
   comment [11,13) but are reported before it (it is flushed by the shift of end-of-input) *)
Theorem C20_skipped_tokens_without_fixWhitespace_refuted :
  exists m evt eoi_off fuel start end_state lex c',
  nested_table evt /\ Forall (fun t => t_sym t <> 0) (reals lex) /\ ordered (map l_range lex) eoi_off /\
  pxrun fuel m evt false start end_state eoi_off lex = (Accept, c') /\
  nodes_of (pc_events c') = [(3, 14, 14); (2, 8, 11); (1, 7, 14); (2, 3, 5); (1, 1, 14)] /\
  skips_of (pc_events c') = skipped lex /\
  ok_events (nodes_of (pc_events c')) = true /\ ok_events (stream_of c') = false.
Proof.
  exists m0, evt0, 14, 100%nat, 0, 6, lex0, (snd (pxrun 100 m0 evt0 false 0 6 14 lex0)).
  split; [apply nested_tableb_sound; vm_compute; reflexivity|].
  split; [repeat constructor; discriminate|].
  split; [vm_compute; repeat split; discriminate|].
  vm_compute. repeat split; reflexivity.
Qed.

Print Assumptions C20_builder_correct.
Print Assumptions C20_parser_events_are_well_nested.
Print Assumptions C20_parser_events_are_well_nested_eoi.
Print Assumptions C20_parser_and_builder.
Print Assumptions C20_events_of_a_tree_are_nested.
Print Assumptions C20_nested_table_is_checkable.
Print Assumptions C20_add_node_keeps_the_forest.
Print Assumptions C20_flushed_stream_is_merge.
Print Assumptions C20_parser_events_with_skipped_tokens_are_well_nested.
Print Assumptions C20_parser_with_skipped_tokens_and_builder.
Print Assumptions C20_all_skipped_tokens_reported.
Print Assumptions C20_parser_events_with_skipped_tokens_are_well_nested_eoi.
Print Assumptions C20_skipped_tokens_without_fixWhitespace_refuted.
