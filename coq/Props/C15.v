(* C15 — Token sets equal their fixpoint definitions.
   Models: Syn/Sets.v (syntax/nullable.go, syntax/set.go: rules, instantiate/translate/queue, on top of
   Util/Closure.v), Syn/SetsSpec.v (declarative definitions + naive executable specification).
   Lemmas: Syn/Sets_proofs.v, Syn/SetsSpec_proofs.v, Syn/SetsGenAll_proofs.v. *)
From Coq Require Import List ZArith Bool.
From TM Require Import Gram.Cfg Syn.Expr Syn.ExtLang Syn.Sets Syn.SetsSpec Syn.Sets_proofs Syn.SetsSpec_proofs Syn.SetsGen Syn.SetsGenAll Syn.SetsGenAll_proofs.
From TM Require Util.IntSet Util.IntSet_proofs.
From TM Require Import Util.Graph Util.Closure Util.ClosureCert
  Util.ClosureSem Util.Closure_proofs Syn.Sets_closure.
Notation intset := IntSet.intset.
Notation mkIntSet := IntSet.mkIntSet.
Notation set_den_of := IntSet_proofs.den.
Notation set_wf := IntSet_proofs.wf.
Import ListNotations.
Local Open Scope Z_scope.

(* What is proved.
   The closure solver (Util/Closure.v: Tarjan order, union / slow intersection branch, complements of solved
   components): when it reports no error its result is the stable solution of the system, that is the least solution
   of its own reduct, which satisfies every equation, is least and is unique; the nodes it reports are exactly the
   complements that depend on themselves. Through the model of ResolveSets: a SetsOk result is that solution of the
   system the model generated, a SetsErr result lists exactly the generated complements on cycles.
   The generated system is the declarative one: when the check SetsGenAll.gen_all_keys_ok (which contains
   SetsGen.gen_keys_ok) accepts it, every stable solution holds, at the node of a key (op, s), exactly any_in /
   first_in / last_in / precede_in / follow_in, and at a node accepted by tree_ok for a closed expression t exactly
   set_den t (complement relative to all of Z at the node; the result extraction cuts to [0, T)). The checks ask: the
   node of (first, s) / (last, s) / (any, s) is the singleton {s} for a terminal and, for a nonterminal, the union of
   exactly the key nodes of the symbols of its rules up to the first non-nullable one from the left / from the right
   / of all symbols; the generator's nullable set agrees with nullable_in; the node of (follow, s) / (precede, s) is,
   over the usage index of s, the union of the first / last key nodes of the symbols after / before the occurrence up
   to the first non-nullable one plus, when that whole context is nullable, the follow / precede node of the
   left-hand side; a tree is proxy -> key node, proxy -> union / intersection node over the operands' proxies,
   proxy -> complement node.
   Hence, with sets_certb and sets_gen_all_ok, a SetsOk result is, for every top-level closed expression t over any /
   first / last / precede / follow, union, intersection, complement (tree_scope t), exactly
   {a | 0 <= a < T /\ set_den t a} over the reachable rules (no complement of a SetsOk result lies on a cycle: the
   stratification complements need); with sets_gen_ok alone the same for top-level `first s` / `last s`.
   afterErr: the set the compiler adds is follow(error); on plain grammars its evaluation from the exact tables is
   follow_in error, and IsRecovering holds iff it is non-empty.
   Side conditions, evaluated on every generated case by the glue: the executable certificate
   ClosureCert.closure_certb (proved sound: node list as Closure.Add / Intersect / Complement build it;
   GraphSpec.check_scc / check_onstack accept the output of the Tarjan model; for a well-formed graph with at least
   two vertices the Tarjan model meets it: Util/Tarjan_proofs.tarjan_spec); sets_gen_ok and sets_gen_all_ok, on models
   without reachable set nonterminals, which is their scope.
   Not proved: clause sets_exact of DESIGN in full,
     resolve_sets T vals sets inputs = SetsOk ts ->
     forall i a, In a (nth i ts []) <-> 0 <= a < T /\ set_den_full (reachable rules) sets (nth i sets) a
   where set_den_full would extend set_den to named (mutually recursive) sets and to set nonterminals (whose result
   nodes feed back into first / last / any): there is no declarative meaning for TNamed (least solution of mutually
   recursive definitions, stratified through complements) nor for set nonterminals among the rules, and no check for
   them. C15_sets_least_solution_partial speaks of the generated system only, C15_sets_exact_partial of the oracle
   tables. Compared per run instead: model = syntax.ResolveSets (sets, rewritten set nonterminals, offending
   complements); the implementation's sets = naive stratified fixpoint of the eagerly generated declarative system
   (spec_sets); for plain queries also = the exact tables; sets_certb holds; the same through compiler.Compile. *)

Theorem C15_closure_least_solution :
  forall nodes,
    nodes_wf nodes -> tarjan_cert (closure_graph nodes) (tarjan (closure_graph nodes)) ->
    (forall v, ~ compl_on_cycle nodes v) ->
    c_oof (compute nodes) = false ->
    c_err (compute nodes) = [] /\ (forall v, set_wf (val_at (compute nodes) v)) /\
    stable_solution nodes (sol_of (compute nodes)).
Proof. exact compute_least_solution. Qed.

(* what "stable solution" means: every equation holds; it is below every valuation closed under the equations
   (complement operands fixed); it is the only one *)
Theorem C15_closure_solution_is_least_and_unique :
  forall nodes sol, nodes_wf nodes -> stable_solution nodes sol ->
    (forall v x, (v < length nodes)%nat -> eqn_holds nodes sol v x) /\
    (forall sol', pre_solution nodes sol sol' -> forall v x, (v < length nodes)%nat -> sol v x -> sol' v x) /\
    (forall out sol2, tarjan_cert (closure_graph nodes) out -> (forall v, ~ compl_on_cycle nodes v) ->
        stable_solution nodes sol2 -> forall v x, (v < length nodes)%nat -> (sol v x <-> sol2 v x)).
Proof.
  intros nodes sol Hwf Hs. split; [exact (stable_is_solution nodes sol Hwf Hs)|]. split.
  - intros sol' Hp. exact (stable_is_least nodes sol sol' Hs Hp).
  - intros out sol2 Hc Hn H2. exact (stable_unique nodes out sol sol2 Hwf Hc Hn Hs H2).
Qed.

(* the executable certificate establishes the two side conditions *)
Theorem C15_closure_certificate_sound :
  forall nodes, closure_certb nodes = true ->
    nodes_wf nodes /\ tarjan_cert (closure_graph nodes) (tarjan (closure_graph nodes)).
Proof. exact closure_certb_sound. Qed.

Theorem C15_closure_self_complement_rejected :
  forall nodes,
    nodes_wf nodes -> tarjan_cert (closure_graph nodes) (tarjan (closure_graph nodes)) ->
    (forall u, In u (c_err (compute nodes)) <-> compl_on_cycle nodes u) /\
    (c_err (compute nodes) <> [] <-> exists v, compl_on_cycle nodes v).
Proof. intros nodes Hwf Hc. exact (conj (compute_errors_exact nodes Hwf Hc) (compute_error_iff_cycle nodes Hwf Hc)). Qed.

Theorem C15_sets_least_solution_partial :
  forall T vals sets inputs ts, sets <> [] ->
    sets_certb T vals sets inputs = true ->
    resolve_sets T vals sets inputs = SetsOk ts ->
    let nodes := e_nodes (snd (resolve_est T vals sets inputs)) in
    let result := fst (resolve_est T vals sets inputs) in
    exists vals_of : nat -> intset,
      stable_solution nodes (fun v x => set_den_of (vals_of v) x) /\
      (forall sol, stable_solution nodes sol -> forall v x, (v < length nodes)%nat -> (sol v x <-> set_den_of (vals_of v) x)) /\
      (forall v, ~ compl_on_cycle nodes v) /\
      ts = map (fun v => set_terminals T (vals_of v)) result /\
      forall i a, (i < length result)%nat -> (In a (nth i ts []) <-> in_terms T (vals_of (nth i result O)) a).
Proof. exact resolve_sets_ok_least. Qed.

Theorem C15_self_complement_rejected :
  forall T vals sets inputs, sets <> [] ->
    sets_certb T vals sets inputs = true ->
    let nodes := e_nodes (snd (resolve_est T vals sets inputs)) in
    let compl := e_compl (snd (resolve_est T vals sets inputs)) in
    (forall ids, resolve_sets T vals sets inputs = SetsErr ids ->
       exists errs, errs <> [] /\ ids = map (fun v => compl_id v compl) errs /\
                    forall u, In u errs <-> compl_on_cycle nodes u) /\
    ((exists ids, resolve_sets T vals sets inputs = SetsErr ids) \/ resolve_sets T vals sets inputs = SetsOof
       <-> (exists u, compl_on_cycle nodes u) \/ resolve_sets T vals sets inputs = SetsOof).
Proof.
  intros T vals sets inputs Hne Hc nodes compl. rewrite (resolve_sets_eq T vals sets inputs Hne).
  unfold sets_certb in Hc. unfold nodes, compl. destruct (resolve_est T vals sets inputs) as [res st]. cbn [fst snd] in *.
  cbv zeta. pose proof (compute_err_cycle (e_nodes st) Hc) as He.
  destruct (c_oof (compute (e_nodes st))) eqn:Eo.
  - split; [intros ids H; discriminate|]. split; intros _; now right.
  - destruct (c_err (compute (e_nodes st))) as [|e errs] eqn:Ee.
    + split; [intros ids H; discriminate|]. split.
      * intros [[ids H]|H]; discriminate.
      * intros [[u Hu]|H]; [|discriminate]. apply He in Hu. destruct Hu.
    + split.
      * intros ids H. inversion H; subst ids. exists (e :: errs). split; [discriminate|]. split; [reflexivity|exact He].
      * split; intros _; left; [exists e; apply He; now left|eexists; reflexivity].
Qed.

Theorem C15_generated_first_last_exact :
  forall T nl rules nodes keys sol,
    gen_keys_ok T nl rules nodes keys = true -> stable_solution nodes sol ->
    forall s v,
      (find_key 1 s keys = Some v -> forall a, sol v a <-> first_in T (prules_of rules) s a) /\
      (find_key 2 s keys = Some v -> forall a, sol v a <-> last_in T (prules_of rules) s a).
Proof.
  intros T nl rules nodes keys sol Hok Hs s v. split.
  - intro H. exact (proj2 (gen_first_exact T nl rules nodes keys Hok sol Hs s v H)).
  - exact (gen_last_exact T nl rules nodes keys Hok sol Hs s v).
Qed.

(* clause sets_exact of DESIGN for top-level `first s` / `last s`: the result of the model of ResolveSets is the declarative set *)
Theorem C15_sets_exact_first_last :
  forall T vals sets inputs ts, sets <> [] ->
    sets_certb T vals sets inputs = true -> sets_gen_ok T vals sets inputs = true ->
    resolve_sets T vals sets inputs = SetsOk ts ->
    forall i op s, nth_error sets i = Some (TSym op s) -> op = 1 \/ op = 2 ->
    forall a, In a (nth i ts []) <-> set_den T (prules_of (rules_of T vals sets inputs)) (TSym op s) a.
Proof. exact sets_exact_first_last. Qed.

Theorem C15_generated_system_exact :
  forall T nl rules nodes keys sol,
    gen_all_keys_ok T nl rules nodes keys = true -> nodes_wf nodes -> stable_solution nodes sol ->
    (forall op s v, 0 <= op <= 4 -> find_key op s keys = Some v ->
       forall a, sol v a <-> op_in T (prules_of rules) op s a) /\
    (forall t p, tree_ok nodes keys t p = true -> forall a, sol p a <-> set_den T (prules_of rules) t a).
Proof.
  intros T nl rules nodes keys sol Hk Hwf Hs. split.
  - exact (gen_leaf_exact T nl rules nodes keys Hk sol Hs).
  - exact (tree_sem T (prules_of rules) nodes keys sol Hwf Hs (gen_leaf_exact T nl rules nodes keys Hk sol Hs)).
Qed.

(* top-level `any s` *)
Theorem C15_sets_exact_any :
  forall T vals sets inputs ts, sets <> [] ->
    sets_certb T vals sets inputs = true -> sets_gen_all_ok T vals sets inputs = true ->
    resolve_sets T vals sets inputs = SetsOk ts ->
    forall i s, nth_error sets i = Some (TSym 0 s) ->
    forall a, In a (nth i ts []) <-> any_in T (prules_of (rules_of T vals sets inputs)) s a.
Proof. intros T vals sets inputs ts Hne Hc Hg Hr i s Hi. now apply (sets_exact_kind T vals sets inputs ts Hne Hc Hg Hr i 0 s Hi). Qed.

(* top-level `follow s` / `precede s` *)
Theorem C15_sets_exact_follow_precede :
  forall T vals sets inputs ts, sets <> [] ->
    sets_certb T vals sets inputs = true -> sets_gen_all_ok T vals sets inputs = true ->
    resolve_sets T vals sets inputs = SetsOk ts ->
    forall i s,
      (nth_error sets i = Some (TSym 4 s) ->
         forall a, In a (nth i ts []) <-> follow_in T (prules_of (rules_of T vals sets inputs)) s a) /\
      (nth_error sets i = Some (TSym 3 s) ->
         forall a, In a (nth i ts []) <-> precede_in T (prules_of (rules_of T vals sets inputs)) s a).
Proof.
  intros T vals sets inputs ts Hne Hc Hg Hr i s. split; intro Hi.
  - now apply (sets_exact_kind T vals sets inputs ts Hne Hc Hg Hr i 4 s Hi).
  - now apply (sets_exact_kind T vals sets inputs ts Hne Hc Hg Hr i 3 s Hi).
Qed.

(* every single kind any / first / last / precede / follow (op = 0 .. 4) *)
Theorem C15_sets_exact_kind :
  forall T vals sets inputs ts, sets <> [] ->
    sets_certb T vals sets inputs = true -> sets_gen_all_ok T vals sets inputs = true ->
    resolve_sets T vals sets inputs = SetsOk ts ->
    forall i op s, nth_error sets i = Some (TSym op s) -> 0 <= op <= 4 ->
    forall a, In a (nth i ts []) <-> set_den T (prules_of (rules_of T vals sets inputs)) (TSym op s) a.
Proof. exact sets_exact_kind. Qed.

(* clause sets_exact of DESIGN for every closed set expression: union / intersection / complement trees over any / first / last /
   precede / follow; the returned terminals are exactly the terminals in the declarative meaning *)
Theorem C15_sets_exact :
  forall T vals sets inputs ts, sets <> [] ->
    sets_certb T vals sets inputs = true -> sets_gen_all_ok T vals sets inputs = true ->
    resolve_sets T vals sets inputs = SetsOk ts ->
    forall i t, nth_error sets i = Some t -> tree_scope t = true ->
    forall a, In a (nth i ts []) <-> 0 <= a < T /\ set_den T (prules_of (rules_of T vals sets inputs)) t a.
Proof. exact sets_exact_all. Qed.

Theorem C15_after_err_partial :
  forall T rules tb err,
    (forall r, In r rules -> T <= fst r) -> all_tables T rules = Some tb ->
    (forall a, set_den T rules (after_err_set err) a <-> follow_in T rules err a) /\
    (forall a, In a (eval_set T tb (after_err_set err)) <-> (0 <= a < T /\ follow_in T rules err a)) /\
    (is_recovering (eval_set T tb (after_err_set err)) = true <-> exists a, 0 <= a < T /\ follow_in T rules err a).
Proof.
  intros T rules tb err Hl Ht.
  assert (H2 : forall a, In a (eval_set T tb (after_err_set err)) <-> (0 <= a < T /\ follow_in T rules err a)).
  { intro a. exact (eval_set_exact T rules tb Hl Ht (after_err_set err) eq_refl a). }
  split; [intro a; reflexivity|]. split; [exact H2|].
  destruct (eval_set T tb (after_err_set err)) as [|a l] eqn:E; cbn [is_recovering].
  - split; [discriminate|]. intros [a Ha]. apply H2 in Ha. destruct Ha.
  - split; [|reflexivity]. intros _. exists a. apply H2. now left.
Qed.

(* nullable.go: isNullable is exact w.r.t. the denotation of the notation (C13's [den]) *)
Theorem C15_is_nullable_decides_empty :
  forall T rho setden nl,
    (forall s, mem s nl = true <-> (T <= s /\ rho s [])) ->
    forall e, nullable_scope e = true ->
      (is_nullable nl e = true <-> den T rho setden e []).
Proof. exact is_nullable_exact. Qed.

(* the oracle's tables are the inductive definitions, for all five operators *)
Theorem C15_sets_exact_partial :
  forall T rules nl,
    spec_nullable rules = Some nl ->
    (forall r, In r rules -> T <= fst r) ->
    (forall X, mem X nl = true <-> nullable_in rules X) /\
    (forall t, spec_first T nl rules = Some t -> forall s a, mem a (sym_val T t s) = true <-> first_in T rules s a) /\
    (forall t, spec_last T nl rules = Some t -> forall s a, mem a (sym_val T t s) = true <-> last_in T rules s a) /\
    (forall t, spec_any T rules = Some t -> forall s a, mem a (sym_val T t s) = true <-> any_in T rules s a) /\
    (forall ft t, spec_first T nl rules = Some ft -> spec_follow T nl ft rules = Some t ->
                  forall s a, mem a (tget t s) = true <-> follow_in T rules s a) /\
    (forall lt t, spec_last T nl rules = Some lt -> spec_precede T nl lt rules = Some t ->
                  forall s a, mem a (tget t s) = true <-> precede_in T rules s a).
Proof.
  intros T rules nl Hn Hl. pose proof (spec_nullable_exact rules nl Hn) as H. split; [exact H|]. split; [|split; [|split; [|split]]].
  - intros t Ht. exact (spec_first_exact T rules nl H Hl t Ht).
  - intros t Ht. exact (spec_last_exact T rules nl H Hl t Ht).
  - intros t Ht. exact (spec_any_exact T rules Hl t Ht).
  - intros ft t Hf Ht. exact (spec_follow_exact T rules nl H ft (spec_first_exact T rules nl H Hl ft Hf) t Ht).
  - intros lt t Hlt Ht. exact (spec_precede_exact T rules nl H lt (spec_last_exact T rules nl H Hl lt Hlt) t Ht).
Qed.

(* set expressions without named sets over a plain grammar: the evaluation from the proved tables (used as the
   second oracle) is the declarative meaning: union / intersection / complement of any/first/last/precede/follow *)
Theorem C15_closed_sets_exact :
  forall T rules tb,
    (forall r, In r rules -> T <= fst r) ->
    all_tables T rules = Some tb ->
    forall t, closed_tset t = true -> forall a, In a (eval_set T tb t) <-> (0 <= a < T /\ set_den T rules t a).
Proof. exact eval_set_exact. Qed.

(* non-vacuity.  terminals a b c = 0 1 2;  N0 (3): N1 a | b ;  N1 (4): %empty | c N1 ;  input N0 *)
Definition ex_vals : list expr :=
  [EChoice [ESeq [ERef 4 []; ERef 0 []]; ERef 1 []]; EChoice [EEmpty; ESeq [ERef 2 []; ERef 4 []]]].
Definition ex_rules : list prule := [(3, [4; 0]); (3, [1]); (4, []); (4, [2; 4])].

Example C15_example_tables :
  spec_nullable ex_rules = Some [4] /\
  spec_first 3 [4] ex_rules = Some [(3, [0; 1; 2]); (4, [2])] /\
  spec_last 3 [4] ex_rules = Some [(3, [0; 1]); (4, [2])] /\
  (forall r, In r ex_rules -> 3 <= fst r).
Proof.
  split; [vm_compute; reflexivity|]. split; [vm_compute; reflexivity|]. split; [vm_compute; reflexivity|].
  intros r [<-|[<-|[<-|[<-|[]]]]]; vm_compute; discriminate.
Qed.

(* sets: first N0 ; follow N1 & ~c ; precede a ; a self-dependent complement s = ~s | a *)
Example C15_example_model :
  resolve_sets 3 ex_vals [TSym 1 3; TInter [TSym 4 4; TCompl 1 (TSym 0 2)]; TSym 3 0] [mkInput 0 false]
    = SetsOk [[0; 1; 2]; [0]; [2]] /\
  spec_sets 3 ex_vals [TSym 1 3; TInter [TSym 4 4; TCompl 1 (TSym 0 2)]; TSym 3 0] [mkInput 0 false]
    = SpecOk [[0; 1; 2]; [0]; [2]] /\
  resolve_sets 3 ex_vals [TUnion [TCompl 7 (TNamed 0); TSym 0 0]] [mkInput 0 false] = SetsErr [7] /\
  spec_sets 3 ex_vals [TUnion [TCompl 7 (TNamed 0); TSym 0 0]] [mkInput 0 false] = SpecErr [7].
Proof. vm_compute. repeat split; reflexivity. Qed.

(* non-vacuity of the closure theorems.  nodes: 0 = {1,5} | n1 ; 1 = {2} | n0 (a union cycle) ; 2 = n0 & n3 ;
   3 = {2,7} ; 4 = ~n2 (complement of a solved component) ; 5 = n6 & n5' with 5,6 an intersection cycle *)
Definition ex_nodes : list cnode :=
  [mkNode OpUnion [1%nat] (mkIntSet false [1; 5]); mkNode OpUnion [0%nat] (mkIntSet false [2]);
   mkNode OpIntersection [0%nat; 3%nat] (mkIntSet false []); mkNode OpUnion [] (mkIntSet false [2; 7]);
   mkNode OpComplement [2%nat] (mkIntSet false []);
   mkNode OpIntersection [6%nat; 0%nat] (mkIntSet false []); mkNode OpUnion [5%nat; 3%nat] (mkIntSet false [1])].
Definition ex_nodes_cyc : list cnode :=
  [mkNode OpUnion [1%nat] (mkIntSet false [1]); mkNode OpComplement [0%nat] (mkIntSet false [])].

Example C15_example_closure :
  closure_certb ex_nodes = true /\ c_oof (compute ex_nodes) = false /\ c_err (compute ex_nodes) = [] /\
  map n_val (c_nodes (compute ex_nodes)) =
    [mkIntSet false [1; 2; 5]; mkIntSet false [1; 2; 5]; mkIntSet false [2]; mkIntSet false [2; 7];
     mkIntSet true [2]; mkIntSet false [1; 2]; mkIntSet false [1; 2; 7]] /\
  closure_certb ex_nodes_cyc = true /\ c_err (compute ex_nodes_cyc) = [1%nat].
Proof. vm_compute. repeat split; reflexivity. Qed.

Example C15_example_sets_cert :
  sets_certb 3 ex_vals [TSym 1 3; TInter [TSym 4 4; TCompl 1 (TSym 0 2)]; TSym 3 0] [mkInput 0 false] = true /\
  sets_certb 3 ex_vals [TUnion [TCompl 7 (TNamed 0); TSym 0 0]] [mkInput 0 false] = true.
Proof. vm_compute. split; reflexivity. Qed.

Example C15_example_gen_ok :
  sets_gen_ok 3 ex_vals [TSym 1 3; TInter [TSym 4 4; TCompl 1 (TSym 0 2)]; TSym 2 4] [mkInput 0 false] = true /\
  resolve_sets 3 ex_vals [TSym 1 3; TInter [TSym 4 4; TCompl 1 (TSym 0 2)]; TSym 2 4] [mkInput 0 false]
    = SetsOk [[0; 1; 2]; [0]; [2]].
Proof. vm_compute. split; reflexivity. Qed.

(* non-vacuity of C15_sets_exact: all five kinds, a union, an intersection with a complement *)
Example C15_example_gen_all_ok :
  let sets := [TSym 1 3; TInter [TSym 4 4; TCompl 1 (TSym 0 2)]; TSym 3 0; TUnion [TSym 0 3; TSym 3 4]; TSym 2 4;
               TCompl 2 (TUnion [TSym 4 3; TSym 1 4])] in
  sets_gen_all_ok 3 ex_vals sets [mkInput 0 false] = true /\
  sets_certb 3 ex_vals sets [mkInput 0 false] = true /\
  forallb tree_scope sets = true /\
  resolve_sets 3 ex_vals sets [mkInput 0 false] = SetsOk [[0; 1; 2]; [0]; [2]; [0; 1; 2]; [2]; [0; 1]].
Proof. vm_compute. repeat split; reflexivity. Qed.

(* the check is not trivially true: dropping the lhs-fallback edge follow(N1) -> follow(N0) (the last edge of the
   node of the key (follow, N1)) or all edges from the generated system makes it fail *)
Example C15_example_check_rejects :
  let sets := [TInter [TSym 4 4; TCompl 1 (TSym 0 2)]] in
  let st := snd (resolve_est 3 ex_vals sets [mkInput 0 false]) in
  let nl := nullable_syms 3 ex_vals in
  let rules := rules_of 3 ex_vals sets [mkInput 0 false] in
  let drop_last v nodes := map (fun '(i, nd) => if Nat.eqb i v then mkNode (n_op nd) (removelast (n_edges nd)) (n_val nd) else nd)
                               (combine (seq 0 (length nodes)) nodes) in
  gen_all_keys_ok 3 nl rules (e_nodes st) (e_keys st) = true /\
  (exists v, find_key 4 4 (e_keys st) = Some v /\ gen_all_keys_ok 3 nl rules (drop_last v (e_nodes st)) (e_keys st) = false) /\
  gen_all_keys_ok 3 nl rules (map (fun nd => mkNode (n_op nd) [] (n_val nd)) (e_nodes st)) (e_keys st) = false.
Proof. vm_compute. split; [reflexivity|]. split; [eexists; split; reflexivity | reflexivity]. Qed.

Print Assumptions C15_generated_system_exact.
Print Assumptions C15_sets_exact_any.
Print Assumptions C15_sets_exact_follow_precede.
Print Assumptions C15_sets_exact_kind.
Print Assumptions C15_sets_exact.
Print Assumptions C15_generated_first_last_exact.
Print Assumptions C15_sets_exact_first_last.
Print Assumptions C15_closure_least_solution.
Print Assumptions C15_closure_solution_is_least_and_unique.
Print Assumptions C15_closure_certificate_sound.
Print Assumptions C15_closure_self_complement_rejected.
Print Assumptions C15_sets_least_solution_partial.
Print Assumptions C15_self_complement_rejected.
Print Assumptions C15_after_err_partial.
Print Assumptions C15_is_nullable_decides_empty.
Print Assumptions C15_sets_exact_partial.
Print Assumptions C15_closed_sets_exact.
