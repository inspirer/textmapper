(* C26 — Graph algorithms return correct components, closures and paths.
   Models: Util/Graph.v (transpose, matrix_closure, tarjan, longest_path mirror the Go code);
   certifying checkers: Util/GraphSpec.v.  Only theorem statements, examples, Print Assumptions. *)
From Coq Require Import List Arith.
From TM Require Import Util.Graph Util.Graph_proofs Util.GraphSpec Util.GraphSpec_proofs Util.Tarjan_proofs Util.LongestPath_proofs.
Import ListNotations.

(* Transposition reverses every edge, with multiplicity, and invents none. *)
Theorem C26_transpose_reverses_every_edge :
  forall g from to, from < length g -> to < length g ->
  count_occ Nat.eq_dec (nth to (transpose g) []) from = count_occ Nat.eq_dec (nth from g []) to.
Proof. exact transpose_spec. Qed.

Theorem C26_transpose_invents_no_vertex :
  forall g to x, In x (nth to (transpose g) []) -> x < length g.
Proof. exact transpose_sources_in_range. Qed.

(* Matrix.Closure (the in-place Warshall loop) adds exactly the pairs joined by a path of >= 1 edges. *)
Theorem C26_closure_is_reachability :
  forall n m, mwf n m ->
  mwf n (matrix_closure m) /\ forall a b, has_edge (matrix_closure m) a b = true <-> reach m a b.
Proof. exact matrix_closure_spec. Qed.

(* Tarjan, certifying form (P2): whatever component list passes [check_scc] — evaluated on the real
   output of graph.Tarjan for every generated graph — reports every vertex exactly once, groups
   exactly the mutually reachable vertices, and lists a component before any component reaching it. *)
Theorem C26_scc_certificate_sound :
  forall g comps, check_scc g comps = true -> scc_output_ok g comps.
Proof. exact check_scc_sound. Qed.

Theorem C26_scc_are_the_strongly_connected_components :
  forall g comps, scc_output_ok g comps ->
  forall u v, u < length g -> v < length g ->
  ((exists c, In c comps /\ In u c /\ In v c) <-> (u = v \/ (greach g u v /\ greach g v u))).
Proof. exact scc_output_exact. Qed.

(* LongestPath, certifying form: nil exactly for cyclic graphs, otherwise a real path of maximum length
   among ALL paths of the graph (no length bound: acyclicity bounds paths by pigeonhole). *)
Theorem C26_longest_path_certificate_sound :
  forall g res, check_longest g res = true -> longest_ok g res.
Proof. exact check_longest_sound. Qed.

Theorem C26_onstack_contract :
  forall g out, check_onstack g out = true ->
  forall comp on v w, In (comp, on) out -> In v comp -> In w (nth v g []) ->
  (nth w on false = true <-> In w comp).
Proof. exact check_onstack_spec. Qed.

(* Tarjan, the algorithm itself (direct invariant proof over index / lowlink / stack / onStack with the
   active call chain as ghost state, Util/Tarjan_proofs.v): for EVERY graph with >= 2 vertices whose edges
   name existing vertices, the step-by-step model of tarjan.go (strongConnect with its fuel n+1)
   never runs out of fuel, ends with an empty stack, and its callbacks report every vertex in exactly one
   component, every component strongly connected, no earlier component reaching a later one (reverse
   topological order; with the partition this makes the components exactly the SCCs, see
   C26_scc_are_the_strongly_connected_components), and the onStack argument marks, among the successors
   of the component's vertices, exactly the members of the component. *)
Theorem C26_tarjan_spec :
  forall g, graph_wf g = true -> 2 <= length g ->
  t_oof (tarjan_run g) = false /\
  t_stack (tarjan_run g) = [] /\
  scc_output_ok g (map fst (tarjan g)) /\
  (forall comp on v w, In (comp, on) (tarjan g) -> In v comp -> In w (nth v g []) ->
     (nth w on false = true <-> In w comp)).
Proof. exact tarjan_spec. Qed.

(* the pre/post specification of one strongConnect call from which the above follows *)
Theorem C26_strong_connect_spec :
  forall g, graph_wf g = true -> forall f gr v s,
  Pre g f gr v s -> Post g gr v s (strong_connect f g v s).
Proof. exact strong_connect_spec. Qed.

(* consequently the model's output always passes the certificates (which are complete for the spec) *)
Theorem C26_tarjan_passes_certificates :
  forall g, graph_wf g = true -> 2 <= length g ->
  check_scc g (map fst (tarjan g)) = true /\ check_onstack g (tarjan g) = true.
Proof. exact tarjan_passes_certificates. Qed.

Theorem C26_scc_certificate_complete :
  forall g comps, scc_output_ok g comps -> check_scc g comps = true.
Proof. exact check_scc_complete. Qed.

(* the early return of the Go code: fewer than two vertices, nothing reported *)
Theorem C26_tarjan_small : forall g, length g < 2 -> tarjan g = [].
Proof. exact tarjan_small. Qed.

(* LongestPath, the algorithm itself (Util/LongestPath_proofs.v, invariant over height/link/cycle with the
   active call chain as ghost state): for EVERY graph with >= 1 vertex whose edges name existing vertices,
   the step-by-step model of path.go (dfs with its fuel n+2, the driver loop choosing `first`, the link walk)
   returns None exactly when the graph has a cycle, and otherwise a real path that no path of the graph
   exceeds in number of vertices. *)
Theorem C26_longest_path_spec :
  forall g, graph_wf g = true -> 1 <= length g -> longest_ok g (longest_path g).
Proof. exact longest_path_spec. Qed.

Theorem C26_longest_path_dfs_spec :
  forall g, graph_wf g = true -> forall f gr i s,
  PPre g f gr i s -> PPost g gr i s (lp_dfs f g i s).
Proof. exact lp_dfs_spec. Qed.

Theorem C26_longest_path_passes_certificate :
  forall g, graph_wf g = true -> 1 <= length g -> check_longest g (longest_path g) = true.
Proof. exact longest_path_passes_certificate. Qed.

(* the zero-vertex graph: the Go code returns the empty (nil) slice, which is also its "cycle" answer *)
Theorem C26_longest_path_empty : longest_path [] = Some [].
Proof. exact longest_path_empty. Qed.

(* non-vacuity: the model of Tarjan/LongestPath run on a concrete graph passes the certificates *)
Example C26_example :
  let g := [[1]; [2; 3]; [0]; [4]; []] in
  check_scc g (map fst (tarjan g)) = true /\ map fst (tarjan g) = [[4]; [3]; [0; 1; 2]] /\
  check_onstack g (tarjan g) = true /\
  check_longest g (longest_path g) = true /\ longest_path g = None /\
  longest_path [[1; 2]; [2]; [3]; []] = Some [0; 1; 2; 3] /\
  check_longest [[1; 2]; [2]; [3]; []] (Some [0; 1; 2; 3]) = true.
Proof. vm_compute. repeat split; reflexivity. Qed.

(* non-vacuity of the hypotheses of C26_tarjan_spec *)
Example C26_tarjan_spec_hyps : let g := [[1]; [2; 3]; [0]; [4]; []] in graph_wf g = true /\ 2 <= length g.
Proof. vm_compute. split; [reflexivity|repeat constructor]. Qed.

Print Assumptions C26_transpose_reverses_every_edge.
Print Assumptions C26_transpose_invents_no_vertex.
Print Assumptions C26_closure_is_reachability.
Print Assumptions C26_scc_certificate_sound.
Print Assumptions C26_scc_are_the_strongly_connected_components.
Print Assumptions C26_longest_path_certificate_sound.
Print Assumptions C26_onstack_contract.
Print Assumptions C26_tarjan_spec.
Print Assumptions C26_strong_connect_spec.
Print Assumptions C26_tarjan_passes_certificates.
Print Assumptions C26_scc_certificate_complete.
Print Assumptions C26_tarjan_small.
Print Assumptions C26_longest_path_spec.
Print Assumptions C26_longest_path_dfs_spec.
Print Assumptions C26_longest_path_passes_certificate.
Print Assumptions C26_longest_path_empty.
