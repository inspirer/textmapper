(* Proofs for Gen/PermInv.v and Gen/PermInv2.v: the result of each site does not depend on the iteration order. *)
From Coq Require Import List ZArith Lia Sorting.Sorted Sorting.Permutation.
From TM Require Import Lib.ListX Gen.PermInv Gen.PermInv2.
Import ListNotations.
Local Open Scope Z_scope.

Section SortProofs.
  Variable A : Type.
  Variable leb : A -> A -> bool.
  Hypothesis leb_total : forall a b, leb a b = true \/ leb b a = true.
  Hypothesis leb_trans : forall a b c, leb a b = true -> leb b c = true -> leb a c = true.

  Definition leb_holds (a b : A) : Prop := leb a b = true.

  Lemma insert_perm x l : Permutation (insert A leb x l) (x :: l).
  Proof.
    induction l as [|y t IH]; cbn [insert]; [reflexivity|].
    destruct (leb x y); [reflexivity|]. rewrite IH. apply perm_swap.
  Qed.

  Lemma isort_perm l : Permutation (isort A leb l) l.
  Proof. induction l as [|x t IH]; cbn [isort]; [reflexivity|]. rewrite insert_perm. now constructor. Qed.

  Lemma insert_sorted x l : StronglySorted leb_holds l -> StronglySorted leb_holds (insert A leb x l).
  Proof.
    induction 1 as [|y t Hs IH Hall]; cbn [insert]; [repeat constructor|].
    destruct (leb x y) eqn:E.
    - constructor; [now constructor|]. constructor; [exact E|].
      eapply Forall_impl; [|exact Hall]. intros z Hz. unfold leb_holds in *. eapply leb_trans; eauto.
    - constructor; [exact IH|].
      assert (Hyx : leb_holds y x) by (destruct (leb_total x y); [congruence|assumption]).
      rewrite Forall_forall. intros z Hz.
      apply (Permutation_in _ (insert_perm x t)) in Hz. destruct Hz as [<-|Hz]; [exact Hyx|].
      rewrite Forall_forall in Hall. now apply Hall.
  Qed.

  Lemma isort_sorted l : StronglySorted leb_holds (isort A leb l).
  Proof. induction l as [|x t IH]; cbn [isort]; [constructor|]. now apply insert_sorted. Qed.

  (* two sorted permutations of each other are equal, provided the order is antisymmetric on the elements *)
  Lemma sorted_perm_eq : forall l1 l2,
    (forall a b, In a l1 -> In b l1 -> leb_holds a b -> leb_holds b a -> a = b) ->
    StronglySorted leb_holds l1 -> StronglySorted leb_holds l2 -> Permutation l1 l2 -> l1 = l2.
  Proof.
    induction l1 as [|a t1 IH]; intros l2 Hanti H1 H2 Hp.
    - apply Permutation_nil in Hp. now subst.
    - destruct l2 as [|b t2]; [apply Permutation_sym, Permutation_nil in Hp; discriminate|].
      inversion H1 as [|? ? Hs1 Ha]; subst. inversion H2 as [|? ? Hs2 Hb]; subst.
      rewrite Forall_forall in Ha, Hb.
      assert (Hab : a = b).
      { assert (Hin_b : In b (a :: t1)) by (eapply Permutation_in; [apply Permutation_sym; exact Hp|now left]).
        assert (Hin_a : In a (b :: t2)) by (eapply Permutation_in; [exact Hp|now left]).
        destruct Hin_b as [->|Hbt]; [reflexivity|]. destruct Hin_a as [->|Hat]; [reflexivity|].
        apply Hanti; [now left | now right | now apply Ha | now apply Hb]. }
      subst b. f_equal. apply IH; try assumption.
      + intros x y Hx Hy. apply Hanti; now right.
      + now apply Permutation_cons_inv in Hp.
  Qed.

  Lemma isort_perm_invariant l1 l2 :
    (forall a b, In a l1 -> In b l1 -> leb_holds a b -> leb_holds b a -> a = b) ->
    Permutation l1 l2 -> isort A leb l1 = isort A leb l2.
  Proof.
    intros Hanti Hp. apply sorted_perm_eq; try apply isort_sorted.
    - intros a b Ha Hb. apply Hanti; eapply Permutation_in; try apply isort_perm; assumption.
    - rewrite isort_perm, Hp. symmetry. apply isort_perm.
  Qed.
End SortProofs.

(* sorting by a key, with a total order on the keys: entries are told apart by their keys *)
Lemma isort_key_invariant {A K} (key : A -> K) (kleb : K -> K -> bool) :
  (forall p q, kleb p q = true \/ kleb q p = true) ->
  (forall p q r, kleb p q = true -> kleb q r = true -> kleb p r = true) ->
  (forall p q, kleb p q = true -> kleb q p = true -> p = q) ->
  forall l1 l2, (forall a b, In a l1 -> In b l1 -> key a = key b -> a = b) -> Permutation l1 l2 ->
  isort A (fun a b => kleb (key a) (key b)) l1 = isort A (fun a b => kleb (key a) (key b)) l2.
Proof.
  intros Htot Htr Hanti l1 l2 Hinj Hp. apply isort_perm_invariant; [intros; apply Htot | intros a b c; apply Htr | | exact Hp].
  intros a b Ha Hb H1 H2. apply Hinj; [assumption..|]. now apply Hanti.
Qed.

(* Go's < on strings is a total order *)
Lemma str_leb_cons x a y b : str_leb (x :: a) (y :: b) = true <-> x < y \/ (x = y /\ str_leb a b = true).
Proof.
  cbn [str_leb]. destruct (Z.ltb_spec x y) as [H|H]; [split; auto|].
  destruct (Z.ltb_spec y x) as [H'|H']; [split; [discriminate|lia]|].
  replace y with x by lia. split; [auto | intros [?|[_ ?]]; [lia|assumption]].
Qed.

Lemma str_leb_refl a : str_leb a a = true.
Proof. induction a as [|x a IH]; [reflexivity|]. apply str_leb_cons. auto. Qed.

Lemma str_leb_total : forall a b, str_leb a b = true \/ str_leb b a = true.
Proof.
  induction a as [|x a IH]; intros [|y b]; try (now left); try (now right).
  rewrite !str_leb_cons. destruct (IH b); destruct (Z.lt_trichotomy x y) as [|[|]]; auto.
Qed.

Lemma str_leb_antisym : forall a b, str_leb a b = true -> str_leb b a = true -> a = b.
Proof.
  induction a as [|x a IH]; intros [|y b]; try discriminate; [reflexivity|].
  rewrite !str_leb_cons. intros [?|[-> ?]] [?|[E ?]]; try lia. f_equal. now apply IH.
Qed.

Lemma str_leb_trans : forall a b c, str_leb a b = true -> str_leb b c = true -> str_leb a c = true.
Proof.
  induction a as [|x a IH]; intros [|y b] [|z c]; try discriminate; try reflexivity.
  rewrite !str_leb_cons. intros [?|[-> ?]] [?|[-> ?]]; [left; lia..|]. right. split; [reflexivity|]. eapply IH; eassumption.
Qed.

Lemma isort_str_invariant l1 l2 : Permutation l1 l2 -> isort _ str_leb l1 = isort _ str_leb l2.
Proof.
  intro Hp. apply (isort_perm_invariant _ str_leb str_leb_total str_leb_trans); [|exact Hp].
  intros a b _ _. apply str_leb_antisym.
Qed.

Lemma string_switch_invariant m pi1 pi2 :
  Permutation pi1 pi2 -> string_switch m pi1 = string_switch m pi2.
Proof. intro Hp. unfold string_switch. now rewrite (Permutation_length Hp), (isort_str_invariant pi1 pi2 Hp). Qed.

Lemma sort_and_dedup_invariant l1 l2 : Permutation l1 l2 -> sort_and_dedup l1 = sort_and_dedup l2.
Proof. intro Hp. unfold sort_and_dedup. now rewrite (isort_str_invariant l1 l2 Hp). Qed.

Lemma collect_sorted_invariant {V} (pi1 pi2 : list (Z * V)) :
  NoDup (map fst pi1) -> Permutation pi1 pi2 -> collect_sorted pi1 = collect_sorted pi2.
Proof.
  intros Hnd. apply (isort_key_invariant fst Z.leb); [intros; lia..|]. now apply NoDup_map_inj.
Qed.

(* entries agree on duplicate keys (a Go map has none; BitSet.Set(k) / m[k] = true may repeat a key) *)
Definition consistent {V : Type} (pi : list (Z * V)) : Prop :=
  forall k v v', In (k, v) pi -> In (k, v') pi -> v = v'.

Lemma nodup_keys_consistent {V} (pi : list (Z * V)) : NoDup (map fst pi) -> consistent pi.
Proof. intros Hnd k v v' H1 H2. now injection (NoDup_map_inj fst pi Hnd _ _ H1 H2 eq_refl). Qed.

Lemma apply_writes_ext {V} : forall (pi : list (Z * V)) f g x,
  (forall y, f y = g y) -> apply_writes pi f x = apply_writes pi g x.
Proof.
  induction pi as [|[k w] t IH]; intros f g x H; [apply H|]. apply IH. intro y. unfold upd. now rewrite H.
Qed.

Lemma writes_commute {V} (pi1 pi2 : list (Z * V)) :
  consistent pi1 -> Permutation pi1 pi2 -> forall f x, apply_writes pi1 f x = apply_writes pi2 f x.
Proof.
  intros Hc Hp. induction Hp as [|e l l' Hp IH|[k1 v1] [k2 v2] l|l l' l'' Hp1 IH1 Hp2 IH2]; intros f x.
  - reflexivity.
  - apply IH. intros k v v' H1 H2. eapply Hc; right; eassumption.
  - (* two writes swap: same key means same value *)
    unfold apply_writes. cbn [fold_left fst snd]. apply (apply_writes_ext l). intro y. unfold upd.
    destruct (Z.eqb_spec y k1) as [->|], (Z.eqb_spec k1 k2) as [->|]; rewrite ?Z.eqb_refl; try reflexivity.
    eapply Hc; [right|]; now left.
  - rewrite IH1 by exact Hc. apply IH2. intros k v v' H1 H2.
    eapply Hc; eapply Permutation_in; try (apply Permutation_sym; exact Hp1); eassumption.
Qed.

Lemma set_assoc_keys {V} : forall (m : list (Z * V)) k v x,
  In x (map fst (set_assoc m k v)) <-> k = x \/ In x (map fst m).
Proof.
  induction m as [|[k' v'] t IH]; intros k v x; cbn [set_assoc map fst]; [reflexivity|].
  destruct (Z.eqb_spec k' k) as [->|_]; cbn [map fst In]; [|rewrite IH]; tauto.
Qed.

Lemma set_assoc_nodup {V} : forall (m : list (Z * V)) k v,
  NoDup (map fst m) -> NoDup (map fst (set_assoc m k v)).
Proof.
  induction m as [|[k' v'] t IH]; intros k v Hnd; cbn [set_assoc]; [repeat constructor; intros []|].
  cbn [map fst] in Hnd. inversion Hnd as [|? ? Hnin Hnd']; subst.
  destruct (Z.eqb_spec k' k) as [->|Hne]; cbn [map fst]; constructor; auto.
  rewrite set_assoc_keys. intros [<-|H]; contradiction.
Qed.

Lemma token_comments_nodup rules : NoDup (map fst (token_comments rules)).
Proof.
  unfold token_comments. generalize (NoDup_nil Z). change (@nil Z) with (map fst (@nil (Z * list Z))).
  generalize (@nil (Z * list Z)). induction rules as [|[tok val] rs IH]; intros m Hm; [exact Hm|].
  cbn [fold_left]. apply IH. unfold comment_step. destruct (lookup m tok); [destruct (negb _)|]; now apply set_assoc_nodup.
Qed.

Lemma resolve_token_comments_invariant rules pi1 pi2 :
  Permutation (token_comments rules) pi1 -> Permutation (token_comments rules) pi2 ->
  forall syms x, apply_writes pi1 syms x = apply_writes pi2 syms x.
Proof.
  intros H1 H2. apply writes_commute; [|now rewrite <- H1].
  apply nodup_keys_consistent. rewrite <- H1. apply token_comments_nodup.
Qed.

Lemma sort_strings_invariant l1 l2 : Permutation l1 l2 -> sort_strings l1 = sort_strings l2.
Proof. apply isort_str_invariant. Qed.

Lemma go_imports_invariant std pi1 pi2 :
  NoDup (map snd pi1) -> Permutation pi1 pi2 -> go_imports std pi1 = go_imports std pi2.
Proof.
  intros Hnd. apply (isort_key_invariant snd (fun p q => if Bool.eqb (std p) (std q) then str_leb p q else std p)).
  - intros p q. destruct (std p), (std q); cbn; auto using str_leb_total.
  - intros p q r. destruct (std p), (std q), (std r); cbn; try congruence; apply str_leb_trans.
  - intros p q. destruct (std p), (std q); cbn; try discriminate; apply str_leb_antisym.
  - now apply NoDup_map_inj.
Qed.

(* the first match does not depend on the order when at most one element matches *)
Lemma find_unique_perm {A} (p : A -> bool) l1 l2 :
  (forall a b, In a l1 -> In b l1 -> p a = true -> p b = true -> a = b) ->
  Permutation l1 l2 -> find p l1 = find p l2.
Proof.
  intros Hu Hp. induction Hp as [|x l l' Hp IH|x y l|l l' l'' Hp1 IH1 Hp2 IH2]; cbn [find].
  - reflexivity.
  - rewrite IH; [reflexivity|]. intros a b Ha Hb. apply Hu; now right.
  - destruct (p x) eqn:Ex, (p y) eqn:Ey; try reflexivity. f_equal. apply Hu; [now left | right; now left | assumption..].
  - rewrite IH1 by exact Hu. apply IH2. intros a b Ha Hb.
    apply Hu; eapply Permutation_in; try (apply Permutation_sym; exact Hp1); assumption.
Qed.

Lemma reverse_lookup_invariant pi1 pi2 i :
  NoDup (map snd pi1) -> Permutation pi1 pi2 -> reverse_lookup pi1 i = reverse_lookup pi2 i.
Proof.
  intros Hnd Hp. unfold reverse_lookup. rewrite (find_unique_perm _ pi1 pi2); [reflexivity| |exact Hp].
  intros a b Ha Hb Ea Eb. apply (NoDup_map_inj snd pi1 Hnd); try assumption. apply Z.eqb_eq in Ea, Eb. congruence.
Qed.

Lemma perm_filter {A} (p : A -> bool) l1 l2 : Permutation l1 l2 -> Permutation (filter p l1) (filter p l2).
Proof.
  induction 1 as [|x l l' _ IH|x y l|l l' l'' _ IH1 _ IH2]; cbn [filter].
  - constructor.
  - destruct (p x); [now constructor|exact IH].
  - destruct (p x), (p y); try reflexivity. apply perm_swap.
  - now transitivity (filter p l').
Qed.

Lemma topo_order_invariant {P} (rows1 rows2 : list (row P)) :
  NoDup (map row_id rows1) -> Permutation rows1 rows2 -> topo_order rows1 = topo_order rows2.
Proof.
  intros Hnd Hp. unfold topo_order, max_height.
  change (fold_right Nat.max O) with list_max. rewrite (Permutation_list_max (Permutation_map row_h Hp)). apply flat_map_ext. intro h.
  apply (isort_key_invariant row_id str_leb str_leb_total str_leb_trans str_leb_antisym); [|now apply perm_filter].
  intros a b Ha Hb. apply filter_In in Ha as [Ha _]. apply filter_In in Hb as [Hb _]. now apply (NoDup_map_inj row_id rows1 Hnd).
Qed.
