(* LS/Server.v: diagnostics are published in request order with the request's version; a definition request is
   answered from the latest content of its document, with locations of identifiers of the same name and kind. *)
From Coq Require Import List ZArith Bool Lia.
From TM Require Import LS.Position LS.Server.
Import ListNotations.
Local Open Scope Z_scope.

Section ServerProofs.
  Variable compile : list Z -> list cdiag.
  Variable collect_ids : list Z -> list ident.
  Notation run := (run compile collect_ids).
  Notation step := (step compile collect_ids).
  Notation final := (final compile collect_ids).
  Notation typecheck := (typecheck compile).
  Notation definition := (definition collect_ids).

  Definition is_publish (o : output) : bool := match o with Publish _ _ _ => true | _ => false end.

  Fixpoint changes (rs : list request) : list (Z * Z * list Z) :=
    match rs with
    | [] => []
    | ROpen d v c :: t | RChange d v c :: t => (d, v, c) :: changes t
    | _ :: t => changes t
    end.

  Lemma diagnostics_in_order : forall rs s,
    filter is_publish (run s rs) = map (fun '(d, v, c) => typecheck d v c) (changes rs).
  Proof.
    induction rs as [|r t IH]; intro s; [reflexivity|].
    destruct r as [d v c|d v c|d|i d l c]; cbn [Server.run Server.step changes app filter is_publish map]; rewrite ?IH; reflexivity.
  Qed.

  Lemma run_app : forall a b s, run s (a ++ b) = run s a ++ run (final s a) b.
  Proof.
    induction a as [|r a IH]; intros b s; [reflexivity|].
    cbn [app Server.run Server.final]. destruct (step s r) as [s' o] eqn:E. cbn [fst]. now rewrite IH, app_assoc.
  Qed.

  Lemma lookup_remove_same d s : lookup d (remove_doc d s) = None.
  Proof. induction s as [|[k v] s IH]; [reflexivity|]. cbn [remove_doc]. destruct (k =? d) eqn:E; [exact IH|]. cbn [lookup]. now rewrite E. Qed.

  Lemma lookup_remove_other d d' s : d' <> d -> lookup d (remove_doc d' s) = lookup d s.
  Proof.
    intro H. induction s as [|[k v] s IH]; [reflexivity|]. cbn [remove_doc lookup].
    destruct (k =? d') eqn:E1; destruct (k =? d) eqn:E2; cbn [lookup]; rewrite ?E2; try exact IH; try reflexivity.
    apply Z.eqb_eq in E1, E2. congruence.
  Qed.

  Lemma lookup_set_same d v s : lookup d (set_doc d v s) = Some v.
  Proof. unfold set_doc. cbn [lookup]. now rewrite Z.eqb_refl. Qed.

  Lemma lookup_set_other d d' v s : d' <> d -> lookup d (set_doc d' v s) = lookup d s.
  Proof. intro H. unfold set_doc. cbn [lookup]. replace (d' =? d) with false by (symmetry; now apply Z.eqb_neq). now apply lookup_remove_other. Qed.

  (* what the latest open/change/close of a history leaves for a document *)
  Fixpoint latest (doc : Z) (cur : option (list Z * Z)) (rs : list request) : option (list Z * Z) :=
    match rs with
    | [] => cur
    | ROpen d v c :: t | RChange d v c :: t => latest doc (if d =? doc then Some (c, uint32 v) else cur) t
    | RClose d :: t => latest doc (if d =? doc then None else cur) t
    | RDef _ _ _ _ :: t => latest doc cur t
    end.

  Lemma lookup_final : forall rs s doc, lookup doc (final s rs) = latest doc (lookup doc s) rs.
  Proof.
    induction rs as [|r t IH]; intros s doc; [reflexivity|].
    destruct r as [d v c|d v c|d|i d l c]; cbn [Server.final Server.step fst latest]; rewrite IH; f_equal;
      try reflexivity; destruct (d =? doc) eqn:E;
      try (apply Z.eqb_eq in E; subst; first [apply lookup_set_same | apply lookup_remove_same]);
      try (apply Z.eqb_neq in E; first [now apply lookup_set_other | now apply lookup_remove_other]).
  Qed.

  Lemma definition_uses_latest pre id doc line col :
    run [] (pre ++ [RDef id doc line col]) =
    run [] pre ++ [Reply id (definition (match latest doc None pre with Some x => [(doc, x)] | None => [] end) doc line col)].
  Proof.
    (* the answer depends on the documents only through the entry of doc *)
    assert (Hdef : forall s s', lookup doc s = lookup doc s' -> definition s doc line col = definition s' doc line col).
    { intros s s' H. unfold Server.definition. now rewrite H. }
    rewrite run_app. cbn [Server.run Server.step app]. do 3 f_equal. apply Hdef. rewrite lookup_final. cbn [lookup].
    destruct (latest doc None pre) as [x|]; cbn [lookup]; [now rewrite Z.eqb_refl|reflexivity].
  Qed.

  Lemma same_name_locations s doc line col content v locs x :
    lookup doc s = Some (content, v) -> definition s doc line col = Some locs -> In x locs ->
    exists cursor cur i,
      resolve_position content line col = Some cursor /\
      In cur (collect_ids content) /\ id_off cur <= cursor <= id_end cur /\
      In i (collect_ids content) /\ id_kind i = id_kind cur /\
      id_text content i = id_text content cur /\ x = location doc content i.
  Proof.
    intros Hl Hd Hin. unfold Server.definition in Hd. rewrite Hl in Hd.
    destruct (resolve_position content line col) as [cursor|]; [|discriminate].
    destruct (find _ (collect_ids content)) as [cur|] eqn:Hf; [|injection Hd as <-; contradiction].
    apply find_some in Hf. destruct Hf as (Hcur & Hrange). apply andb_true_iff in Hrange. rewrite !Z.leb_le in Hrange.
    destruct (0 <? id_kind cur); [|injection Hd as <-; contradiction].
    injection Hd as <-. apply in_map_iff in Hin. destruct Hin as (i & <- & Hi).
    assert (Hsame : In i (filter (fun i0 => (id_kind i0 =? id_kind cur) && bytes_eqb (id_text content i0) (id_text content cur)) (collect_ids content))).
    { destruct (negb (length _ =? 1)%nat || id_decl cur).
      - apply in_app_or in Hi. destruct Hi as [Hi|Hi]; apply filter_In in Hi; tauto.
      - apply filter_In in Hi; tauto. }
    apply filter_In in Hsame. destruct Hsame as (Hi' & Hk). apply andb_true_iff in Hk. destruct Hk as (Hk & Ht).
    apply Z.eqb_eq in Hk. unfold bytes_eqb in Ht. destruct (list_eq_dec Z.eq_dec _ _) as [Heq|]; [|discriminate].
    exists cursor, cur, i. repeat split; try assumption; lia.
  Qed.
End ServerProofs.
