(* LS/Async.v: exactly one response per call, and the chain never deadlocks. *)
From Coq Require Import List Arith Lia.
From TM Require Import LS.Async LS.Async_proofs.
Import ListNotations.

Section AsyncResp.
  Variables St Req Out Val : Type.
  Variable body : Req -> list (micro St Out).
  Variable resp : Req -> St -> Val.
  Variable reqs : list Req.
  Variable s0 : St.

  Notation config := (config St Out Val).
  Notation step := (step St Req Out Val body resp).
  Notation reachable := (reachable St Req Out Val body resp).
  Notation Waiting := (Waiting St Out Val).
  Notation Running := (Running St Out Val).
  Notation Replying := (Replying St Out Val).
  Notation Done := (Done St Out Val).
  Notation finished := (finished St Out Val).
  Notation upd := (upd St Out Val).

  (* number of responses to request i written so far *)
  Fixpoint count_resp (i : nat) (t : list (event Out Val)) : nat :=
    match t with
    | [] => 0
    | EvResp _ _ j _ :: t' => (if Nat.eqb j i then 1 else 0) + count_resp i t'
    | EvOut _ _ _ :: t' => count_resp i t'
    end.

  Lemma count_resp_app i t1 t2 : count_resp i (t1 ++ t2) = count_resp i t1 + count_resp i t2.
  Proof. induction t1 as [|[o|j v] t IH]; cbn [app count_resp]; lia. Qed.

  Lemma count_resp_outs i os : count_resp i (map (EvOut Out Val) os) = 0.
  Proof. induction os as [|o t IH]; cbn [map count_resp]; lia. Qed.

  Definition is_done (x : gstate St Out Val) : bool := match x with Async.Done _ _ _ => true | _ => false end.

  Lemma is_done_upd gs i x j : is_done x = is_done (gs i) -> is_done (upd gs i x j) = is_done (gs j).
  Proof. intro H. unfold Async.upd. now destruct (Nat.eqb_spec j i) as [->|]. Qed.

  Lemma response_count c :
    reachable reqs s0 c -> forall i, count_resp i (trace _ _ _ c) = if is_done (g _ _ _ c i) then 1 else 0.
  Proof.
    induction 1 as [|c c' Hr IH Hs]; intro j; [reflexivity|].
    specialize (IH j). destruct Hs as [c Hlt|c i r Hi Hw Hrel Hnth|c i m rest Hrun|c i r Hrun Hnth|c i v Hrep]; cbn [trace g];
      rewrite ?count_resp_app, ?count_resp_outs, ?Nat.add_0_r;
      try (rewrite is_done_upd by (rewrite ?Hw, ?Hrun; reflexivity)); try exact IH.
    (* the response is sent: goroutine i becomes Done and its count goes from 0 to 1 *)
    cbn [count_resp]. unfold Async.upd. rewrite (Nat.eqb_sym i j). destruct (Nat.eqb_spec j i) as [->|_]; [|lia].
    rewrite Hrep in IH. cbn [is_done] in *. lia.
  Qed.

  Lemma exactly_one_response c :
    reachable reqs s0 c -> (forall i, i < length reqs -> g _ _ _ c i = Done) ->
    (forall i, i < length reqs -> count_resp i (trace _ _ _ c) = 1) /\
    (forall i, length reqs <= i -> count_resp i (trace _ _ _ c) = 0).
  Proof.
    intros Hr Hdone. split; intros i Hi; rewrite (response_count c Hr i); [now rewrite (Hdone i Hi)|].
    (* a goroutine that has not arrived is waiting *)
    destruct (reachable_inv St Req Out Val body resp reqs s0 c Hr) as [k executed cur Hk Hsh Hcur _ _ _ _].
    destruct (chain_shape_at _ _ _ k cur _ i Hsh) as [(Hlt & _)|[(-> & ->)|(_ & ->)]]; [lia| |reflexivity].
    destruct Hcur as [(-> & _)|(r & rest & _ & _ & _ & Hlt)]; [reflexivity|lia].
  Qed.

  Lemma at_most_one_response c i : reachable reqs s0 c -> count_resp i (trace _ _ _ c) <= 1.
  Proof. intro Hr. rewrite (response_count c Hr i). destruct (is_done _); lia. Qed.

  Lemma finished_range (gs : nat -> gstate St Out Val) : forall n,
    (forall i, i < n -> finished (gs i) = true) ->
    (forall i, i < n -> gs i = Done) \/ (exists i v, i < n /\ gs i = Replying v).
  Proof.
    induction n as [|n IH]; intro Hf; [left; intros; lia|].
    destruct IH as [Hall|(i & v & Hi & Hv)]; [intros; apply Hf; lia| |right; exists i, v; split; [lia|exact Hv]].
    specialize (Hf n (Nat.lt_succ_diag_r n)). destruct (gs n) eqn:E; try discriminate.
    - right. exists n, v. split; [lia|exact E].
    - left. intros i Hi. destruct (Nat.eq_dec i n) as [->|Hne]; [exact E|apply Hall; lia].
  Qed.

  (* no deadlock: every reachable configuration is final (all answered) or has an enabled step *)
  Lemma progress c :
    reachable reqs s0 c ->
    (arrived _ _ _ c = length reqs /\ forall i, i < length reqs -> g _ _ _ c i = Done) \/ exists c', step reqs c c'.
  Proof.
    intro Hr. destruct (reachable_inv St Req Out Val body resp reqs s0 c Hr) as [k executed cur [Hk Harr] (Hlo & Hc & Hhi) Hcur _ _ _ _].
    destruct Hcur as [(-> & _)|(r & rest & Hnth & -> & _ & Hlt)]; [rename Hc into Hw|rename Hc into Hrun].
    - destruct (Nat.eq_dec k (arrived _ _ _ c)) as [Heq|Hne].
      + destruct (Nat.eq_dec (arrived _ _ _ c) (length reqs)) as [Hall|Hmore].
        * destruct (finished_range (g _ _ _ c) k Hlo) as [Hd|(i & v & Hi & Hv)].
          -- left. split; [exact Hall|]. intros i Hi. apply Hd. lia.
          -- right. eexists. eapply s_send. exact Hv.
        * right. eexists. apply s_arrive. lia.
      + right. assert (Hlt : k < arrived _ _ _ c) by lia.
        destruct (nth_error reqs k) as [r|] eqn:En; [|apply nth_error_None in En; lia].
        eexists. eapply (s_wake _ _ _ _ body resp reqs c k r Hlt Hw); [|exact En].
        unfold released. destruct k as [|k']; [now left|right]. replace (S k' - 1) with k' by lia. apply Hlo. lia.
    - right. destruct rest as [|m rest'].
      + eexists. eapply s_reply; eassumption.
      + eexists. eapply s_micro. exact Hrun.
  Qed.
End AsyncResp.
