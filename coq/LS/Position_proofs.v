(* Proofs about LS/Position.v: incoming and outgoing position conversions are inverse to each other. *)
From Coq Require Import List ZArith Lia.
From TM Require Import Lib.ListX Lex.Tables Util.LineCol Util.LineCol_proofs LS.Position.
Import ListNotations.
Local Open Scope Z_scope.

(* n bytes of s form whole runes of one line (none of them a newline): the offsets at which an LSP
   position can point *)
Inductive line_boundary : list Z -> nat -> Prop :=
| lb_0 s : line_boundary s 0
| lb_step s r w n : decode_rune s = (r, w) -> (0 < w)%nat -> r <> NL ->
    line_boundary (skipn w s) n -> line_boundary s (w + n).

Lemma line_boundary_app s n m : line_boundary s n -> line_boundary (skipn n s) m -> line_boundary s (n + m).
Proof.
  induction 1 as [s|s r w n Hdec Hw Hr Hlb IH]; intro Hm; [exact Hm|].
  rewrite <- Nat.add_assoc. apply (lb_step s r w); try assumption. apply IH. now rewrite skipn_skipn', (Nat.add_comm n w).
Qed.

Lemma utf16_len_nonneg : forall fuel s n, 0 <= utf16_len fuel s n.
Proof.
  induction fuel as [|k IH]; intros s n; cbn [utf16_len]; [lia|].
  destruct (n <=? 0); [lia|]. destruct (decode_rune s) as [r w]. destruct w; [lia|].
  specialize (IH (skipn (S w) s) (n - Z.of_nat (S w))). unfold units. destruct (r >? 65535); lia.
Qed.

Lemma utf16_len_step k s r w n : decode_rune s = (r, w) -> (0 < w)%nat -> 0 < n ->
  utf16_len (S k) s n = units r + utf16_len k (skipn w s) (n - Z.of_nat w).
Proof.
  intros Hdec Hw Hn. cbn [utf16_len]. rewrite Hdec. destruct (Z.leb_spec n 0); [lia|]. destruct w; [lia|reflexivity].
Qed.

Lemma utf16_len_prefix s n : line_boundary s n -> forall fuel, (n < fuel)%nat ->
  exists f', (fuel - n <= f')%nat /\
    forall m, 0 <= m -> utf16_len fuel s (Z.of_nat n + m) = utf16_len fuel s (Z.of_nat n) + utf16_len f' (skipn n s) m.
Proof.
  induction 1 as [s|s r w n Hdec Hw Hr Hlb IH]; intros fuel Hf.
  - exists fuel. split; [lia|]. intros m Hm. destruct fuel; [lia|]. cbn [utf16_len skipn]. cbn. reflexivity.
  - destruct fuel as [|k]; [lia|]. destruct (IH k ltac:(lia)) as (f' & Hf' & Hlen). exists f'. split; [lia|].
    intros m Hm. rewrite !(utf16_len_step k s r w) by (assumption || lia).
    replace (Z.of_nat (w + n) + m - Z.of_nat w) with (Z.of_nat n + m) by lia.
    replace (Z.of_nat (w + n) - Z.of_nat w) with (Z.of_nat n) by lia.
    rewrite Hlen, skipn_skipn', (Nat.add_comm n w) by exact Hm. lia.
Qed.

(* resolvePosition's column loop runs through the n bytes before a boundary and goes on behind them *)
Lemma skip_cols_prefix s n : line_boundary s n -> forall fuel1 fuel2 c pos, (n < fuel1)%nat -> (n < fuel2)%nat -> 0 <= c ->
  exists f', (fuel2 - n <= f')%nat /\
    skip_cols fuel2 s (utf16_len fuel1 s (Z.of_nat n) + c) pos = skip_cols f' (skipn n s) c (pos + Z.of_nat n).
Proof.
  induction 1 as [s|s r w n Hdec Hw Hr Hlb IH]; intros fuel1 fuel2 c pos H1 H2 Hc.
  - exists fuel2. split; [lia|]. destruct fuel1; [lia|]. cbn [utf16_len skipn]. cbn [Z.of_nat Z.leb Z.compare Z.add]. now rewrite Z.add_0_r.
  - destruct fuel1 as [|k1]; [lia|]. destruct fuel2 as [|k2]; [lia|].
    destruct (IH k1 k2 c (pos + Z.of_nat w) ltac:(lia) ltac:(lia) Hc) as (f' & Hf' & Heq).
    exists f'. split; [lia|]. rewrite (utf16_len_step k1 s r w) by (assumption || lia).
    replace (Z.of_nat (w + n) - Z.of_nat w) with (Z.of_nat n) by lia.
    pose proof (utf16_len_nonneg k1 (skipn w s) (Z.of_nat n)) as HU. revert Heq HU.
    generalize (utf16_len k1 (skipn w s) (Z.of_nat n)). intros U Heq HU.
    rewrite skipn_skipn', (Nat.add_comm n w) in Heq.
    replace (pos + Z.of_nat (w + n)) with (pos + Z.of_nat w + Z.of_nat n) by lia. rewrite <- Heq.
    cbn [skip_cols]. rewrite Hdec. unfold units. destruct (Z.gtb_spec r 65535).
    + destruct (Z.leb_spec (2 + U + c) 0); [lia|]. destruct (Z.eqb_spec r NL); [contradiction|].
      destruct w; [lia|]. cbn [Nat.eqb orb]. destruct (Z.eqb_spec (2 + U + c - 1) 0); [lia|]. f_equal. lia.
    + destruct (Z.leb_spec (1 + U + c) 0); [lia|]. destruct (Z.eqb_spec r NL); [contradiction|].
      destruct w; [lia|]. cbn [Nat.eqb orb]. f_equal. lia.
Qed.

Lemma skip_cols_0 fuel s pos : skip_cols fuel s 0 pos = Some pos.
Proof. destruct fuel; reflexivity. Qed.

Lemma cols_roundtrip s n : line_boundary s n ->
  forall fuel1 fuel2 pos, (n < fuel1)%nat -> (n < fuel2)%nat ->
  skip_cols fuel2 s (utf16_len fuel1 s (Z.of_nat n)) pos = Some (pos + Z.of_nat n).
Proof.
  intros Hlb fuel1 fuel2 pos H1 H2.
  destruct (skip_cols_prefix s n Hlb fuel1 fuel2 0 pos H1 H2 ltac:(lia)) as (f' & _ & Heq).
  rewrite Z.add_0_r in Heq. rewrite Heq. apply skip_cols_0.
Qed.

(* after n bytes of whole runes comes a rune above U+FFFF: the column between its two code units is rejected *)
Lemma skip_cols_inside_pair s n : line_boundary s n ->
  forall r w, decode_rune (skipn n s) = (r, w) -> (0 < w)%nat -> 65535 < r ->
  forall fuel1 fuel2 pos, (n < fuel1)%nat -> (n < fuel2)%nat ->
  skip_cols fuel2 s (utf16_len fuel1 s (Z.of_nat n) + 1) pos = None.
Proof.
  intros Hlb r w Hd Hw Hbig fuel1 fuel2 pos H1 H2.
  destruct (skip_cols_prefix s n Hlb fuel1 fuel2 1 pos H1 H2 ltac:(lia)) as (f' & Hf' & ->).
  destruct f' as [|k]; [lia|]. cbn [skip_cols Z.leb Z.compare]. rewrite Hd.
  destruct (Z.eqb_spec r NL); [unfold NL in *; lia|]. destruct w; [lia|]. cbn [Nat.eqb orb].
  destruct (Z.gtb_spec r 65535); [reflexivity|lia].
Qed.

Lemma skip_cols_after_pair s n : line_boundary s n ->
  forall r w, decode_rune (skipn n s) = (r, w) -> (0 < w)%nat -> 65535 < r ->
  forall fuel1 fuel2 pos, (n + w < fuel1)%nat -> (n + w < fuel2)%nat ->
  line_boundary s (n + w) /\
  utf16_len fuel1 s (Z.of_nat (n + w)) = utf16_len fuel1 s (Z.of_nat n) + 2 /\
  skip_cols fuel2 s (utf16_len fuel1 s (Z.of_nat n) + 2) pos = Some (pos + Z.of_nat (n + w)).
Proof.
  intros Hlb r w Hd Hw Hbig fuel1 fuel2 pos H1 H2.
  assert (Hlb' : line_boundary s (n + w)).
  { apply line_boundary_app; [exact Hlb|]. rewrite <- (Nat.add_0_r w).
    apply (lb_step _ r w 0); [exact Hd | exact Hw | unfold NL; lia | constructor]. }
  assert (Hlen : utf16_len fuel1 s (Z.of_nat (n + w)) = utf16_len fuel1 s (Z.of_nat n) + 2).
  { destruct (utf16_len_prefix s n Hlb fuel1 ltac:(lia)) as (f' & Hf' & Hsplit).
    rewrite Nat2Z.inj_add, Hsplit by lia. f_equal. destruct f' as [|k]; [lia|].
    rewrite (utf16_len_step k _ r w) by (assumption || lia). rewrite Z.sub_diag. unfold units.
    destruct (Z.gtb_spec r 65535); [|lia]. destruct k; reflexivity. }
  split; [exact Hlb'|]. split; [exact Hlen|]. rewrite <- Hlen. apply cols_roundtrip; [exact Hlb'|lia..].
Qed.

Lemma count_nl_nonneg s : 0 <= count_nl s.
Proof. induction s as [|c t IH]; cbn [count_nl]; [lia|]. destruct (c =? NL); lia. Qed.

(* resolvePosition's line loop runs through a stretch that holds fewer newlines than lines to skip *)
Lemma skip_lines_run : forall pre x line pos, count_nl pre < line ->
  skip_lines (pre ++ x) line pos = skip_lines x (line - count_nl pre) (pos + Z.of_nat (length pre)).
Proof.
  induction pre as [|c t IH]; intros x line pos Hlt; cbn [app count_nl length] in *.
  - now rewrite Z.sub_0_r, Z.add_0_r.
  - pose proof (count_nl_nonneg t). cbn [skip_lines]. destruct (Z.leb_spec line 0); [destruct (c =? NL); lia|].
    rewrite IH by (destruct (c =? NL); lia). f_equal; destruct (c =? NL); lia.
Qed.

Lemma count_nl_app a b : count_nl (a ++ b) = count_nl a + count_nl b.
Proof. now rewrite (count_nl_lines (a ++ b) 0), lines_from_app, app_length, Nat2Z.inj_add, <- !count_nl_lines. Qed.

Lemma skip_lines_pre pre x pos : (pre = [] \/ last pre 0 = NL) ->
  skip_lines (pre ++ x) (count_nl pre) pos = Some (x, pos + Z.of_nat (length pre)).
Proof.
  assert (H0 : forall p, skip_lines x 0 p = Some (x, p)) by (destruct x; reflexivity).
  intros [->|Hl]; [cbn [app count_nl length]; now rewrite H0, Z.add_0_r|].
  destruct pre as [|c a _] using rev_ind; [discriminate|]. rewrite last_last in Hl. subst c.
  rewrite <- app_assoc, count_nl_app, skip_lines_run by (cbn; lia).
  replace (count_nl a + count_nl [NL] - count_nl a) with 1 by (cbn; lia).
  cbn. rewrite H0, app_length. f_equal. f_equal. cbn [length]. lia.
Qed.

(* For every offset that is a rune boundary of its line (given by the decomposition of the text around it), the
   outgoing LSP position (line, UTF-16 character) resolves back to the offset. *)
Lemma position_round_trip pre mid rest :
  (pre = [] \/ last pre 0 = NL) -> ~ In NL mid -> line_boundary (mid ++ rest) (length mid) ->
  let content := pre ++ mid ++ rest in
  let off := Z.of_nat (length pre + length mid) in
  resolve_position content (fst (position_of content off)) (snd (position_of content off)) = Some off.
Proof.
  intros Hpre Hmid Hlb content off. unfold position_of, off, content.
  rewrite (line_col_decl pre mid rest Hpre Hmid). unfold out_position, utf16_between. cbn [fst snd].
  replace (1 + count_nl pre - 1) with (count_nl pre) by lia.
  replace (Z.of_nat (length pre + length mid) - (Z.of_nat (length mid) + 1 - 1)) with (Z.of_nat (length pre)) by lia.
  replace (Z.of_nat (length pre + length mid) - Z.of_nat (length pre)) with (Z.of_nat (length mid)) by lia.
  rewrite !Nat2Z.id. rewrite skipn_app, skipn_all, Nat.sub_diag. cbn [app skipn].
  unfold resolve_position. rewrite skip_lines_pre by exact Hpre.
  rewrite (cols_roundtrip _ _ Hlb); [f_equal; lia | lia | rewrite app_length; lia].
Qed.

(* the pinned server sent byte columns: refuted as soon as a non-ASCII rune precedes the offset *)
Lemma pinned_positions_refuted :
  exists content off,
    position_of_pinned content off <> position_of content off /\
    resolve_position content (fst (position_of_pinned content off)) (snd (position_of_pinned content off)) <> Some off.
Proof. exists [195; 169; 32; 97], 3. split; vm_compute; discriminate. Qed.
