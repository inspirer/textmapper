(* Proofs about LS/Async.v: under every schedule the handler bodies run one at a time, in arrival order. *)
From Coq Require Import List Arith Lia.
From TM Require Import Lib.ListX LS.Async.
Import ListNotations.

Section AsyncProofs.
  Variables St Req Out Val : Type.
  Variable body : Req -> list (micro St Out).
  Variable resp : Req -> St -> Val.

  Notation config := (config St Out Val).
  Notation step := (step St Req Out Val body resp).
  Notation reachable := (reachable St Req Out Val body resp).
  Notation exec := (exec St Out).
  Notation all_micro := (all_micro St Req Out body).
  Notation seq_val := (seq_val St Req Out Val body resp).
  Notation outs_of := (outs_of Out Val).
  Notation Waiting := (Waiting St Out Val).
  Notation Running := (Running St Out Val).
  Notation Replying := (Replying St Out Val).
  Notation Done := (Done St Out Val).
  Notation finished := (finished St Out Val).
  Notation upd := (upd St Out Val).

  Lemma exec_app : forall a b s,
    exec (a ++ b) s = let '(s1, o1) := exec a s in let '(s2, o2) := exec b s1 in (s2, o1 ++ o2).
  Proof.
    induction a as [|m a IH]; intros b s; cbn [app Async.exec].
    - destruct (exec b s); reflexivity.
    - destruct (m s) as [s1 o1]. rewrite IH. destruct (exec a s1) as [s2 o2]. destruct (exec b s2) as [s3 o3].
      now rewrite app_assoc.
  Qed.

  Lemma exec_snoc a m s :
    exec (a ++ [m]) s = (fst (m (fst (exec a s))), snd (exec a s) ++ snd (m (fst (exec a s)))).
  Proof.
    rewrite exec_app. destruct (exec a s) as [s1 o1]. cbn [Async.exec fst snd].
    destruct (m s1) as [s2 o2]. cbn. now rewrite app_nil_r.
  Qed.

  Lemma outs_of_app t1 t2 : outs_of (t1 ++ t2) = outs_of t1 ++ outs_of t2.
  Proof. induction t1 as [|[o|i v] t1 IH]; cbn; [reflexivity | now rewrite IH | exact IH]. Qed.

  Lemma outs_of_map_out os : outs_of (map (EvOut Out Val) os) = os.
  Proof. induction os as [|o os IH]; cbn; [reflexivity | now rewrite IH]. Qed.

  Lemma all_micro_snoc rs r : all_micro (rs ++ [r]) = all_micro rs ++ body r.
  Proof. unfold Async.all_micro. rewrite map_app, concat_app. cbn. now rewrite app_nil_r. Qed.

  Lemma upd_same f i x : upd f i x i = x.
  Proof. unfold Async.upd. now rewrite Nat.eqb_refl. Qed.
  Lemma upd_other f i x j : j <> i -> upd f i x j = f j.
  Proof. intro H. unfold Async.upd. destruct (Nat.eqb_spec j i); [contradiction|reflexivity]. Qed.

  (* goroutine k is the one whose turn it is (in state cur): everything before it has replied, everything
     after it waits *)
  Definition chain_shape (k : nat) (cur : gstate St Out Val) (gs : nat -> gstate St Out Val) : Prop :=
    (forall i, i < k -> finished (gs i) = true) /\ gs k = cur /\ (forall i, k < i -> gs i = Waiting).

  Lemma chain_shape_at k cur gs i : chain_shape k cur gs ->
    (i < k /\ finished (gs i) = true) \/ (i = k /\ gs i = cur) \/ (k < i /\ gs i = Waiting).
  Proof. intros (Hlo & Hk & Hhi). destruct (lt_eq_lt_dec i k) as [[H| ->]|H]; auto. Qed.

  Lemma running_at k cur gs i rest : chain_shape k cur gs -> gs i = Running rest -> i = k.
  Proof.
    intros Hsh Hr. destruct (chain_shape_at k cur gs i Hsh) as [(_ & H)|[(H & _)|(_ & H)]]; [|exact H|]; rewrite Hr in H; discriminate.
  Qed.

  Lemma chain_shape_upd_k k cur cur' gs : chain_shape k cur gs -> chain_shape k cur' (upd gs k cur').
  Proof.
    intros (Hlo & _ & Hhi). split; [|split]; [intros i Hi|apply upd_same|intros i Hi]; rewrite upd_other by lia; auto.
  Qed.

  Lemma chain_shape_upd_lt k cur gs i x : i < k -> finished x = true -> chain_shape k cur gs -> chain_shape k cur (upd gs i x).
  Proof.
    intros Hik Hx (Hlo & Hk & Hhi). split; [|split]; [intros j Hj|rewrite upd_other by lia; exact Hk|intros j Hj; rewrite upd_other by lia; auto].
    destruct (Nat.eq_dec j i) as [->|Hne]; [now rewrite upd_same | rewrite upd_other by exact Hne; auto].
  Qed.

  Lemma chain_shape_next k cur gs x : finished x = true -> chain_shape k cur gs -> chain_shape (S k) Waiting (upd gs k x).
  Proof.
    intros Hx (Hlo & _ & Hhi). split; [|split]; [intros j Hj|rewrite upd_other by lia; apply Hhi; lia|intros j Hj; rewrite upd_other by lia; apply Hhi; lia].
    destruct (Nat.eq_dec j k) as [->|Hne]; [now rewrite upd_same | rewrite upd_other by exact Hne; apply Hlo; lia].
  Qed.

  (* a property of the values being replied survives an update that replies nothing new, or a good value *)
  Lemma replying_upd (P : nat -> Val -> Prop) gs j x :
    (forall i v, gs i = Replying v -> P i v) -> (forall v, x = Replying v -> P j v) ->
    forall i v, upd gs j x i = Replying v -> P i v.
  Proof.
    intros Hg Hx i v. destruct (Nat.eq_dec i j) as [->|Hne]; [rewrite upd_same; apply Hx | rewrite upd_other by exact Hne; apply Hg].
  Qed.

  Variable reqs : list Req.
  Variable s0 : St.

  (* k bodies have completed; body k has executed the micro-steps `executed` and is in state cur *)
  Inductive inv (c : config) : Prop :=
  | inv_intro k executed cur :
      k <= arrived _ _ _ c <= length reqs -> chain_shape k cur (g _ _ _ c) ->
      ((cur = Waiting /\ executed = []) \/
       (exists r rest, nth_error reqs k = Some r /\ cur = Running rest /\ body r = executed ++ rest /\ k < arrived _ _ _ c)) ->
      st _ _ _ c = fst (exec (all_micro (firstn k reqs) ++ executed) s0) ->
      outs_of (trace _ _ _ c) = snd (exec (all_micro (firstn k reqs) ++ executed) s0) ->
      (forall i v, g _ _ _ c i = Replying v -> seq_val reqs s0 i v) ->
      (forall i v, In (EvResp Out Val i v) (trace _ _ _ c) -> seq_val reqs s0 i v) ->
      inv c.

  Lemma inv_init : inv (mkC St Out Val 0 (fun _ => Waiting) s0 []).
  Proof.
    apply (inv_intro _ 0 [] Waiting); cbn; try reflexivity; [lia | repeat split; intros; lia | now left | discriminate | intros i v []].
  Qed.

  Lemma inv_step c c' : inv c -> step reqs c c' -> inv c'.
  Proof.
    intros Hinv Hstep.
    destruct Hstep as [c Hlt | c i r Hi Hw Hrel Hnth | c i m rest Hrun | c i r Hrun Hnth | c i v Hrp];
      destruct Hinv as [k executed cur Hk Hsh Hcur Hst Houts Hrep Htr].
    -
      apply (inv_intro _ k executed cur); cbn [Async.arrived Async.g Async.st Async.trace]; try assumption; [lia|].
      destruct Hcur as [Hc|(r & rest & H1 & H2 & H3 & H4)]; [now left|right; exists r, rest; repeat split; try assumption; lia].
    - (* only goroutine k can wake *)
      destruct (chain_shape_at k cur _ i Hsh) as [(_ & Hf)|[(-> & Hc)|(Hgt & _)]]; [rewrite Hw in Hf; discriminate| |].
      2:{ exfalso. destruct Hrel as [H0|Hfin]; [lia|].
          destruct (chain_shape_at k cur _ (i - 1) Hsh) as [(Hlt & _)|[(_ & Hc)|(_ & Hc)]]; [lia| |]; rewrite Hc in Hfin; [|discriminate].
          destruct Hcur as [(-> & _)|(r' & rest & _ & -> & _)]; discriminate. }
      rewrite Hw in Hc. subst cur. destruct Hcur as [(_ & ->)|(r' & rest & _ & Hc & _)]; [|discriminate].
      apply (inv_intro _ k [] (Running (body r))); cbn [Async.arrived Async.g Async.st Async.trace]; try assumption.
      + now apply chain_shape_upd_k with (cur := Waiting).
      + right. exists r, (body r). repeat split; try assumption; reflexivity.
      + apply replying_upd; [exact Hrep|discriminate].
    - (* only goroutine k can be running *)
      destruct (chain_shape_at k cur _ i Hsh) as [(_ & Hf)|[(-> & Hc)|(_ & Hc)]]; rewrite Hrun in *; try discriminate.
      subst cur. destruct Hcur as [(Hc & _)|(r & rest0 & Hnth & [= <-] & Hbody & Hka)]; [discriminate|].
      apply (inv_intro _ k (executed ++ [m]) (Running rest)); cbn [Async.arrived Async.g Async.st Async.trace]; try assumption.
      + now apply chain_shape_upd_k with (cur := Running (m :: rest)).
      + right. exists r, rest. repeat split; try assumption. now rewrite Hbody, <- app_assoc.
      + rewrite app_assoc, exec_snoc. cbn [fst]. now rewrite <- Hst.
      + rewrite outs_of_app, outs_of_map_out, app_assoc, exec_snoc. cbn [snd]. now rewrite <- Hst, <- Houts.
      + apply replying_upd; [exact Hrep|discriminate].
      + intros j v Hin. apply in_app_or in Hin as [Hin|Hin]; [now apply Htr|].
        apply in_map_iff in Hin as (o & Ho & _). discriminate.
    - (* body k is complete, the chain is unlocked *)
      destruct (chain_shape_at k cur _ i Hsh) as [(_ & Hf)|[(-> & Hc)|(_ & Hc)]]; rewrite Hrun in *; try discriminate.
      subst cur. destruct Hcur as [(Hc & _)|(r' & rest0 & Hnth' & [= <-] & Hbody & Hka)]; [discriminate|].
      rewrite Hnth in Hnth'. injection Hnth' as <-. rewrite app_nil_r in Hbody.
      assert (Hall : all_micro (firstn (S k) reqs) ++ [] = all_micro (firstn k reqs) ++ executed).
      { rewrite app_nil_r, (firstn_S_nth_error _ _ _ Hnth), all_micro_snoc, Hbody. reflexivity. }
      apply (inv_intro _ (S k) [] Waiting); cbn [Async.arrived Async.g Async.st Async.trace]; rewrite ?Hall; try assumption.
      + lia.
      + now apply chain_shape_next with (cur := Running []).
      + now left.
      + apply replying_upd; [exact Hrep|]. intros v [= <-]. exists r. split; [assumption|].
        unfold Async.seq_state. rewrite Hst. f_equal. f_equal. rewrite <- Hall. now rewrite app_nil_r.
    - (* a replying goroutine comes before k *)
      destruct (chain_shape_at k cur _ i Hsh) as [(Hik & _)|[(_ & Hc)|(_ & Hc)]]; [| |congruence].
      2:{ rewrite Hrp in Hc. subst cur. destruct Hcur as [(Hc & _)|(r & rest & _ & Hc & _)]; discriminate. }
      apply (inv_intro _ k executed cur); cbn [Async.arrived Async.g Async.st Async.trace]; try assumption.
      + now apply chain_shape_upd_lt.
      + rewrite outs_of_app. cbn. now rewrite app_nil_r.
      + apply replying_upd; [exact Hrep|discriminate].
      + intros j v' Hin. apply in_app_or in Hin as [Hin|[[= <- <-]|[]]]; [now apply Htr|now apply Hrep].
  Qed.

  Lemma reachable_inv c : reachable reqs s0 c -> inv c.
  Proof. induction 1; [apply inv_init | eapply inv_step; eauto]. Qed.

  Lemma at_most_one_running c i j ri rj :
    reachable reqs s0 c -> g _ _ _ c i = Running ri -> g _ _ _ c j = Running rj -> i = j.
  Proof.
    intros Hr Hi Hj. destruct (reachable_inv c Hr) as [k executed cur _ Hsh _ _ _ _ _].
    rewrite (running_at k cur _ i ri Hsh Hi), (running_at k cur _ j rj Hsh Hj). reflexivity.
  Qed.

  Lemma running_after_predecessors c i ri :
    reachable reqs s0 c -> g _ _ _ c i = Running ri -> forall j, j < i -> finished (g _ _ _ c j) = true.
  Proof.
    intros Hr Hi j Hj. destruct (reachable_inv c Hr) as [k executed cur _ Hsh _ _ _ _ _].
    rewrite (running_at k cur _ i ri Hsh Hi) in Hj. now apply Hsh.
  Qed.

  Lemma async_is_sequential c :
    reachable reqs s0 c -> arrived _ _ _ c = length reqs -> (forall i, i < length reqs -> g _ _ _ c i = Done) ->
    st _ _ _ c = seq_state St Req Out body reqs s0 /\
    outs_of (trace _ _ _ c) = seq_outs St Req Out body reqs s0 /\
    (forall i v, In (EvResp Out Val i v) (trace _ _ _ c) -> seq_val reqs s0 i v).
  Proof.
    intros Hr Harr Hdone. destruct (reachable_inv c Hr) as [k executed cur Hk (_ & Hc & _) Hcur Hst Houts _ Htr].
    (* goroutine k is waiting or running, so it is none of the answered ones *)
    assert (k = length reqs).
    { destruct (Nat.eq_dec k (length reqs)) as [|Hne]; [assumption|]. exfalso.
      rewrite Hdone in Hc by lia. destruct Hcur as [(-> & _)|(r & rest & _ & -> & _)]; discriminate. }
    subst k. destruct Hcur as [(_ & ->)|(r & rest & _ & _ & _ & Hlt)]; [|lia].
    rewrite firstn_all, app_nil_r in Hst, Houts. repeat split; assumption.
  Qed.

  Lemma async_prefix c :
    reachable reqs s0 c ->
    exists k executed rest,
      all_micro reqs = (all_micro (firstn k reqs) ++ executed) ++ rest /\
      st _ _ _ c = fst (exec (all_micro (firstn k reqs) ++ executed) s0) /\
      outs_of (trace _ _ _ c) = snd (exec (all_micro (firstn k reqs) ++ executed) s0).
  Proof.
    intro Hr. destruct (reachable_inv c Hr) as [k executed cur _ _ Hcur Hst Houts _ _].
    destruct Hcur as [(_ & ->)|(r & rest & Hnth & _ & Hbody & _)].
    - exists k, [], (all_micro (skipn k reqs)). repeat split; try assumption.
      rewrite app_nil_r. unfold Async.all_micro. rewrite <- concat_app, <- map_app, firstn_skipn. reflexivity.
    - exists k, executed, (rest ++ all_micro (skipn (S k) reqs)). repeat split; try assumption.
      rewrite <- (firstn_skipn (S k) reqs) at 1. unfold Async.all_micro at 1. rewrite map_app, concat_app.
      fold (all_micro (firstn (S k) reqs)). fold (all_micro (skipn (S k) reqs)).
      rewrite (firstn_S_nth_error _ _ _ Hnth), all_micro_snoc, Hbody. now rewrite <- !app_assoc.
  Qed.
End AsyncProofs.
