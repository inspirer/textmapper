(* C13: an expanded table read as a plain grammar: the least solution of a table of flat choices, set nonterminals (one
   rule per resolved terminal) and lookahead nonterminals (the empty rule) is the derivation relation of the grammar
   [ExtLang.to_cfg] reads from it. *)
From Coq Require Import List ZArith Lia.
From TM Require Import Gram.Cfg Gram.Cfg_proofs Gram.Derive Gram.LalrSpec_proofs Syn.Expr Syn.ExtLang Syn.Expand_proofs Syn.Expand_global
  Syn.CfgNonneg.
Import ListNotations.
Local Open Scope Z_scope.
Section Bridge.
  Variable T : Z.
  Variable setden : Z -> Z -> Prop.

  Definition sym_lang (rho : Z -> lang) (s : Z) : lang := if s <? T then (fun w => w = [s]) else rho s.

  Lemma flat_den rho : forall a rhs, rhs_of a = Some rhs ->
    forall w, den T rho setden a w <-> lang_cat (map (sym_lang rho) rhs) w.
  Proof.
    induction a using expr_ind2; intros rhs Hr w; cbn [rhs_of] in Hr; try discriminate; cbn [den]; auto;
      try (injection Hr as <-; cbn; unfold lang_eps; tauto).
    - revert rhs Hr w. induction H as [|x l Hx Hl IH]; intros rhs Hr w; cbn [map fold_right] in Hr.
      + injection Hr as <-. cbn. tauto.
      + destruct (rhs_of x) as [r1|] eqn:E1; [|discriminate].
        destruct (fold_right _ (Some []) (map rhs_of l)) as [r2|] eqn:E2; [|discriminate]. injection Hr as <-.
        cbn [map lang_cat]. rewrite map_app, lang_cat_app.
        split; intros (w1 & w2 & -> & H1 & H2); exists w1, w2; repeat split; auto;
          [now apply (Hx r1 eq_refl) | now apply (IH r2 eq_refl) | now apply (Hx r1 eq_refl) | now apply (IH r2 eq_refl)].
    - injection Hr as <-. cbn [map]. rewrite lang_cat_one. unfold sym_lang. tauto.
  Qed.

  Variable vals : list expr.
  (* every value is a choice of flat rules over non-negative symbols *)
  Hypothesis Hflat : forall k, (k < length vals)%nat ->
    exists alts, nth k vals (EChoice []) = EChoice alts /\
      forall a, In a alts -> exists rhs, rhs_of a = Some rhs /\ forall s, In s rhs -> 0 <= s.

  Variable g : grammar.
  Hypothesis Hterms : g_terms g = T.
  (* the rules of g are exactly the flat alternatives of the table *)
  Hypothesis Hrules : forall r, In r (g_rules g) <->
    exists k alts a, (k < length vals)%nat /\ nth k vals (EChoice []) = EChoice alts /\ In a alts /\
                     r_lhs r = T + Z.of_nat k /\ rhs_of a = Some (r_rhs r) /\ r_prec r = 0.

  Lemma seq_of_lang rhs : (forall s, In s rhs -> 0 <= s) ->
    forall (rho : Z -> lang), (forall s w, T <= s -> rho s w -> derives g s w) ->
    forall w, lang_cat (map (sym_lang rho) rhs) w -> derives_seq g rhs w.
  Proof.
    intros Hpos rho Hrho. induction rhs as [|s rhs IH]; intro w; cbn [map lang_cat].
    - intros ->. constructor.
    - intros (w1 & w2 & -> & H1 & H2). constructor; [|apply IH; auto; intros; apply Hpos; now right].
      unfold sym_lang in H1. destruct (s <? T) eqn:Es.
      + subst w1. apply d_term, is_term_spec. apply Z.ltb_lt in Es. specialize (Hpos s (or_introl eq_refl)). lia.
      + apply Hrho; auto. now apply Z.ltb_ge.
  Qed.

  Theorem lfp_derives : forall X w, lfp T setden vals X w -> T <= X -> derives g X w.
  Proof.
    intros X w Hl HX.
    set (rho := fun Y u => T <= Y /\ derives g Y u).
    enough (Hp : prefixpoint T setden vals rho) by exact (proj2 (Hl _ Hp)).
    apply prefixpoint_at. intros k Hk u Hd. split; [lia|].
    destruct (Hflat k Hk) as (alts & Ev & Ha). rewrite Ev in Hd. cbn [den] in Hd. apply lang_any_map in Hd as (a & Hin_a & Hda).
    destruct (Ha a Hin_a) as (rhs & Er & Hpos). rewrite (flat_den rho a rhs Er) in Hda.
    assert (Hr : In (mkRule (T + Z.of_nat k) rhs 0) (g_rules g)) by (apply Hrules; exists k, alts, a; repeat split; auto).
    apply (d_rule g _ u Hr). cbn [r_rhs]. apply (seq_of_lang rhs Hpos rho); [|exact Hda]. intros s v _ [_ Hv]. exact Hv.
  Qed.

  Theorem derives_lfp : forall X w, derives g X w -> T <= X -> lfp T setden vals X w.
  Proof.
    intros X w Hd.
    apply (derives_ind2 g
             (fun X w => T <= X -> lfp T setden vals X w)
             (fun xs w => lang_cat (map (sym_lang (lfp T setden vals)) xs) w)); auto.
    - intros a Ha Hge. apply is_term_spec in Ha. lia.
    - intros r u Hr Hseq IH _. apply Hrules in Hr as (k & alts & a & Hk & Ev & Hin_a & Hl & Er & _). rewrite Hl.
      apply lfp_solution; [exact Hk|]. rewrite Ev. cbn [den]. apply lang_any_map. exists a. split; auto. now apply (flat_den _ a (r_rhs r) Er).
    - reflexivity.
    - intros x xs w1 w2 Hx IHx Hxs IHxs. cbn [map lang_cat]. exists w1, w2. repeat split; auto.
      unfold sym_lang. destruct (x <? T) eqn:Ex.
      + inversion Hx; subst; [reflexivity|].
        (* a rule with a terminal on the left: impossible, left-hand sides are nonterminals *)
        match goal with H : In _ (g_rules g) |- _ => apply Hrules in H as (k & _ & _ & _ & _ & _ & Hl & _) end.
        apply Z.ltb_lt in Ex. lia.
      + apply IHx. now apply Z.ltb_ge.
  Qed.
End Bridge.
(* the fold of to_cfg succeeds on every element and collects exactly their rules *)
Lemma fold_right_opt_app {A B} (f : A -> option (list B)) (l : list A) rs :
  fold_right (fun x acc => match f x, acc with Some a, Some b => Some (a ++ b) | _, _ => None end) (Some []) l = Some rs ->
  (forall x, In x l -> exists a, f x = Some a) /\ (forall r, In r rs <-> exists x a, In x l /\ f x = Some a /\ In r a).
Proof.
  revert rs. induction l as [|x l IH]; intros rs H; cbn [fold_right] in H.
  - injection H as <-. split; [intros x [] | intro r; split; [intros [] | intros (x & a & [] & _)]].
  - destruct (f x) as [a|] eqn:Ef; [|discriminate].
    destruct (fold_right _ (Some []) l) as [b|] eqn:Eb; [|discriminate]. injection H as <-.
    destruct (IH b eq_refl) as [IH1 IH2]. split.
    + intros y [<-|Hy]; eauto.
    + intro r. rewrite in_app_iff, (IH2 r). split.
      * intros [Ha | (y & c & Hy & Hc & Hr)]; [exists x, a; split; [now left | auto] | exists y, c; split; [now right | auto]].
      * intros (y & c & [<- | Hy] & Hc & Hr); [left; congruence | right; eauto].
Qed.

Lemma rules_of_choice X alts rs :
  fold_right (fun a acc => match rhs_of a, acc with Some r, Some rs => Some (mkRule X r 0 :: rs) | _, _ => None end) (Some []) alts = Some rs ->
  (forall a, In a alts -> exists rhs, rhs_of a = Some rhs) /\
  (forall r, In r rs <-> exists a, In a alts /\ rhs_of a = Some (r_rhs r) /\ r_lhs r = X /\ r_prec r = 0).
Proof.
  revert rs. induction alts as [|a alts IH]; intros rs H; cbn [fold_right] in H.
  - injection H as <-. split; [intros a [] | intro r; split; [intros [] | intros (a & [] & _)]].
  - destruct (rhs_of a) as [ra|] eqn:Ea; [|discriminate].
    destruct (fold_right _ (Some []) alts) as [b|] eqn:Eb; [|discriminate]. injection H as <-.
    destruct (IH b eq_refl) as [IH1 IH2]. split.
    + intros y [<-|Hy]; eauto.
    + intro r. cbn [In]. rewrite (IH2 r). split.
      * intros [<- | (y & Hy & Hr)]; [exists a; cbn; auto | exists y; split; [now right | auto]].
      * intros (y & [<- | Hy] & Hr & Hl & Hp); [left; destruct r; cbn in *; congruence | right; eauto].
Qed.

Lemma to_cfg_some T setterms vals g : to_cfg T setterms vals = Some g ->
  g_terms g = T /\
  (forall k, (k < length vals)%nat -> exists rs, rules_of_nonterm setterms (T + Z.of_nat k) (nth k vals (EChoice [])) = Some rs) /\
  (forall r, In r (g_rules g) <-> exists k rs, (k < length vals)%nat /\
     rules_of_nonterm setterms (T + Z.of_nat k) (nth k vals (EChoice [])) = Some rs /\ In r rs).
Proof.
  unfold to_cfg. intro Hg.
  destruct (fold_right _ (Some []) (List.combine (seq 0 (length vals)) vals)) as [rules|] eqn:Er; [|discriminate].
  injection Hg as <-. cbn [g_terms g_rules].
  (* the fold, with its step written as a function of the pair *)
  assert (Er' : fold_right (fun x acc => match (fun '(k, v) => rules_of_nonterm setterms (T + Z.of_nat k) v) x, acc with
                                         | Some a, Some b => Some (a ++ b) | _, _ => None end)
                           (Some []) (List.combine (seq 0 (length vals)) vals) = Some rules).
  { rewrite <- Er. clear. induction (List.combine (seq 0 (length vals)) vals) as [|[k v] l IH]; [reflexivity|].
    cbn [fold_right]. now rewrite IH. }
  destruct (fold_right_opt_app _ _ _ Er') as [H1 H2]. split; [reflexivity|]. split.
  - intros k Hk. exact (H1 (k, nth k vals (EChoice [])) (proj2 (in_combine_seq vals (EChoice []) k _) (conj Hk eq_refl))).
  - intro r. rewrite H2. split.
    + intros ([k v] & a & Hin & Hf & Hr). apply (in_combine_seq vals (EChoice [])) in Hin as [Hk ->]. eauto.
    + intros (k & rs & Hk & Hf & Hr). exists (k, nth k vals (EChoice [])), rs. split; [|auto]. now apply (in_combine_seq vals (EChoice [])).
Qed.

Theorem to_cfg_language T setden vals g :
  to_cfg T (fun _ => []) vals = Some g ->
  (forall k, (k < length vals)%nat ->
    exists alts, nth k vals (EChoice []) = EChoice alts /\
      forall a, In a alts -> exists rhs, rhs_of a = Some rhs /\ forall s, In s rhs -> 0 <= s) ->
  forall X w, T <= X -> (lfp T setden vals X w <-> derives g X w).
Proof.
  intros Hg Hflat. destruct (to_cfg_some _ _ _ _ Hg) as (Ht & Hr_some & Hr).
  assert (Hrules : forall r, In r (g_rules g) <->
            exists k alts a, (k < length vals)%nat /\ nth k vals (EChoice []) = EChoice alts /\ In a alts /\
                             r_lhs r = T + Z.of_nat k /\ rhs_of a = Some (r_rhs r) /\ r_prec r = 0).
  { intro r. rewrite Hr. split.
    - intros (k & rs & Hk & Hf & Hin). destruct (Hflat k Hk) as (alts & Ev & _). rewrite Ev in Hf.
      apply (proj2 (rules_of_choice _ alts rs Hf)) in Hin as (a & Ha & Hrhs & Hl & Hp). exists k, alts, a. auto 10.
    - intros (k & alts & a & Hk & Ev & Ha & Hl & Hrhs & Hp). destruct (Hr_some k Hk) as (rs & Hrs).
      exists k, rs. split; [exact Hk|]. split; [exact Hrs|]. rewrite Ev in Hrs. apply (rules_of_choice _ alts rs Hrs). eauto. }
  intros X w HX. split; [intro H; now apply (lfp_derives T setden vals Hflat g Ht Hrules) | intro H; now apply (derives_lfp T setden vals g Ht Hrules)].
Qed.

(* a set nonterminal as the choice of its terminals, a lookahead nonterminal as the empty rule *)
Definition desugar_val (setterms : Z -> list Z) (v : expr) : expr :=
  match v with
  | ESet i => EChoice (map (fun a => ERef a []) (setterms i))
  | ELookahead _ => EChoice [EEmpty]
  | _ => v
  end.

Lemma rules_of_desugar setterms X v :
  rules_of_nonterm setterms X v = rules_of_nonterm (fun _ => []) X (desugar_val setterms v).
Proof.
  destruct v; try reflexivity. cbn [desugar_val rules_of_nonterm].
  match goal with |- context [setterms ?j] => induction (setterms j) as [|a l IH] end; [reflexivity|].
  cbn [map fold_right rhs_of]. now rewrite <- IH.
Qed.

Lemma to_cfg_desugar T setterms vals :
  to_cfg T setterms vals = to_cfg T (fun _ => []) (map (desugar_val setterms) vals).
Proof.
  unfold to_cfg. rewrite map_length.
  assert (G : forall s,
    fold_right (fun '(k, v) acc => match rules_of_nonterm setterms (T + Z.of_nat k) v, acc with
                                   | Some a, Some b => Some (a ++ b) | _, _ => None end)
               (Some []) (List.combine (seq s (length vals)) vals) =
    fold_right (fun '(k, v) acc => match rules_of_nonterm (fun _ => []) (T + Z.of_nat k) v, acc with
                                   | Some a, Some b => Some (a ++ b) | _, _ => None end)
               (Some []) (List.combine (seq s (length vals)) (map (desugar_val setterms) vals))).
  { induction vals as [|v vals IH]; intro s; [reflexivity|]. cbn [length seq List.combine map fold_right].
    now rewrite IH, rules_of_desugar. }
  now rewrite G.
Qed.

Lemma den_desugar T rho (setden : Z -> Z -> Prop) setterms :
  (forall i a, setden i a <-> In a (setterms i)) -> (forall i a, In a (setterms i) -> 0 <= a < T) ->
  forall v w, den T rho setden (desugar_val setterms v) w <-> den T rho setden v w.
Proof.
  intros Hs Hr v w. destruct v as [| ? | ? | ? | ? ? | ? ? | ? ? | ? ? ? | i | ? | ? | ? | ? | ? ? ? | ? ? | ? ?]; try tauto; cbn [desugar_val den].
  - rewrite map_map, lang_any_map. split.
    + intros (a & Ha & Hd). rewrite den_ref_t in Hd by apply (Hr i a Ha). exists a. split; [exact Hd | now apply Hs].
    + intros (a & -> & Ha). apply Hs in Ha. exists a. split; [exact Ha|]. apply den_ref_t; [apply (Hr i a Ha) | reflexivity].
  - cbn [map lang_any den]. tauto.
Qed.

(* a table to_cfg accepts without a negative symbol holds flat choices, sets and lookaheads *)
Lemma to_cfg_shape T setterms vals g :
  to_cfg T setterms vals = Some g -> nonneg_rules g = true ->
  forall k, (k < length vals)%nat ->
    (exists alts, nth k vals (EChoice []) = EChoice alts /\
       forall a, In a alts -> exists rhs, rhs_of a = Some rhs /\ forall s, In s rhs -> 0 <= s) \/
    (exists i, nth k vals (EChoice []) = ESet i) \/
    (exists subs, nth k vals (EChoice []) = ELookahead subs).
Proof.
  intros Hg Hnn k Hk. destruct (to_cfg_some _ _ _ _ Hg) as (_ & Hsome & Hr). destruct (Hsome k Hk) as (rs & Hrs).
  unfold nonneg_rules in Hnn. rewrite forallb_forall in Hnn.
  destruct (nth k vals (EChoice [])) as [| ? | alts | ? | ? ? | ? ? | ? ? | ? ? ? | i | ? | ? | subs | ? | ? ? ? | ? ? | ? ?] eqn:Ev;
    cbn [rules_of_nonterm] in Hrs; try discriminate; [left | right; left; now exists i | right; right; now exists subs].
  exists alts. split; [reflexivity|]. intros a Ha. destruct (rules_of_choice _ alts rs Hrs) as [Hrhs Hin].
  destruct (Hrhs a Ha) as (rhs & Erhs). exists rhs. split; [exact Erhs|].
  assert (Hrule : In (mkRule (T + Z.of_nat k) rhs 0) (g_rules g)).
  { apply Hr. exists k, rs. rewrite Ev. split; [exact Hk|]. split; [exact Hrs|]. apply Hin. exists a. cbn. auto. }
  specialize (Hnn _ Hrule). cbn [r_rhs] in Hnn. rewrite forallb_forall in Hnn. intros s Hs. now apply Z.leb_le, Hnn.
Qed.

(* the grammar to_cfg reads from an expanded table has the language of the table; the side conditions are executable *)
Theorem to_cfg_language_checked T (setden : Z -> Z -> Prop) setterms vals g :
  to_cfg T setterms vals = Some g -> nonneg_rules g = true ->
  (forall i a, setden i a <-> In a (setterms i)) ->
  (forall i a, In a (setterms i) -> 0 <= a < T) ->
  forall X w, T <= X -> (lfp T setden vals X w <-> derives g X w).
Proof.
  intros Hg Hnn Hs Hr X w HX. pose proof (to_cfg_shape _ _ _ _ Hg Hnn) as Hshape. rewrite to_cfg_desugar in Hg.
  set (vals' := map (desugar_val setterms) vals) in *.
  assert (Hnth : forall k, nth k vals' (EChoice []) = desugar_val setterms (nth k vals (EChoice []))).
  { intro k. unfold vals'. change (EChoice []) with (desugar_val setterms (EChoice [])) at 1. apply map_nth. }
  rewrite (lfp_congr_sol T setden vals vals').
  - apply (to_cfg_language T setden vals' g Hg); [|exact HX].
    intros k Hk. unfold vals' in Hk. rewrite map_length in Hk. rewrite Hnth.
    destruct (Hshape k Hk) as [(alts & -> & Ha) | [(i & ->) | (subs & ->)]]; cbn [desugar_val].
    + exists alts. split; [reflexivity | exact Ha].
    + eexists. split; [reflexivity|]. intros a Ha. apply in_map_iff in Ha as (t & <- & Ht).
      exists [t]. split; [reflexivity|]. intros s [<-|[]]. destruct (Hr i t Ht). lia.
    + eexists. split; [reflexivity|]. intros a [<-|[]]. exists []. split; [reflexivity | intros s []].
  - unfold vals'. now rewrite map_length.
  - intros rho _ k _ u. rewrite Hnth. symmetry. now apply den_desugar.
Qed.
