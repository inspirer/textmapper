(* Proofs about Syn/Expand.v: languages and [den]; the expander state as an append-only table with a failure flag;
   expandExpr preserves the denotation; the phase-2 rules of a list are its unfolding; alternatives are free of sugar. *)
From Coq Require Import List ZArith Bool Lia.
From TM Require Import Util.Ident Syn.Expr Syn.Expand Syn.ExtLang.
Import ListNotations.
Local Open Scope Z_scope.
Section ExprInd.
  Variable P : expr -> Prop.
  Hypothesis Hempty : P EEmpty.
  Hypothesis Hopt : forall e, P e -> P (EOpt e).
  Hypothesis Hchoice : forall l, Forall P l -> P (EChoice l).
  Hypothesis Hseq : forall l, Forall P l -> P (ESeq l).
  Hypothesis Href : forall s a, P (ERef s a).
  Hypothesis Hassign : forall n e, P e -> P (EAssign n e).
  Hypothesis Happend : forall n e, P e -> P (EAppend n e).
  Hypothesis Harrow : forall n f e, P e -> P (EArrow n f e).
  Hypothesis Hset : forall i, P (ESet i).
  Hypothesis Hmarker : forall n, P (EMarker n).
  Hypothesis Hcmd : forall n, P (ECmd n).
  Hypothesis Hla : forall l, Forall P l -> P (ELookahead l).
  Hypothesis Hlanot : forall e, P e -> P (ELaNot e).
  Hypothesis Hlist : forall f e s, P e -> (forall x, s = Some x -> P x) -> P (EList f e s).
  Hypothesis Hcond : forall p e, P e -> P (ECond p e).
  Hypothesis Hprec : forall s e, P e -> P (EPrec s e).

  Fixpoint expr_ind2 (e : expr) : P e :=
    let fix all (l : list expr) : Forall P l :=
      match l with [] => Forall_nil P | x :: r => Forall_cons x (expr_ind2 x) (all r) end in
    match e with
    | EEmpty => Hempty
    | EOpt s => Hopt s (expr_ind2 s)
    | EChoice l => Hchoice l (all l)
    | ESeq l => Hseq l (all l)
    | ERef s a => Href s a
    | EAssign n s => Hassign n s (expr_ind2 s)
    | EAppend n s => Happend n s (expr_ind2 s)
    | EArrow n f s => Harrow n f s (expr_ind2 s)
    | ESet i => Hset i
    | EMarker n => Hmarker n
    | ECmd n => Hcmd n
    | ELookahead l => Hla l (all l)
    | ELaNot s => Hlanot s (expr_ind2 s)
    | EList f el sep =>
        Hlist f el sep (expr_ind2 el)
          (match sep as o return (forall x, o = Some x -> P x) with
           | Some y => fun x H => match H in (_ = o') return (match o' with Some z => P z | None => True end) with
                                  | eq_refl => expr_ind2 y end
           | None => fun x H => match H in (_ = o') return (match o' with Some z => P z | None => True end) with
                                | eq_refl => I end
           end)
    | ECond p s => Hcond p s (expr_ind2 s)
    | EPrec sym s => Hprec sym s (expr_ind2 s)
    end.
End ExprInd.
Lemma forallb_Forall {A} (f : A -> bool) l : forallb f l = true <-> Forall (fun x => f x = true) l.
Proof. rewrite forallb_forall, Forall_forall. tauto. Qed.

Lemma map_snd_combine {A B} (a : list A) (b : list B) : length a = length b -> map snd (List.combine a b) = b.
Proof. revert b. induction a as [|x a IH]; intros [|y b] H; cbn in *; try discriminate; auto. f_equal. apply IH. lia. Qed.

Lemma in_combine_seq {A} (l : list A) d k v : In (k, v) (List.combine (seq 0 (length l)) l) <-> (k < length l)%nat /\ v = nth k l d.
Proof.
  split.
  - intro Hin. apply (In_nth _ _ (O, d)) in Hin as (j & Hj & He). rewrite combine_length, seq_length in Hj.
    rewrite combine_nth, seq_nth in He by (rewrite ?seq_length; lia). injection He as <- <-. split; [lia | reflexivity].
  - intros [Hk ->]. assert (H : nth k (List.combine (seq 0 (length l)) l) (O, d) = (k, nth k l d))
      by (rewrite combine_nth, seq_nth by (rewrite ?seq_length; lia); reflexivity).
    rewrite <- H. apply nth_In. rewrite combine_length, seq_length. lia.
Qed.
Lemma lang_any_map {A} (f : A -> lang) (xs : list A) w :
  lang_any (map f xs) w <-> exists x, In x xs /\ f x w.
Proof.
  induction xs as [|x xs IH]; cbn [map lang_any In].
  - split; [tauto | intros (x & [] & _)].
  - rewrite IH. split.
    + intros [H | (y & Hy & H)]; [exists x | exists y]; auto.
    + intros (y & [<- | Hy] & H); [auto | right; exists y; auto].
Qed.

Lemma lang_any_app a b w : lang_any (a ++ b) w <-> lang_any a w \/ lang_any b w.
Proof. induction a as [|x a IH]; cbn; [tauto | rewrite IH; tauto]. Qed.

Lemma lang_cat_app a b w :
  lang_cat (a ++ b) w <-> exists w1 w2, w = w1 ++ w2 /\ lang_cat a w1 /\ lang_cat b w2.
Proof.
  revert w. induction a as [|x a IH]; intro w; cbn.
  - split.
    + intro H. exists [], w. auto.
    + intros (w1 & w2 & -> & -> & H). exact H.
  - split.
    + intros (w1 & w2 & -> & Hx & H). apply IH in H as (u & v & -> & Ha & Hb).
      exists (w1 ++ u), v. rewrite app_assoc. repeat split; auto. exists w1, u. auto.
    + intros (w1 & w2 & -> & (u & v & -> & Hx & Ha) & Hb).
      exists u, (v ++ w2). rewrite app_assoc. repeat split; auto. apply IH. exists v, w2. auto.
Qed.

Lemma lang_cat_one (l : lang) w : lang_cat [l] w <-> l w.
Proof.
  cbn. split.
  - intros (w1 & w2 & -> & H & ->). now rewrite app_nil_r.
  - intro H. exists w, []. now rewrite app_nil_r.
Qed.

Lemma lang_cat2 (a b : lang) w : lang_cat [a; b] w <-> exists w1 w2, w = w1 ++ w2 /\ a w1 /\ b w2.
Proof.
  cbn. split.
  - intros (w1 & w2 & -> & Ha & (u & v & -> & Hb & ->)). exists w1, u. now rewrite app_nil_r.
  - intros (w1 & w2 & -> & Ha & Hb). exists w1, w2. repeat split; auto. exists w2, []. now rewrite app_nil_r.
Qed.

Lemma lang_cat_eps_drop (l : lang) (ls : list lang) w : (forall u, l u <-> u = []) -> (lang_cat (l :: ls) w <-> lang_cat ls w).
Proof.
  intro Hl. cbn [lang_cat]. split.
  - intros (w1 & w2 & -> & H1 & H2). apply Hl in H1. subst. exact H2.
  - intro H. exists [], w. repeat split; auto. now apply Hl.
Qed.

Lemma lang_cat_cons_ext (l l' : lang) ls ls' :
  (forall u, l u <-> l' u) -> (forall u, lang_cat ls u <-> lang_cat ls' u) -> forall w, lang_cat (l :: ls) w <-> lang_cat (l' :: ls') w.
Proof.
  intros H1 H2 w. cbn [lang_cat]. split; intros (w1 & w2 & -> & Ha & Hb); exists w1, w2; repeat split; auto;
    try (now apply H1); try (now apply H2).
Qed.

(* [den (EList fl el sep)] is [list_lang fl (den el) (opt_lang den sep)] by computation *)
Definition opt_lang {A} (f : A -> lang) (o : option A) : lang := match o with None => lang_eps | Some s => f s end.
Definition list_lang (fl : Z) (E S : lang) : lang := fun w => (Z.odd fl = false /\ w = []) \/ plus_sep E S w.

Lemma lang_any_mono (a b : list lang) : Forall2 (fun x y : lang => forall w, x w -> y w) a b -> forall w, lang_any a w -> lang_any b w.
Proof. induction 1; intro w; cbn; [tauto|]. intros [Hx|Hx]; [left; auto | right; auto]. Qed.

Lemma lang_cat_mono (a b : list lang) : Forall2 (fun x y : lang => forall w, x w -> y w) a b -> forall w, lang_cat a w -> lang_cat b w.
Proof. induction 1; intro w; cbn; [tauto|]. intros (w1 & w2 & -> & H1 & H2). exists w1, w2. auto. Qed.

Lemma plus_sep_mono (E E' S S' : lang) : (forall w, E w -> E' w) -> (forall w, S w -> S' w) -> forall w, plus_sep E S w -> plus_sep E' S' w.
Proof. intros HE HS w. induction 1; [apply ps_one; auto | apply ps_more; auto]. Qed.

Lemma opt_lang_mono {A} (f g : A -> lang) o : (forall x, o = Some x -> forall w, f x w -> g x w) -> forall w, opt_lang f o w -> opt_lang g o w.
Proof. intro H. destruct o; cbn; auto. Qed.

Lemma list_lang_mono fl (E E' S S' : lang) : (forall w, E w -> E' w) -> (forall w, S w -> S' w) ->
  forall w, list_lang fl E S w -> list_lang fl E' S' w.
Proof. intros HE HS w [H|H]; [now left | right; revert H; now apply plus_sep_mono]. Qed.

(* a list made non-empty, inside an optional, is the list again *)
Lemma list_lang_opt fl fl' (E S : lang) w : Z.odd fl = false -> Z.odd fl' = true ->
  ((w = [] \/ list_lang fl' E S w) \/ False <-> list_lang fl E S w).
Proof. unfold list_lang. intros -> ->. intuition discriminate. Qed.

Lemma list_lang_odd fl fl' (E S : lang) w : Z.odd fl = true -> Z.odd fl' = true -> (list_lang fl' E S w \/ False <-> list_lang fl E S w).
Proof. unfold list_lang. intros -> ->. intuition discriminate. Qed.

Lemma lang_any_ext (a b : list lang) : Forall2 (fun x y => forall w, x w <-> y w) a b -> forall w, lang_any a w <-> lang_any b w.
Proof. induction 1; intro w; cbn; [tauto|]. rewrite H, IHForall2. tauto. Qed.

Lemma lang_cat_ext (a b : list lang) : Forall2 (fun x y => forall w, x w <-> y w) a b -> forall w, lang_cat a w <-> lang_cat b w.
Proof.
  induction 1; intro w; cbn; [tauto|]. split; intros (w1 & w2 & -> & H1 & H2); exists w1, w2.
  - rewrite <- H, <- IHForall2. auto.
  - rewrite H, IHForall2. auto.
Qed.

Lemma opt_lang_ext {A} (f g : A -> lang) o : (forall x, o = Some x -> forall w, f x w <-> g x w) -> forall w, opt_lang f o w <-> opt_lang g o w.
Proof. intro H. destruct o; cbn; [now apply H | tauto]. Qed.

Lemma list_lang_ext fl (E E' S S' : lang) : (forall w, E w <-> E' w) -> (forall w, S w <-> S' w) ->
  forall w, list_lang fl E S w <-> list_lang fl E' S' w.
Proof. intros HE HS w. split; apply list_lang_mono; intro u; try apply HE; apply HS. Qed.

Lemma Forall2_map_same {A B} (f g : A -> B) (R : B -> B -> Prop) l : Forall (fun x => R (f x) (g x)) l -> Forall2 R (map f l) (map g l).
Proof. induction 1; cbn; constructor; auto. Qed.
Lemma is_empty_e_true e : is_empty_e e = true -> e = EEmpty.
Proof. destruct e; try discriminate; reflexivity. Qed.

Lemma drop_later_in x l : forall seen, In x (drop_later_empties l seen) -> In x l.
Proof.
  induction l as [|y l IH]; intros seen H; cbn [drop_later_empties] in H; [destruct H|].
  destruct (is_empty_e y); [destruct seen|]; try destruct H as [->|H]; cbn [In]; eauto.
Qed.

Lemma drop_later_keeps x l : forall seen, (seen = true -> is_empty_e x = false) -> In x l -> In x (drop_later_empties l seen).
Proof.
  induction l as [|y l IH]; intros seen Hs Hin; [destruct Hin|]. destruct Hin as [->|Hin]; cbn [drop_later_empties].
  - destruct (is_empty_e x) eqn:Ex; [destruct seen; [discriminate (Hs eq_refl)|]|]; now left.
  - destruct (is_empty_e y) eqn:Ey; [destruct seen|]; [apply IH; auto | | right; apply IH; auto].
    destruct (is_empty_e x) eqn:Ex; [left; now rewrite (is_empty_e_true x), (is_empty_e_true y) | right; apply IH; auto].
Qed.

Lemma collapse_empty_in x l : In x (collapse_empty l) <-> In x l.
Proof.
  unfold collapse_empty. destruct (Nat.leb _ 1); [reflexivity|].
  split; [apply drop_later_in | apply drop_later_keeps; discriminate].
Qed.
Section Sem.
  Variable T : Z.
  Variable rho : Z -> lang.
  Variable setden : Z -> Z -> Prop.
  Notation den := (den T rho setden).

  Lemma den_ref_nt s a w : T <= s -> (den (ERef s a) w <-> rho s w).
  Proof. intro H. cbn [ExtLang.den]. destruct (Z.ltb_spec s T); [lia | tauto]. Qed.

  Lemma den_ref_t s a w : s < T -> (den (ERef s a) w <-> w = [s]).
  Proof. intro H. cbn [ExtLang.den]. destruct (Z.ltb_spec s T); [tauto | lia]. Qed.

  Lemma den_choice2 a b w : den (EChoice [a; b]) w <-> den a w \/ den b w.
  Proof. cbn [ExtLang.den map lang_any]. tauto. Qed.

  Lemma den_seq_parts e w : lang_cat (map den (seq_parts e)) w <-> den e w.
  Proof.
    destruct e; cbn [seq_parts]; try (cbn [map]; now rewrite lang_cat_one).
    - cbn. reflexivity.
    - reflexivity.
  Qed.

  Lemma den_concat_list l w : den (concat_list l) w <-> lang_cat (map den l) w.
  Proof.
    unfold concat_list.
    assert (Hmk : forall p, den (mk_seq p) w <-> lang_cat (map den p) w).
    { intros [|x [|y r]]; cbn [mk_seq map]; [reflexivity | now rewrite lang_cat_one | reflexivity]. }
    rewrite Hmk. clear Hmk. revert w. induction l as [|x l IH]; intro w; cbn [flat_map map]; [reflexivity|].
    rewrite map_app, lang_cat_app. cbn [lang_cat].
    split; intros (w1 & w2 & -> & H1 & H2); exists w1, w2; [rewrite den_seq_parts in H1; rewrite IH in H2 | rewrite den_seq_parts, IH]; auto.
  Qed.

  Lemma den_concat2 a b w : den (concat2 a b) w <-> exists w1 w2, w = w1 ++ w2 /\ den a w1 /\ den b w2.
  Proof. unfold concat2. rewrite den_concat_list. apply lang_cat2. Qed.

  (* multiConcat = product of the two families of languages *)
  Lemma den_multi_concat a b w :
    lang_any (map den (multi_concat a b)) w <->
    exists w1 w2, w = w1 ++ w2 /\ lang_any (map den a) w1 /\ lang_any (map den b) w2.
  Proof.
    unfold multi_concat. rewrite lang_any_map. split.
    - intros (x & Hin & H). apply in_flat_map in Hin as (p & Hp & Hq).
      apply in_map_iff in Hq as (q & <- & Hq). apply den_concat2 in H as (w1 & w2 & -> & H1 & H2).
      exists w1, w2. rewrite !lang_any_map. eauto 8.
    - intros (w1 & w2 & -> & H1 & H2). rewrite lang_any_map in H1, H2.
      destruct H1 as (p & Hp & H1). destruct H2 as (q & Hq & H2).
      exists (concat2 p q). split.
      + apply in_flat_map. exists p. split; auto. apply in_map. auto.
      + apply den_concat2. eauto.
  Qed.

  Lemma den_collapse_empty l w : lang_any (map den (collapse_empty l)) w <-> lang_any (map den l) w.
  Proof. rewrite !lang_any_map. split; intros (x & Hx & H); exists x; (split; [now apply collapse_empty_in | exact H]). Qed.

  Lemma lang_any_map_wrap (f : expr -> expr) alts :
    (forall v w, den (f v) w <-> den v w) -> forall w, lang_any (map den (map f alts)) w <-> lang_any (map den alts) w.
  Proof. intros Hf w. rewrite map_map. apply lang_any_ext, Forall2_map_same, Forall_forall. intros v _. apply Hf. Qed.

  (* Expr.Equal implies equal denotations *)
  Lemma expr_eqb_den : forall a b, expr_eqb a b = true -> forall w, den a w <-> den b w.
  Proof.
    (* expr_eqb compares lists by a local fix, restated in Hall; for different constructors Hb is false = true by computation *)
    assert (Hall : forall l, Forall (fun a => forall b, expr_eqb a b = true -> forall w, den a w <-> den b w) l ->
              forall l', (fix go (xs ys : list expr) : bool :=
                            match xs, ys with [], [] => true | x :: xs', y :: ys' => expr_eqb x y && go xs' ys' | _, _ => false end) l l' = true ->
              Forall2 (fun x y : lang => forall w, x w <-> y w) (map den l) (map den l')).
    { induction 1 as [|x l Hx _ IH]; intros [|y ys] Hb; try discriminate; cbn [map]; constructor;
        apply andb_true_iff in Hb as [H1 H2]; auto. }
    induction a using expr_ind2; intros b Hb; destruct b; try exact (False_ind _ (diff_false_true Hb)); cbn [expr_eqb] in Hb;
      repeat (apply andb_true_iff in Hb as [Hb ?]); cbn [ExtLang.den]; try reflexivity; try (now apply IHa).
    - intro w. rewrite (IHa _ Hb). reflexivity.
    - now apply lang_any_ext, Hall.
    - now apply lang_cat_ext, Hall.
    - apply Z.eqb_eq in H. now subst.
    - apply Z.eqb_eq in Hb. now subst.
    - apply Z.eqb_eq in Hb. subst flags.
      apply (list_lang_ext f (den a) (den b) (opt_lang den s) (opt_lang den sep)); [now apply IHa|].
      destruct s as [x|], sep as [y|]; try discriminate; [now apply (H x eq_refl) | reflexivity].
  Qed.
End Sem.

Section DenMono.
  Variable T : Z.
  Variable setden : Z -> Z -> Prop.

  Theorem den_mono (rho rho' : Z -> lang) : (forall Y w, rho Y w -> rho' Y w) ->
    forall e w, den T rho setden e w -> den T rho' setden e w.
  Proof.
    intros Hr. induction e using expr_ind2; intro w; cbn [den]; auto.
    - intros [?|?]; auto.
    - apply lang_any_mono, Forall2_map_same, H.
    - apply lang_cat_mono, Forall2_map_same, H.
    - destruct (s <? T); auto.
    - apply (list_lang_mono f); [exact IHe | now apply opt_lang_mono].
  Qed.

  Theorem den_local (B : Z) (rho rho' : Z -> lang) : (forall Y, Y < B -> forall w, rho Y w <-> rho' Y w) ->
    forall e, bounded B e = true -> forall w, den T rho setden e w <-> den T rho' setden e w.
  Proof.
    intros Hr. induction e using expr_ind2; intros Hb w; cbn [den]; cbn [bounded] in Hb; auto; try tauto.
    - rewrite (IHe Hb w). tauto.
    - apply lang_any_ext, Forall2_map_same. rewrite forallb_forall in Hb. rewrite Forall_forall in *. auto.
    - apply lang_cat_ext, Forall2_map_same. rewrite forallb_forall in Hb. rewrite Forall_forall in *. auto.
    - destruct (s <? T); [tauto|]. apply Hr. now apply Z.ltb_lt.
    - apply andb_true_iff in Hb as [Hb1 Hb2]. apply (list_lang_ext f); [now apply IHe|].
      apply opt_lang_ext. intros x ->. now apply (H x eq_refl).
  Qed.
End DenMono.
Lemma bounded_mono B B' : B <= B' -> forall e, bounded B e = true -> bounded B' e = true.
Proof.
  intro HB. induction e using expr_ind2; cbn [bounded]; intro Hb; auto.
  - rewrite forallb_forall in *. rewrite Forall_forall in H. intros x Hx. apply H; auto.
  - rewrite forallb_forall in *. rewrite Forall_forall in H. intros x Hx. apply H; auto.
  - apply Z.ltb_lt in Hb. apply Z.ltb_lt. lia.
  - apply andb_true_iff in Hb as [H1 H2]. rewrite (IHe H1). destruct s as [x|]; cbn; auto.
Qed.

Notation bnd B := (fun a : expr => bounded B a = true).

Lemma Forall_bounded_mono B B' l : B <= B' -> Forall (bnd B) l -> Forall (bnd B') l.
Proof. intros HB H. eapply Forall_impl; [|exact H]. intros a Ha. eapply bounded_mono; eauto. Qed.
Section TableState.
  Context {S A : Type} (tbl : S -> list A) (fatal : S -> bool).

  (* st' extends st: entries satisfying V were appended, the flag was not lowered *)
  Definition ext (V : A -> Prop) (st st' : S) : Prop :=
    (exists more, tbl st' = tbl st ++ more /\ Forall V more) /\ (fatal st = true -> fatal st' = true).

  Lemma ext_refl V st : ext V st st.
  Proof. split; [exists []; now rewrite app_nil_r | auto]. Qed.

  Lemma ext_trans V a b c : ext V a b -> ext V b c -> ext V a c.
  Proof.
    intros [(m1 & H1 & V1) F1] [(m2 & H2 & V2) F2]. split; [|auto].
    exists (m1 ++ m2). rewrite H2, H1, app_assoc. split; [reflexivity | now apply Forall_app].
  Qed.

  Lemma ext_nth V st st' k a : ext V st st' -> nth_error (tbl st) k = Some a -> nth_error (tbl st') k = Some a.
  Proof. intros [(more & -> & _) _] Hk. rewrite nth_error_app1; [exact Hk | apply nth_error_Some; congruence]. Qed.

  Lemma ext_length V st st' : ext V st st' -> (length (tbl st) <= length (tbl st'))%nat.
  Proof. intros [(more & -> & _) _]. rewrite app_length. lia. Qed.

  (* every entry is as Q says at its position and the flag is down; inherited backwards along ext *)
  Definition ok (Q : nat -> A -> Prop) (st : S) : Prop :=
    (forall k a, nth_error (tbl st) k = Some a -> Q k a) /\ fatal st = false.

  Lemma ok_anti V Q st st' : ext V st st' -> ok Q st' -> ok Q st.
  Proof.
    intros He [Hq Hf]. split.
    - intros k a Hk. eapply Hq, ext_nth; eauto.
    - apply not_true_is_false. intro E. rewrite (proj2 He E) in Hf. discriminate.
  Qed.
End TableState.
(* extract is only called on such values: a list with a separator has at least one element *)
Definition extractable (v : expr) : Prop :=
  match v with EList fl _ (Some _) => Z.odd fl = true | _ => True end.

Notation grows := (ext x_extras x_fatal (fun nv : bytes * expr => extractable (snd nv))).

Lemma find_extra_nth name l : forall k0 k v, find_extra name l k0 = Some (k, v) ->
  exists n, (k0 <= k)%nat /\ nth_error l (k - k0) = Some (n, v).
Proof.
  induction l as [|[n v0] l IH]; intros k0 k v H; cbn [find_extra] in H; [discriminate|].
  destruct (bytes_eqb n name).
  - injection H as <- <-. exists n. rewrite Nat.sub_diag. auto.
  - apply IH in H as (n' & Hle & Hn). exists n'. split; [lia|].
    replace (k - k0)%nat with (S (k - S k0)) by lia. exact Hn.
Qed.

(* extractNonterm returns a reference to a table entry holding the expression or an Equal one: an old entry, or the
   only new one *)
Lemma extract_spec c st e r st' : extract c st e = (r, st') ->
  exists k nm v, r = ERef (cT c + Z.of_nat (n_orig c + k)) [] /\ nth_error (x_extras st') k = Some (nm, v) /\
    (v = e \/ expr_eqb e v = true) /\
    (st' = st \/
     st' = mkX (x_extras st ++ [(nm, e)]) (x_perm st ++ [(c_curr c + S (x_extra st))%nat]) (S (x_extra st))
               (x_start st) (x_base st) (x_fatal st)).
Proof.
  unfold extract. generalize (prov_name (c_terms c) (nt_name_at c st) (c_sets c) e). intro name.
  destruct (find_extra name (x_extras st) 0) as [[k v]|] eqn:Ef; [destruct (expr_eqb e v) eqn:Eq|]; intro H; injection H as <- <-.
  2, 3: eexists (length (x_extras st)), _, e; cbn [x_extras]; rewrite nth_error_app2, Nat.sub_diag by lia; repeat split; auto.
  apply find_extra_nth in Ef as (n & _ & Hn). rewrite Nat.sub_0_r in Hn. exists k, n, v. auto.
Qed.

Lemma extract_grows c st e r st' : extractable e -> extract c st e = (r, st') -> grows st st'.
Proof.
  intros He H. destruct (extract_spec _ _ _ _ _ H) as (k & nm & v & _ & _ & _ & [-> | ->]); [apply ext_refl|].
  split; [|auto]. exists [(nm, e)]. split; [reflexivity | repeat constructor; exact He].
Qed.

Lemma extract_is_ref c st e r st' : extract c st e = (r, st') -> exists s, r = ERef s [].
Proof. intro H. destruct (extract_spec _ _ _ _ _ H) as (k & nm & v & -> & _). eauto. Qed.

Lemma set_fatal_grows st : grows st (set_fatal st).
Proof. split; [exists []; cbn; now rewrite app_nil_r | auto]. Qed.
Definition expand_seq (c : xctx) : list expr -> list expr -> xst -> list expr * xst :=
  fix go subs acc st :=
    match subs with
    | [] => (acc, st)
    | s :: rest => let '(r, st) := expand_expr c st s in go rest (multi_concat acc r) st
    end.

Definition expand_choice (c : xctx) : list expr -> xst -> list expr * xst :=
  fix go subs st :=
    match subs with
    | [] => ([], st)
    | s :: rest => let '(r, st) := expand_expr c st s in let '(r2, st) := go rest st in (r ++ r2, st)
    end.

Definition one_or_choice (el : list expr) : expr := match el with [x] => x | _ => EChoice el end.

(* the end of the List case: the list is extracted under fl', inside an extracted optional if fl' made it non-empty *)
Definition finish_list (c : xctx) (st : xst) (fl : Z) (el1 : expr) (sep' : option expr) (fl' : Z) : list expr * xst :=
  let '(ret, st) := extract c st (EList fl' el1 sep') in
  if negb (Z.odd fl) && Z.odd fl' then let '(ret, st) := extract c st (EOpt ret) in ([ret], st) else ([ret], st).

Lemma expand_list_eq c st fl elem sep : expand_expr c st (EList fl elem sep) =
  let '(el, st) := expand_expr c st elem in
  match sep with
  | None => finish_list c st fl (one_or_choice el) None fl
  | Some s => let '(sp, st) := expand_expr c st s in
              finish_list c (match sp with [_] => st | _ => set_fatal st end) fl (one_or_choice el) (Some (hd EEmpty sp)) (Z.lor fl 1)
  end.
Proof.
  cbn [expand_expr]. destruct (expand_expr c st elem) as [el st1].
  destruct sep as [s|]; [destruct (expand_expr c st1 s)|]; reflexivity.
Qed.

Lemma odd_lor1 f : Z.odd (Z.lor f 1) = true.
Proof. rewrite <- Z.bit0_odd, Z.lor_spec. apply orb_true_r. Qed.
Lemma finish_list_grows c st fl el1 sep' fl' alts st' :
  extractable (EList fl' el1 sep') -> finish_list c st fl el1 sep' fl' = (alts, st') -> grows st st'.
Proof.
  unfold finish_list. intros He H. destruct (extract c st _) as [ret st4] eqn:E3. apply (extract_grows _ _ _ _ _ He) in E3.
  destruct (negb _ && _); [destruct (extract c st4 (EOpt ret)) as [ret2 st5] eqn:E4; apply extract_grows in E4; [|exact I]|];
    injection H as <- <-; eauto using ext_trans.
Qed.

Theorem expand_expr_grows c : forall e st alts st', expand_expr c st e = (alts, st') -> grows st st'.
Proof.
  induction e using expr_ind2; intros st alts st' Hx; try rewrite expand_list_eq in Hx; cbn [expand_expr] in Hx;
    try (injection Hx as <- <-; apply ext_refl);
    try (destruct (expand_expr c st e) as [r st1] eqn:E1; injection Hx as <- <-; eauto);
    try (destruct (extract c st _) as [r st1] eqn:E1; injection Hx as <- <-; now apply extract_grows in E1).
  - change (expand_choice c l st = (alts, st')) in Hx. revert st alts Hx.
    induction H as [|x l Hx' _ IH]; intros st alts Hx; cbn [expand_choice] in Hx; [injection Hx as <- <-; apply ext_refl|].
    destruct (expand_expr c st x) as [r st1] eqn:E1. destruct (expand_choice c l st1) as [r2 st2] eqn:E2. injection Hx as <- <-.
    eauto using ext_trans.
  - change (expand_seq c l [EEmpty] st = (alts, st')) in Hx. revert st Hx. generalize [EEmpty].
    induction H as [|x l Hx' _ IH]; intros acc st Hx; cbn [expand_seq] in Hx; [injection Hx as <- <-; apply ext_refl|].
    destruct (expand_expr c st x) as [r st1] eqn:E1. eauto using ext_trans.
  - destruct (expand_expr c st e) as [el st1] eqn:E1. apply IHe in E1. destruct s as [sp|].
    + destruct (expand_expr c st1 sp) as [spl st2] eqn:E2. apply (H sp eq_refl) in E2.
      apply finish_list_grows in Hx; [|apply odd_lor1].
      assert (grows st2 (match spl with [_] => st2 | _ => set_fatal st2 end))
        by (destruct spl as [|? [|? ?]]; auto using ext_refl, set_fatal_grows).
      eauto using ext_trans.
    + apply finish_list_grows in Hx; [|exact I]. eauto using ext_trans.
Qed.

Lemma expand_choice_grows c l st alts st' : expand_choice c l st = (alts, st') -> grows st st'.
Proof. exact (expand_expr_grows c (EChoice l) st alts st'). Qed.

Lemma expand_seq_grows c l : forall acc st alts st', expand_seq c l acc st = (alts, st') -> grows st st'.
Proof.
  induction l as [|x l IH]; intros acc st alts st' H; cbn [expand_seq] in H; [injection H as <- <-; apply ext_refl|].
  destruct (expand_expr c st x) as [r st1] eqn:E1. apply expand_expr_grows in E1. eauto using ext_trans.
Qed.
Section Main.
  Variable T : Z.
  Variable rho : Z -> lang.
  Variable setden : Z -> Z -> Prop.
  Notation den := (den T rho setden).

  (* rho gives every extracted nonterminal the language of its value and Fatal was not reached; n0 = number of
     original nonterminals *)
  Definition xok (n0 : nat) : xst -> Prop :=
    ok x_extras x_fatal (fun k nv => forall w, rho (T + Z.of_nat (n0 + k)) w <-> den (snd nv) w).

  Variable c : xctx.
  Hypothesis HT : T = cT c.
  Notation xok' := (xok (n_orig c)).

  Lemma extract_den st e r st' : extract c st e = (r, st') -> xok' st' -> forall w, den r w <-> den e w.
  Proof.
    intros H [Hq _] w. destruct (extract_spec _ _ _ _ _ H) as (k & nm & v & -> & Hk & Hv & _).
    rewrite <- HT, den_ref_nt, (Hq k _ Hk) by lia. cbn [snd].
    destruct Hv as [-> | Hv]; [reflexivity | symmetry; now apply expr_eqb_den].
  Qed.

  Lemma one_or_choice_den el w : den (one_or_choice el) w <-> lang_any (map den el) w.
  Proof. destruct el as [|x [|y r]]; cbn [one_or_choice ExtLang.den map lang_any]; tauto. Qed.

  (* the flags under which the list is extracted are its own, or were made non-empty *)
  Lemma finish_list_den st fl el1 sep' fl' alts st' :
    fl' = fl \/ Z.odd fl' = true -> finish_list c st fl el1 sep' fl' = (alts, st') -> xok' st' ->
    forall w, lang_any (map den alts) w <-> den (EList fl el1 sep') w.
  Proof.
    unfold finish_list. intros Hfl H Hok w. destruct (extract c st _) as [ret st4] eqn:E3.
    destruct (negb (Z.odd fl) && Z.odd fl') eqn:Ec.
    - destruct (extract c st4 (EOpt ret)) as [ret2 st5] eqn:E4. injection H as <- <-.
      cbn [map lang_any]. rewrite (extract_den _ _ _ _ E4 Hok). cbn [ExtLang.den].
      rewrite (extract_den _ _ _ _ E3 (ok_anti _ _ _ _ _ _ (extract_grows _ _ (EOpt ret) _ _ I E4) Hok)). cbn [ExtLang.den].
      apply andb_true_iff in Ec as [Ho Ho']. apply negb_true_iff in Ho. now apply list_lang_opt.
    - injection H as <- <-. cbn [map lang_any]. rewrite (extract_den _ _ _ _ E3 Hok).
      destruct Hfl as [-> | Ho']; [tauto|]. rewrite Ho', andb_true_r in Ec. apply negb_false_iff in Ec. now apply list_lang_odd.
  Qed.

  Lemma expand_choice_den l :
    Forall (fun e => forall st alts st', expand_expr c st e = (alts, st') -> xok' st' -> forall w, den e w <-> lang_any (map den alts) w) l ->
    forall st alts st', expand_choice c l st = (alts, st') -> xok' st' -> forall w, den (EChoice l) w <-> lang_any (map den alts) w.
  Proof.
    induction 1 as [|x l Hx _ IH]; intros st alts st' H Hok w; cbn [expand_choice] in H; [injection H as <- <-; reflexivity|].
    destruct (expand_expr c st x) as [r st1] eqn:E1. destruct (expand_choice c l st1) as [r2 st2] eqn:E2. injection H as <- <-.
    rewrite map_app, lang_any_app, <- (IH _ _ _ E2 Hok), <- (Hx _ _ _ E1 (ok_anti _ _ _ _ _ _ (expand_choice_grows _ _ _ _ _ E2) Hok)).
    reflexivity.
  Qed.

  Lemma expand_seq_den l :
    Forall (fun e => forall st alts st', expand_expr c st e = (alts, st') -> xok' st' -> forall w, den e w <-> lang_any (map den alts) w) l ->
    forall acc st alts st', expand_seq c l acc st = (alts, st') -> xok' st' ->
    forall w, lang_any (map den alts) w <-> exists w1 w2, w = w1 ++ w2 /\ lang_any (map den acc) w1 /\ den (ESeq l) w2.
  Proof.
    induction 1 as [|x l Hx _ IH]; intros acc st alts st' H Hok w; cbn [expand_seq] in H.
    - injection H as <- <-. cbn [ExtLang.den map lang_cat]. split.
      + intro Hw. exists w, []. now rewrite app_nil_r.
      + intros (w1 & w2 & -> & Hw & ->). now rewrite app_nil_r.
    - destruct (expand_expr c st x) as [r st1] eqn:E1.
      pose proof (Hx _ _ _ E1 (ok_anti _ _ _ _ _ _ (expand_seq_grows _ _ _ _ _ _ H) Hok)) as Hd.
      rewrite (IH _ _ _ _ H Hok w). cbn [ExtLang.den map lang_cat]. split.
      + intros (w1 & w2 & -> & Hm & Hr). apply den_multi_concat in Hm as (u & v & -> & Hu & Hv).
        exists u, (v ++ w2). rewrite app_assoc. repeat split; auto. exists v, w2. repeat split; auto. now apply Hd.
      + intros (w1 & w2 & -> & Hu & (v & w3 & -> & Hv & Hr)). exists (w1 ++ v), w3. rewrite app_assoc. repeat split; auto.
        apply den_multi_concat. exists w1, v. repeat split; auto. now apply Hd.
  Qed.

  Theorem expand_expr_den : forall e st alts st', expand_expr c st e = (alts, st') -> xok' st' ->
    forall w, den e w <-> lang_any (map den alts) w.
  Proof.
    induction e using expr_ind2; intros st alts st' Hx Hok w; try rewrite expand_list_eq in Hx; cbn [expand_expr] in Hx;
      try (injection Hx as <- <-; cbn [map lang_any]; tauto);
      try (destruct (expand_expr c st e) as [r st1] eqn:E1; injection Hx as <- <-;
           rewrite lang_any_map_wrap; [apply (IHe _ _ _ E1 Hok) | intros v u; destruct (is_empty_e v); reflexivity]);
      try (destruct (extract c st _) as [r st1] eqn:E1; injection Hx as <- <-;
           cbn [map lang_any]; rewrite (extract_den _ _ _ _ E1 Hok w); tauto).
    - destruct (expand_expr c st e) as [r st1] eqn:E1. injection Hx as <- <-.
      rewrite map_app, lang_any_app, <- (IHe _ _ _ E1 Hok w). cbn. unfold lang_eps. tauto.
    - exact (expand_choice_den l H _ _ _ Hx Hok w).
    - rewrite (expand_seq_den l H _ _ _ _ Hx Hok w). cbn [map lang_any]. split.
      + intro Hw. exists [], w. repeat split; auto. left. reflexivity.
      + intros (w1 & w2 & -> & [->|[]] & H2). exact H2.
    - destruct (expand_expr c st e) as [el st1] eqn:E1. destruct s as [sp|].
      + destruct (expand_expr c st1 sp) as [spl st2] eqn:E2.
        pose proof (finish_list_grows _ _ _ _ (Some _) _ _ _ (odd_lor1 f) Hx) as Hg3. pose proof (ok_anti _ _ _ _ _ _ Hg3 Hok) as Hok3.
        rewrite (finish_list_den _ _ _ _ _ _ _ (or_intror (odd_lor1 f)) Hx Hok).
        (* not Fatal: the separator has one alternative *)
        destruct spl as [|x [|y r]]; try (destruct Hok3 as [_ Hnf]; discriminate Hnf). cbn [hd].
        apply (list_lang_ext f (den e) (den (one_or_choice el)) (den sp) (den x)).
        * intro u. rewrite one_or_choice_den. apply (IHe _ _ _ E1). exact (ok_anti _ _ _ _ _ _ (expand_expr_grows _ _ _ _ _ E2) Hok3).
        * intro u. rewrite (H sp eq_refl _ _ _ E2 Hok3 u). cbn [map lang_any]. tauto.
      + rewrite (finish_list_den _ _ _ _ _ _ _ (or_introl eq_refl) Hx Hok).
        apply (list_lang_ext f (den e) (den (one_or_choice el)) lang_eps lang_eps); [|reflexivity].
        intro u. rewrite one_or_choice_den. apply (IHe _ _ _ E1). exact (ok_anti _ _ _ _ _ _ (finish_list_grows _ _ _ _ None _ _ _ I Hx) Hok).
  Qed.
End Main.
(* one more element and separator, on the side the recursion is on *)
Definition step_lang (rr : bool) (E S L : lang) : lang := fun u =>
  exists w1 s w2, u = w1 ++ s ++ w2 /\ S s /\ (if rr then E w1 /\ L w2 else L w1 /\ E w2).

Lemma step_lang_mono rr (E S L L' : lang) : (forall u, L u -> L' u) -> forall w, step_lang rr E S L w -> step_lang rr E S L' w.
Proof. intros HL w (w1 & s & w2 & -> & Hs & H). exists w1, s, w2. destruct rr; intuition. Qed.

Lemma step_lang_ext rr (E S L L' : lang) : (forall u, L u <-> L' u) -> forall w, step_lang rr E S L w <-> step_lang rr E S L' w.
Proof. intros HL w. split; apply step_lang_mono; intro u; apply HL. Qed.

Lemma plus_closed_left (E S L : lang) : (forall w, E w -> L w) -> (forall w1 s w2, L w1 -> S s -> E w2 -> L (w1 ++ s ++ w2)) ->
  forall w, plus_sep E S w -> L w.
Proof. intros H1 H2 w. induction 1; auto. Qed.

Lemma plus_closed_right (E S L : lang) : (forall w, E w -> L w) -> (forall w1 s w2, E w1 -> S s -> L w2 -> L (w1 ++ s ++ w2)) ->
  forall w, plus_sep E S w -> L w.
Proof.
  intros H1 H2 w Hp. revert L H1 H2. induction Hp as [w H | w1 s w2 _ IH Hs He]; intros L H1 H2; [auto|].
  apply (IH (fun v => L (v ++ s ++ w2))).
  - auto.
  - intros x s' y Hx Hs' Hy. rewrite <- !app_assoc. auto.
Qed.

Lemma plus_sep_cons (E S : lang) w1 s w2 : E w1 -> S s -> plus_sep E S w2 -> plus_sep E S (w1 ++ s ++ w2).
Proof.
  intros H1 Hs. induction 1 as [w H | u s' v Hu IH Hs' Hv].
  - apply ps_more; auto. now apply ps_one.
  - rewrite !app_assoc. rewrite <- (app_assoc w1), <- (app_assoc _ s'). apply ps_more; auto.
Qed.

Section ListRules.
  Variables (rr : bool) (fl : Z) (E S : lang).
  Hypothesis Hstar : Z.odd fl = false -> forall s, S s <-> s = [].
  Let base : lang := fun u => if Z.odd fl then E u else u = [].

  (* a language closed under the two rules contains the list *)
  Lemma list_rules_closed (L : lang) : (forall u, step_lang rr E S L u \/ base u -> L u) -> forall w, list_lang fl E S w -> L w.
  Proof.
    intros Hcl.
    assert (Hstep : forall w1 s w2, S s -> (if rr then E w1 /\ L w2 else L w1 /\ E w2) -> L (w1 ++ s ++ w2)).
    { intros w1 s w2 Hs H. apply Hcl. left. exists w1, s, w2. auto. }
    assert (HE : forall u, E u -> L u).
    { intros u Hu. unfold base in Hcl. destruct (Z.odd fl) eqn:Eo; [apply Hcl; now right|].
      assert (Hnil : L []) by (apply Hcl; now right). pose proof (proj2 (Hstar eq_refl []) eq_refl) as Hs.
      destruct rr; [rewrite <- (app_nil_r u); apply (Hstep u [] []) | apply (Hstep [] [] u)]; auto. }
    intros w [[Ho ->] | Hp].
    - apply Hcl. right. unfold base. now rewrite Ho.
    - revert w Hp. destruct rr; [apply plus_closed_right | apply plus_closed_left]; auto.
  Qed.

  (* and the list is closed under them, hence their least fixpoint *)
  Lemma list_rules_unfold w : step_lang rr E S (list_lang fl E S) w \/ base w <-> list_lang fl E S w.
  Proof.
    assert (Hin : forall u, step_lang rr E S (list_lang fl E S) u \/ base u -> list_lang fl E S u).
    { unfold base, list_lang. intros u [(w1 & s & w2 & -> & Hs & H) | H].
      - right. destruct rr.
        + destruct H as [H1 [[Ho ->] | H2]]; [|now apply plus_sep_cons].
          apply (Hstar Ho) in Hs. subst s. rewrite app_nil_r. now apply ps_one.
        + destruct H as [[[Ho ->] | H1] H2]; [|now apply ps_more].
          apply (Hstar Ho) in Hs. subst s. now apply ps_one.
      - destruct (Z.odd fl); [right; now apply ps_one | now left]. }
    split; [apply Hin|]. apply (list_rules_closed (fun u => step_lang rr E S (list_lang fl E S) u \/ base u)). intros u [H | H]; [left | now right].
    revert H. apply step_lang_mono. exact Hin.
  Qed.
End ListRules.

Section Top.
  Variable T : Z.
  Variable rho : Z -> lang.
  Variable setden : Z -> Z -> Prop.
  Notation den := (den T rho setden).

  Variable self : nat.
  Notation self_ref := (ERef (T + Z.of_nat self)%Z (@nil arg)).
  Notation L := (rho (T + Z.of_nat self)).

  Definition self_rec (rr : bool) (sep : option expr) : expr :=
    match sep with
    | None => ESeq [self_ref]
    | Some s => if rr then concat_list [s; ESeq [self_ref]] else concat_list [ESeq [self_ref]; s]
    end.

  Lemma den_rec rr sep u :
    den (self_rec rr sep) u <-> exists s v, u = (if rr then s ++ v else v ++ s) /\ opt_lang den sep s /\ L v.
  Proof.
    assert (Hself : forall v, den (ESeq [self_ref]) v <-> L v).
    { intro v. change (lang_cat [den self_ref] v <-> L v). rewrite lang_cat_one. apply den_ref_nt. lia. }
    destruct sep as [sp|]; cbn [opt_lang self_rec].
    - destruct rr; rewrite den_concat_list; cbn [map]; rewrite lang_cat2; split.
      + intros (s & v & -> & Hs & Hv). exists s, v. now rewrite <- Hself.
      + intros (s & v & -> & Hs & Hv). exists s, v. now rewrite Hself.
      + intros (v & s & -> & Hv & Hs). exists s, v. now rewrite <- Hself.
      + intros (s & v & -> & Hs & Hv). exists v, s. now rewrite Hself.
    - rewrite Hself. unfold lang_eps. split.
      + intro Hu. exists [], u. destruct rr; rewrite ?app_nil_r; auto.
      + intros (s & v & -> & -> & Hv). destruct rr; rewrite ?app_nil_r; auto.
  Qed.

  Lemma den_step (rr : bool) sep x u :
    den (if rr then concat_list [x; self_rec rr sep] else concat_list [self_rec rr sep; x]) u <->
    step_lang rr (den x) (opt_lang den sep) L u.
  Proof.
    unfold step_lang. destruct rr; rewrite den_concat_list; cbn [map]; rewrite lang_cat2; split.
    - intros (w1 & v & -> & Hx & Hr). apply den_rec in Hr as (s & w2 & -> & Hs & Hl). exists w1, s, w2. auto.
    - intros (w1 & s & w2 & -> & Hs & Hx & Hl). exists w1, (s ++ w2). repeat split; auto. apply den_rec. exists s, w2. auto.
    - intros (v & w2 & -> & Hr & Hx). apply den_rec in Hr as (s & w1 & -> & Hs & Hl). exists w1, s, w2. rewrite <- app_assoc. auto.
    - intros (w1 & s & w2 & -> & Hs & Hl & Hx). exists (w1 ++ s), w2. rewrite <- app_assoc. repeat split; auto.
      apply den_rec. exists s, w1. auto.
  Qed.

  (* the rules of a list nonterminal, as an operator on the language of the list itself *)
  Lemma den_expand_top_list fl el sep w :
    den (expand_top T self (EList fl el sep)) w <->
    step_lang (Z.testbit fl 1) (den el) (opt_lang den sep) L w \/ (if Z.odd fl then den el w else w = []).
  Proof.
    cbn [expand_top]. fold (self_rec (Z.testbit fl 1) sep). set (rr := Z.testbit fl 1).
    assert (Hgen : forall x base, (forall u, den base u <-> if Z.odd fl then den x u else u = []) ->
              den (EChoice [if rr then concat_list [x; self_rec rr sep] else concat_list [self_rec rr sep; x]; base]) w <->
              step_lang rr (den x) (opt_lang den sep) L w \/ (if Z.odd fl then den x w else w = [])).
    { intros x base Hbase. now rewrite den_choice2, den_step, Hbase. }
    assert (Hbase : forall x u, den (if Z.odd fl then x else EEmpty) u <-> if Z.odd fl then den x u else u = [])
      by (intros; destruct (Z.odd fl); reflexivity).
    (* for a reference the base rule is written with concat_list, which computes to the same *)
    destruct el; try exact (Hgen _ _ (Hbase _)). clear Hgen Hbase.
    rewrite <- den_step. set (rec := self_rec rr sep). cbn [ExtLang.den]. rewrite map_app, lang_any_app.
    assert (Hm : lang_any (map den (if rr then multi_concat es [rec] else multi_concat [rec] es)) w <->
                 den (if rr then concat_list [EChoice es; rec] else concat_list [rec; EChoice es]) w).
    { destruct rr; rewrite den_multi_concat; [change (concat_list [EChoice es; rec]) with (concat2 (EChoice es) rec)
                                              | change (concat_list [rec; EChoice es]) with (concat2 rec (EChoice es))];
        rewrite den_concat2; cbn [ExtLang.den map lang_any]; split; intros (a & b & -> & Ha & Hb); exists a, b; tauto. }
    rewrite Hm. destruct (Z.odd fl); cbn [ExtLang.den map lang_any]; unfold lang_eps; tauto.
  Qed.

  Theorem expand_top_good v :
    (forall fl el sep, v = EList fl el sep -> Z.odd fl = false -> sep = None) ->
    (forall w, L w <-> den v w) ->
    forall w, den (expand_top T self v) w <-> den v w.
  Proof.
    intros Hstar Hself w. destruct v; try reflexivity.
    - cbn. unfold lang_eps. tauto.
    - rewrite den_expand_top_list, (step_lang_ext _ _ _ _ _ Hself). apply list_rules_unfold.
      intros Ho s. now rewrite (Hstar _ _ _ eq_refl Ho).
  Qed.
End Top.
(* a production body: references, state markers, commands, possibly grouped by Arrow/Assign/Append *)
Fixpoint sugar_free (e : expr) : bool :=
  match e with
  | EEmpty | ERef _ _ | EMarker _ | ECmd _ => true
  | ESeq l => forallb sugar_free l
  | EArrow _ _ s | EAssign _ s | EAppend _ s => sugar_free s
  | _ => false
  end.

(* what convertPart can produce below a rule: no conditional, no nested %prec, LookaheadNot only inside Lookahead *)
Fixpoint plain (e : expr) : bool :=
  match e with
  | EEmpty | ERef _ _ | EMarker _ | ECmd _ | ESet _ | ELookahead _ => true
  | EOpt s | EArrow _ _ s | EAssign _ s | EAppend _ s => plain s
  | EChoice l | ESeq l => forallb plain l
  | EList _ el sep => plain el && match sep with None => true | Some s => plain s end
  | ELaNot _ | ECond _ _ | EPrec _ _ => false
  end.

(* concat and multiConcat keep a property true of EEmpty and of a sequence whose parts have it *)
Section ConcatKeeps.
  Variable P : expr -> bool.
  Hypothesis P_empty : P EEmpty = true.
  Hypothesis P_seq : forall l, P (ESeq l) = forallb P l.

  Lemma concat2_keeps a b : P a = true -> P b = true -> P (concat2 a b) = true.
  Proof.
    assert (Hparts : forall e, P e = true -> forallb P (seq_parts e) = true).
    { intros e H. destruct e; cbn [seq_parts forallb]; rewrite ?H; auto. now rewrite <- P_seq. }
    intros Ha Hb. unfold concat2, concat_list. cbn [flat_map]. rewrite app_nil_r.
    assert (Hall : forallb P (seq_parts a ++ seq_parts b) = true) by (rewrite forallb_app, !Hparts; auto).
    destruct (seq_parts a ++ seq_parts b) as [|x [|y r]]; cbn [mk_seq]; [exact P_empty | | now rewrite P_seq].
    cbn in Hall. now rewrite andb_true_r in Hall.
  Qed.

  Lemma multi_concat_keeps a b :
    Forall (fun x => P x = true) a -> Forall (fun x => P x = true) b -> Forall (fun x => P x = true) (multi_concat a b).
  Proof.
    intros Ha Hb. apply Forall_flat_map. eapply Forall_impl; [|exact Ha]. intros x Hx.
    apply Forall_map. eapply Forall_impl; [|exact Hb]. intros y Hy. now apply concat2_keeps.
  Qed.
End ConcatKeeps.

Notation sf := (fun a : expr => sugar_free a = true) (only parsing).

Lemma finish_list_shape c st fl el1 sep' fl' alts st' : finish_list c st fl el1 sep' fl' = (alts, st') -> Forall sf alts.
Proof.
  unfold finish_list. destruct (extract c st _) as [ret st4] eqn:E3.
  destruct (negb _ && _); [destruct (extract c st4 (EOpt ret)) as [ret2 st5] eqn:E4; apply extract_is_ref in E4 as [s ->]
                          | apply extract_is_ref in E3 as [s ->]];
    intro H; injection H as <- <-; repeat constructor.
Qed.

Theorem expand_expr_shape c : forall e st alts st', plain e = true -> expand_expr c st e = (alts, st') -> Forall sf alts.
Proof.
  induction e using expr_ind2; intros st alts st' Hp Hx; try rewrite expand_list_eq in Hx; cbn [expand_expr] in Hx;
    cbn [plain] in Hp; try discriminate; try (injection Hx as <- <-; repeat constructor);
    try (destruct (expand_expr c st e) as [r st1] eqn:E1; injection Hx as <- <-;
         apply Forall_map; eapply Forall_impl; [|exact (IHe _ _ _ Hp E1)]; intros v Hv; now destruct (is_empty_e v));
    try (destruct (extract c st _) as [r st1] eqn:E1; apply extract_is_ref in E1 as [s ->]; injection Hx as <- <-; repeat constructor).
  - destruct (expand_expr c st e) as [r st1] eqn:E1. injection Hx as <- <-.
    apply Forall_app. split; [eauto | repeat constructor].
  - change (expand_choice c l st = (alts, st')) in Hx. revert st alts Hx.
    induction H as [|x l Hx' _ IH]; intros st alts Hx; cbn [expand_choice] in Hx; [injection Hx as <- <-; constructor|].
    cbn [forallb] in Hp. apply andb_true_iff in Hp as [Hp1 Hp2].
    destruct (expand_expr c st x) as [r st1] eqn:E1. destruct (expand_choice c l st1) as [r2 st2] eqn:E2. injection Hx as <- <-.
    apply Forall_app. eauto.
  - change (expand_seq c l [EEmpty] st = (alts, st')) in Hx.
    assert (Hacc : Forall sf [EEmpty]) by repeat constructor. revert st Hx Hacc. generalize [EEmpty].
    induction H as [|x l Hx' _ IH]; intros acc st Hx Hacc; cbn [expand_seq] in Hx; [injection Hx as <- <-; exact Hacc|].
    cbn [forallb] in Hp. apply andb_true_iff in Hp as [Hp1 Hp2]. destruct (expand_expr c st x) as [r st1] eqn:E1.
    eapply IH; [exact Hp2 | exact Hx|]. apply (multi_concat_keeps sugar_free); eauto.
  - destruct (expand_expr c st e) as [el st1]. destruct s as [sp|]; [destruct (expand_expr c st1 sp)|]; exact (finish_list_shape _ _ _ _ _ _ _ _ Hx).
Qed.
Definition expand_rules (c : xctx) (rules out : list expr) (st : xst) : list expr * xst :=
  fold_left (fun '(out, st) rule => let '(r, st) := expand_rule c st rule in (out ++ r, st)) rules (out, st).

(* set and lookahead nonterminals are kept; every other value is a choice of rules or a single rule *)
Definition kept (v : expr) : bool := match v with ESet _ | ELookahead _ => true | _ => false end.
Definition alts_of (v : expr) : list expr := match v with EChoice rules => rules | _ => [v] end.

Lemma expand_nonterm_eq c st v : expand_nonterm c st v =
  if kept v then (v, st) else let '(out, st') := expand_rules c (alts_of v) [] st in (EChoice (collapse_empty out), st').
Proof.
  destruct v; try reflexivity; cbn [expand_nonterm kept alts_of expand_rules fold_left];
    destruct (expand_rule c st _); reflexivity.
Qed.

Lemma expand_rule_grows c rule st alts st' : expand_rule c st rule = (alts, st') -> grows st st'.
Proof.
  destruct rule; cbn [expand_rule]; try apply expand_expr_grows.
  destruct (expand_expr c st rule) as [r st1] eqn:E1. intro H. injection H as <- <-. now apply expand_expr_grows in E1.
Qed.

Lemma expand_rules_grows c rules : forall out st out' st', expand_rules c rules out st = (out', st') -> grows st st'.
Proof.
  induction rules as [|x rules IH]; intros out st out' st' H; cbn [expand_rules fold_left] in H; [injection H as <- <-; apply ext_refl|].
  destruct (expand_rule c st x) as [r st1] eqn:E1. apply expand_rule_grows in E1. apply IH in H. eauto using ext_trans.
Qed.

Theorem expand_nonterm_grows c v st v' st' : expand_nonterm c st v = (v', st') -> grows st st'.
Proof.
  rewrite expand_nonterm_eq. destruct (kept v); [intro H; injection H as <- <-; apply ext_refl|].
  destruct (expand_rules c (alts_of v) [] st) as [out st1] eqn:E. intro H. injection H as <- <-. now apply expand_rules_grows in E.
Qed.

Section Nonterm.
  Variable T : Z.
  Variable rho : Z -> lang.
  Variable setden : Z -> Z -> Prop.
  Notation den := (den T rho setden).
  Variable c : xctx.
  Hypothesis HT : T = cT c.
  Notation xok' := (xok T rho setden (n_orig c)).

  Lemma expand_rule_den rule st alts st' : expand_rule c st rule = (alts, st') -> xok' st' ->
    forall w, den rule w <-> lang_any (map den alts) w.
  Proof.
    destruct rule; cbn [expand_rule]; try apply (expand_expr_den T rho setden c HT).
    destruct (expand_expr c st rule) as [r st1] eqn:E1. intro H. injection H as <- <-. intros Hok w.
    rewrite lang_any_map_wrap; [apply (expand_expr_den T rho setden c HT _ _ _ _ E1 Hok) | reflexivity].
  Qed.

  Lemma expand_rules_den rules : forall out st out' st', expand_rules c rules out st = (out', st') -> xok' st' ->
    forall w, lang_any (map den out') w <-> lang_any (map den out) w \/ lang_any (map den rules) w.
  Proof.
    induction rules as [|x rules IH]; intros out st out' st' H Hok w; cbn [expand_rules fold_left] in H.
    - injection H as <- <-. cbn. tauto.
    - destruct (expand_rule c st x) as [r st1] eqn:E1.
      rewrite (IH _ _ _ _ H Hok w), map_app, lang_any_app. cbn [map lang_any].
      rewrite (expand_rule_den _ _ _ _ E1 (ok_anti _ _ _ _ _ _ (expand_rules_grows _ _ _ _ _ _ H) Hok) w). tauto.
  Qed.

  Lemma alts_of_den v w : kept v = false -> (den v w <-> lang_any (map den (alts_of v)) w).
  Proof. destruct v; try discriminate; cbn [alts_of ExtLang.den map lang_any]; tauto. Qed.

  Theorem expand_nonterm_den v st v' st' : expand_nonterm c st v = (v', st') -> xok' st' -> forall w, den v w <-> den v' w.
  Proof.
    rewrite expand_nonterm_eq. destruct (kept v) eqn:Ek; [intro H; injection H as <- <-; reflexivity|].
    destruct (expand_rules c (alts_of v) [] st) as [out st1] eqn:E. intro H. injection H as <- <-. intros Hok w.
    cbn [ExtLang.den]. rewrite den_collapse_empty, (expand_rules_den _ _ _ _ _ E Hok), (alts_of_den v w Ek). cbn. tauto.
  Qed.
End Nonterm.
