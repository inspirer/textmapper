(* Permutations as Expand (sortTail) and Instantiate (the final sort) build them: an insertion sort permutes its input;
   positions read off with [index_of] form the inverse permutation; [perm_ok] is "a permutation of 0..n-1" as a boolean. *)
From Coq Require Import List Arith Bool Lia Permutation.
From TM Require Import Lib.ListX Syn.Expr Syn.Expand.
Import ListNotations.
Section InsertSort.
  Context {A : Type} (lt : A -> A -> bool) (ins : A -> list A -> list A).
  Hypothesis ins_nil : forall x, ins x [] = [x].
  Hypothesis ins_cons : forall x y t, ins x (y :: t) = if lt x y then x :: y :: t else y :: ins x t.

  Lemma insert_perm x l : Permutation (ins x l) (x :: l).
  Proof.
    induction l as [|y l IH]; [now rewrite ins_nil|]. rewrite ins_cons.
    destruct (lt x y); [apply Permutation_refl|]. eapply Permutation_trans; [apply perm_skip; exact IH | apply perm_swap].
  Qed.

  Lemma insert_sort_perm l : Permutation (fold_left (fun acc x => ins x acc) l []) l.
  Proof.
    rewrite <- (app_nil_r l) at 2. generalize (@nil A).
    induction l as [|x l IH]; intro acc; cbn [fold_left app]; [apply Permutation_refl|].
    eapply Permutation_trans; [apply IH|]. eapply Permutation_trans; [apply Permutation_app_head, insert_perm|].
    apply Permutation_sym, Permutation_middle.
  Qed.
End InsertSort.

(* sort.Slice as modelled in sortTail, for every name function *)
Theorem sort_by_name_perm names l : Permutation (sort_by_name names l) l.
Proof. apply (insert_sort_perm (fun x y => bytes_ltb (names x) (names y))); reflexivity. Qed.

(* the local list of sortTail: extracted nonterminals lie behind the original ones *)
Lemma sort_tail_local_nodup start curr b size : (S curr <= b)%nat -> NoDup (seq start (S curr - start) ++ seq b size).
Proof.
  intro H. apply NoDup_app_iff. repeat split; try apply seq_NoDup. intros x H1 H2. apply in_seq in H1, H2. lia.
Qed.

Lemma index_of_ge x : forall l k, k <= index_of x l k.
Proof.
  induction l as [|y l IH]; intro k; cbn [index_of]; [lia|].
  destruct (Nat.eqb x y); [lia|]. specialize (IH (S k)). lia.
Qed.

Lemma index_of_lt x : forall l k, In x l -> index_of x l k < k + length l.
Proof.
  induction l as [|y l IH]; intros k H; [destruct H|]. cbn [index_of length].
  destruct (Nat.eqb x y) eqn:E; [lia|]. apply Nat.eqb_neq in E.
  destruct H as [H|H]; [congruence|]. specialize (IH (S k) H). lia.
Qed.

Lemma index_of_nth_in x : forall l k, In x l -> nth (index_of x l k - k) l O = x.
Proof.
  induction l as [|y l IH]; intros k H; [destruct H|]. cbn [index_of].
  destruct (Nat.eqb x y) eqn:E.
  - apply Nat.eqb_eq in E. subst. now rewrite Nat.sub_diag.
  - apply Nat.eqb_neq in E. destruct H as [H|H]; [congruence|].
    pose proof (index_of_ge x l (S k)) as Hge.
    replace (index_of x l (S k) - k) with (S (index_of x l (S k) - S k)) by lia. cbn [nth]. now apply IH.
Qed.

Lemma index_of_inj l x y k : In x l -> In y l -> index_of x l k = index_of y l k -> x = y.
Proof. intros Hx Hy E. rewrite <- (index_of_nth_in x l k Hx), <- (index_of_nth_in y l k Hy). now rewrite E. Qed.

Lemma index_of_nth l i : NoDup l -> i < length l -> index_of (nth i l O) l O = i.
Proof.
  intros Hnd Hi. pose proof (nth_In l O Hi) as Hin.
  apply (proj1 (NoDup_nth l O) Hnd); [pose proof (index_of_lt _ l O Hin); lia | exact Hi|].
  pose proof (index_of_nth_in _ l O Hin) as H. now rewrite Nat.sub_0_r in H.
Qed.
Lemma nodupb_iff l : nodupb l = true <-> NoDup l.
Proof.
  induction l as [|x l IH]; cbn [nodupb]; [split; [constructor | reflexivity]|].
  rewrite andb_true_iff, negb_true_iff, IH, <- not_true_iff_false, existsb_exists. split.
  - intros [Hx Hl]. constructor; [|exact Hl]. intro Hin. apply Hx. exists x. split; [exact Hin | apply Nat.eqb_refl].
  - intro H. inversion H as [|? ? Hx Hl]; subst. split; [|exact Hl]. intros (y & Hy & E). apply Nat.eqb_eq in E. now subst.
Qed.

Theorem perm_ok_iff perm n : perm_ok perm n = true <-> Permutation perm (seq 0 n).
Proof.
  unfold perm_ok. rewrite !andb_true_iff, Nat.eqb_eq, nodupb_iff, forallb_forall. split.
  - intros [[Hl Hr] Hnd]. apply NoDup_Permutation_bis; [exact Hnd | rewrite seq_length; lia|].
    intros p Hp. apply in_seq. apply Hr, Nat.ltb_lt in Hp. lia.
  - intro HP. split; [split|].
    + now rewrite (Permutation_length HP), seq_length.
    + intros p Hp. apply Nat.ltb_lt. apply (Permutation_in _ HP), in_seq in Hp. lia.
    + eapply Permutation_NoDup; [apply Permutation_sym; exact HP | apply seq_NoDup].
Qed.

Lemma NoDup_map_on {A B} (f : A -> B) l : NoDup l ->
  (forall x y, In x l -> In y l -> f x = f y -> x = y) -> NoDup (map f l).
Proof.
  induction 1 as [|a l Hn Hd IH]; intro Hinj; cbn [map]; constructor.
  - intro Hin. apply in_map_iff in Hin as [b [E Hb]]. apply Hn.
    rewrite (Hinj a b (or_introl eq_refl) (or_intror Hb) (eq_sym E)). exact Hb.
  - apply IH. intros x y Hx Hy. apply Hinj; now right.
Qed.

(* perm[k] = position of k in a list that is a permutation of 0..n-1 *)
Theorem inverse_perm_ok S n : Permutation S (seq 0 n) ->
  perm_ok (map (fun k => index_of k S 0) (seq 0 n)) n = true.
Proof.
  intro HP. unfold perm_ok.
  assert (Hin : forall k, In k (seq 0 n) -> In k S) by (intros k Hk; eapply Permutation_in; [apply Permutation_sym; exact HP|exact Hk]).
  assert (Hlen : length S = n) by (rewrite (Permutation_length HP); apply seq_length).
  rewrite map_length, seq_length, Nat.eqb_refl. cbn [andb]. apply andb_true_iff. split.
  - apply forallb_forall. intros p Hp. apply in_map_iff in Hp as [k [<- Hk]]. apply Nat.ltb_lt.
    pose proof (index_of_lt k S 0 (Hin k Hk)). lia.
  - apply nodupb_iff. apply NoDup_map_on; [apply seq_NoDup|].
    intros x y Hx Hy E. exact (index_of_inj S x y 0 (Hin x Hx) (Hin y Hy) E).
Qed.
