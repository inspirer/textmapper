(* infer_fits: for the fragment of Syn/InferFit.v the fields the inference model computes for an arrow body
   are accepted by the (proved sound) symbolic validator, hence fit every child sequence of the body. *)
From Coq Require Import List NArith ZArith Bool Lia.
From TM Require Import Syn.Types Syn.TypesSym Syn.Infer Syn.InferFit.
Import ListNotations.
Local Open Scope nat_scope.

Lemma str_eqb_eq : forall a b, str_eqb a b = true <-> a = b.
Proof.
  induction a as [|x a IH]; intros [|y b]; cbn [str_eqb]; split; intro H; try reflexivity; try discriminate.
  - apply andb_true_iff in H. destruct H as [H1 H2]. apply N.eqb_eq in H1. apply IH in H2. now subst.
  - injection H as -> ->. rewrite N.eqb_refl. apply IH. reflexivity.
Qed.

Lemma str_eqb_refl : forall a, str_eqb a a = true.
Proof. intro a. now apply str_eqb_eq. Qed.

Lemma str_eqb_sym : forall a b, str_eqb a b = str_eqb b a.
Proof.
  intros a b. destruct (str_eqb a b) eqn:E.
  - apply str_eqb_eq in E. subst. symmetry. apply str_eqb_refl.
  - destruct (str_eqb b a) eqn:E2; [|reflexivity]. apply str_eqb_eq in E2. subst. rewrite str_eqb_refl in E. discriminate.
Qed.

Lemma str_ltb_irrefl : forall a, str_ltb a a = false.
Proof. induction a as [|x a IH]; cbn [str_ltb]; [reflexivity|]. rewrite N.ltb_irrefl. exact IH. Qed.

Section ExprInd.
  Variable P : expr -> Prop.
  Hypothesis H_empty : P XEmpty.
  Hypothesis H_look : P XLook.
  Hypothesis H_ref : forall s, P (XRef s).
  Hypothesis H_arrow : forall n e, P e -> P (XArrow n e).
  Hypothesis H_seq : forall l, Forall P l -> P (XSeq l).
  Hypothesis H_choice : forall l, Forall P l -> P (XChoice l).
  Hypothesis H_assign : forall n e, P e -> P (XAssign n e).
  Hypothesis H_append : forall n e, P e -> P (XAppend n e).
  Hypothesis H_opt : forall e, P e -> P (XOpt e).
  Hypothesis H_list : forall e s o, P e -> P s -> P (XList e s o).
  Hypothesis H_prec : forall e, P e -> P (XPrec e).

  Fixpoint expr_ind2 (e : expr) : P e :=
    match e with
    | XEmpty => H_empty
    | XLook => H_look
    | XRef s => H_ref s
    | XArrow n e1 => H_arrow n e1 (expr_ind2 e1)
    | XSeq l => H_seq l ((fix go (l : list expr) : Forall P l :=
                            match l with [] => Forall_nil P | x :: r => Forall_cons x (expr_ind2 x) (go r) end) l)
    | XChoice l => H_choice l ((fix go (l : list expr) : Forall P l :=
                            match l with [] => Forall_nil P | x :: r => Forall_cons x (expr_ind2 x) (go r) end) l)
    | XAssign n e1 => H_assign n e1 (expr_ind2 e1)
    | XAppend n e1 => H_append n e1 (expr_ind2 e1)
    | XOpt e1 => H_opt e1 (expr_ind2 e1)
    | XList e1 s o => H_list e1 s o (expr_ind2 e1) (expr_ind2 s)
    | XPrec e1 => H_prec e1 (expr_ind2 e1)
    end.
End ExprInd.

Lemma phr_correct : forall np m e, simple m e = true -> forall st, expr_phrase_with np m e st = (phr m e, st).
Proof.
  intros np m e. induction e using expr_ind2; intro S; cbn [simple] in S; try discriminate; intro st;
    cbn [expr_phrase_with phr].
  - reflexivity.
  - reflexivity.
  - apply Nat.ltb_lt in S. destruct (m_nterms m <=? s) eqn:E; [apply Nat.leb_le in E; lia|].
    destruct (tok_name m s); reflexivity.
  - apply negb_true_iff in S. rewrite S. reflexivity.
  - assert (G : forall st,
      (fix go (l : list expr) (st : tj) {struct l} : list phrase * tj :=
         match l with
         | [] => ([], st)
         | x :: r => let '(p, st1) := expr_phrase_with np m x st in let '(ps, st2) := go r st1 in (p :: ps, st2)
         end) l st = (map (phr m) l, st)).
    { induction l as [|x r IHr]; intro st0; [reflexivity|]. cbn [forallb] in S. apply andb_true_iff in S. destruct S as [S1 S2].
      inversion H as [|? ? Hx Hr]; subst. rewrite (Hx S1 st0). rewrite (IHr Hr S2 st0). reflexivity. }
    rewrite G. reflexivity.
  - rewrite (IHe S st). reflexivity.
  - apply andb_true_iff in S. destruct S as [S1 S2]. rewrite (IHe1 S1 st). reflexivity.
  - apply IHe. exact S.
Qed.

(* Fields of the fragment: one type each, unnamed. *)
Definition ftype (f : pfield) : str := hd [] (pf_types f).
Definition wf_field (f : pfield) : Prop := pf_types f = [ftype f] /\ pf_ident f = 61%N :: ftype f /\ pf_name f = [].

Definition lookup (t : str) (fs : list pfield) : option (bool * bool) :=
  match find (fun f => str_eqb t (ftype f)) fs with
  | Some f => Some (pf_list f, pf_null f)
  | None => None
  end.

Fixpoint upd (f : pfield) (fs : list pfield) : list pfield :=
  match fs with
  | [] => [f]
  | g :: r => if str_eqb (pf_ident f) (pf_ident g) then set_list (merge_fields g [f]) :: r else g :: upd f r
  end.

Lemma find_ident_upd : forall f fs i,
  match find_ident (pf_ident f) fs i with
  | Some k => exists j, k = i + j /\ upd f fs = set_nth j (set_list (merge_fields (nth j fs dummy_field) [f])) fs
  | None => upd f fs = fs ++ [f]
  end.
Proof.
  intros f fs. induction fs as [|g r IH]; intro i; cbn [find_ident upd]; [reflexivity|].
  destruct (str_eqb (pf_ident f) (pf_ident g)) eqn:E.
  - exists 0. split; [lia | reflexivity].
  - specialize (IH (S i)). destruct (find_ident (pf_ident f) r (S i)) as [k|].
    + destruct IH as (j & -> & Hu). exists (S j). split; [lia|]. cbn [nth set_nth]. now rewrite Hu.
    + cbn [app]. now rewrite IH.
Qed.

Lemma concat_step_upd : forall ret f, ph_fields (concat_step ret f) = upd f (ph_fields ret).
Proof.
  intros ret f. unfold concat_step. pose proof (find_ident_upd f (ph_fields ret) 0) as H.
  destruct (find_ident (pf_ident f) (ph_fields ret) 0) as [k|].
  - destruct H as (j & -> & Hu). cbn [Nat.add ph_fields]. now rewrite Hu.
  - cbn [ph_fields]. now rewrite H.
Qed.

Lemma fold_concat_step_upd : forall qs ret,
  ph_fields (fold_left concat_step qs ret) = fold_left (fun acc f => upd f acc) qs (ph_fields ret).
Proof.
  induction qs as [|q qs IH]; intro ret; cbn [fold_left]; [reflexivity|]. rewrite IH, concat_step_upd. reflexivity.
Qed.

Lemma wf_merge : forall g f, wf_field g -> wf_field f -> ftype g = ftype f ->
  let mg := set_list (merge_fields g [f]) in
  wf_field mg /\ ftype mg = ftype g /\ pf_list mg = true /\ pf_null mg = pf_null g || pf_null f.
Proof.
  intros g f (Gt & Gi & Gn) (Ft & Fi & Fn) E. cbv zeta. unfold set_list, merge_fields. cbn [fold_left].
  cbn [pf_name pf_types pf_list pf_null pf_ident]. rewrite Gt, Ft, Gn, Fn, E. cbn [str_eqb app].
  assert (SD : sort_dedup [ftype f; ftype f] = [ftype f]).
  { unfold sort_dedup. cbn [fold_left str_insert]. rewrite str_ltb_irrefl, str_eqb_refl. reflexivity. }
  rewrite SD. unfold wf_field, ftype. cbn [pf_name pf_types pf_list pf_null pf_ident hd].
  repeat split; try reflexivity. rewrite Gi, E. reflexivity.
Qed.

Lemma ident_eqb_wf : forall f g, wf_field f -> wf_field g -> str_eqb (pf_ident f) (pf_ident g) = str_eqb (ftype f) (ftype g).
Proof. intros f g (_ & Fi & _) (_ & Gi & _). rewrite Fi, Gi. cbn [str_eqb]. rewrite N.eqb_refl. reflexivity. Qed.

Definition combine_flags (a b : option (bool * bool)) : option (bool * bool) :=
  match a, b with
  | Some (_, n1), Some (_, n2) => Some (true, n1 || n2)
  | Some x, None => Some x
  | None, y => y
  end.

Lemma lookup_cons : forall t q qs,
  lookup t (q :: qs) = if str_eqb t (ftype q) then Some (pf_list q, pf_null q) else lookup t qs.
Proof. intros. unfold lookup. cbn [find]. destruct (str_eqb t (ftype q)); reflexivity. Qed.

Lemma lookup_in_map : forall t fs, In t (map ftype fs) <-> lookup t fs <> None.
Proof.
  intros t fs. induction fs as [|g r IH]; [split; [intros [] | intro H; now apply H]|]. rewrite lookup_cons. cbn [map In].
  destruct (str_eqb t (ftype g)) eqn:E.
  - apply str_eqb_eq in E. split; [discriminate | now left].
  - rewrite <- IH. split; [intros [X|X]; [subst; rewrite str_eqb_refl in E; discriminate | exact X] | now right].
Qed.

(* on well-formed field lists with distinct types, upd is the insertion of a finite map that merges flags *)
Lemma upd_spec : forall f fs, wf_field f -> Forall wf_field fs -> NoDup (map ftype fs) ->
  Forall wf_field (upd f fs) /\ NoDup (map ftype (upd f fs)) /\
  forall t, lookup t (upd f fs) =
    if str_eqb t (ftype f) then combine_flags (lookup t fs) (Some (pf_list f, pf_null f)) else lookup t fs.
Proof.
  intros f fs Wf. induction fs as [|g r IH]; intros W ND; cbn [upd].
  - split; [constructor; [exact Wf | constructor]|]. split; [constructor; [intros [] | constructor]|].
    intro t. rewrite lookup_cons. now destruct (str_eqb t (ftype f)).
  - inversion W as [|? ? Wg Wr]; subst. cbn [map] in ND. inversion ND as [|? ? N1 N2]; subst.
    rewrite (ident_eqb_wf f g Wf Wg). destruct (str_eqb (ftype f) (ftype g)) eqn:E.
    + apply str_eqb_eq in E. destruct (wf_merge g f Wg Wf (eq_sym E)) as (Wm & Mt & Ml & Mn). cbv zeta in *.
      split; [now constructor|]. split; [cbn [map]; rewrite Mt; now constructor|].
      intro t. rewrite !lookup_cons, Mt, <- E. destruct (str_eqb t (ftype f)); [now rewrite Ml, Mn | reflexivity].
    + destruct (IH Wr N2) as (IW & IN & IL). split; [now constructor|]. split.
      * cbn [map]. constructor; [|exact IN]. rewrite lookup_in_map, IL.
        replace (str_eqb (ftype g) (ftype f)) with false; [now rewrite <- lookup_in_map|].
        symmetry. destruct (str_eqb (ftype g) (ftype f)) eqn:E2; [|reflexivity].
        apply str_eqb_eq in E2. rewrite E2, str_eqb_refl in E. discriminate.
      * intro t. rewrite !lookup_cons. destruct (str_eqb t (ftype g)) eqn:T; [|apply IL].
        destruct (str_eqb t (ftype f)) eqn:T2; [|reflexivity].
        apply str_eqb_eq in T, T2. rewrite <- T, <- T2, str_eqb_refl in E. discriminate.
Qed.

Lemma fold_upd_spec : forall qs fs, Forall wf_field qs -> NoDup (map ftype qs) -> Forall wf_field fs -> NoDup (map ftype fs) ->
  Forall wf_field (fold_left (fun acc f => upd f acc) qs fs) /\
  NoDup (map ftype (fold_left (fun acc f => upd f acc) qs fs)) /\
  forall t, lookup t (fold_left (fun acc f => upd f acc) qs fs) = combine_flags (lookup t fs) (lookup t qs).
Proof.
  induction qs as [|q qs IH]; intros fs Wq Nq Wf Nf; cbn [fold_left].
  - split; [exact Wf|]. split; [exact Nf|]. intro t. change (lookup t []) with (@None (bool * bool)).
    now destruct (lookup t fs) as [[? ?]|].
  - inversion Wq as [|? ? W1 W2]; subst. cbn [map] in Nq. inversion Nq as [|? ? N1 N2]; subst.
    destruct (upd_spec q fs W1 Wf Nf) as (Wu & Nu & Lu). destruct (IH (upd q fs) W2 N2 Wu Nu) as (A & B & C).
    split; [exact A|]. split; [exact B|]. intro t. rewrite C, Lu, lookup_cons.
    destruct (str_eqb t (ftype q)) eqn:E; [|reflexivity].
    apply str_eqb_eq in E. subst t. rewrite lookup_in_map in N1.
    destruct (lookup (ftype q) qs); [now destruct N1 | now destruct (lookup (ftype q) fs) as [[? ?]|]].
Qed.

Ltac sat := unfold sat_add; repeat match goal with |- context [2 <=? ?x] => destruct (Nat.leb_spec 2 x) end; lia.

Lemma cnodes_cnt_max : forall sel c n, In n (cnodes c) -> sel_has sel n = true -> 1 <= cnt_max sel c.
Proof.
  intros sel c. induction c; intros n H S; cbn [cnodes cnt_max] in *; try contradiction.
  - destruct H as [->|[]]. rewrite S. lia.
  - apply in_app_or in H. destruct H as [H|H]; [specialize (IHc1 n H S) | specialize (IHc2 n H S)]; sat.
  - apply in_app_or in H. destruct H as [H|H]; [specialize (IHc1 n H S) | specialize (IHc2 n H S)]; lia.
  - eauto.
  - specialize (IHc n H S). destruct (cnt_max sel c =? 0) eqn:E; [apply Nat.eqb_eq in E; lia | lia].
Qed.

Lemma sel_has_single : forall a n, sel_has [a] n = N.eqb n a.
Proof. intros. unfold sel_has. cbn [existsb]. apply orb_false_r. Qed.

(* The invariant: the flags of the phrase bound the number of children per type. *)
Definition wf_phrase (p : phrase) : Prop := Forall wf_field (ph_fields p) /\ NoDup (map ftype (ph_fields p)).

Definition flags_ok (tid : str -> N) (fs : list pfield) (c : cexpr) : Prop :=
  forall t, match lookup t fs with
            | Some (l, n) => (n = false -> 1 <= cnt_min [tid t] c) /\ (l = false -> cnt_max [tid t] c <= 1)
            | None => cnt_max [tid t] c = 0
            end.

Definition inv (tid : str -> N) (p : phrase) (c : cexpr) : Prop :=
  wf_phrase p /\ flags_ok tid (ph_fields p) c /\ (forall n, In n (cnodes c) -> exists t, n = tid t).

Lemma inv_seq : forall tid p1 c1 p2 c2 p,
  inv tid p1 c1 -> inv tid p2 c2 ->
  ph_fields p = fold_left (fun acc f => upd f acc) (ph_fields p2) (ph_fields p1) ->
  inv tid p (CSeq c1 c2).
Proof.
  intros tid p1 c1 p2 c2 p ((W1 & N1) & F1 & C1) ((W2 & N2) & F2 & C2) E. unfold inv, wf_phrase. rewrite E.
  destruct (fold_upd_spec _ _ W2 N2 W1 N1) as (A & B & L). split; [now split|]. split.
  - intro t. rewrite L. specialize (F1 t). specialize (F2 t). cbn [cnt_min cnt_max].
    destruct (lookup t (ph_fields p1)) as [[l1 n1]|]; destruct (lookup t (ph_fields p2)) as [[l2 n2]|]; cbn [combine_flags].
    + split; [|discriminate]. intro H. apply orb_false_iff in H. destruct H as [H _]. destruct F1 as [F1 _]. specialize (F1 H). sat.
    + destruct F1 as [Fa Fb]. split; intro H; [specialize (Fa H) | specialize (Fb H)]; sat.
    + destruct F2 as [Fa Fb]. split; intro H; [specialize (Fa H) | specialize (Fb H)]; sat.
    + sat.
  - intros n H. cbn [cnodes] in H. apply in_app_or in H. destruct H; auto.
Qed.

Lemma inv_empty : forall tid, inv tid (mkPh [] true) CEmpty.
Proof.
  intro tid. split; [split; [constructor | constructor]|]. split; [intro t; reflexivity | intros n []].
Qed.

Lemma inv_node : forall tid name, (forall a b, tid a = tid b -> a = b) -> inv tid (new_phrase name) (CNode (tid name)).
Proof.
  intros tid name Inj. unfold new_phrase. split; [|split].
  - split; cbn [ph_fields map]; [|constructor; [intros []|constructor]].
    constructor; [|constructor]. unfold wf_field, ftype. cbn. repeat split.
  - intro t. unfold lookup. cbn [ph_fields find]. unfold ftype at 1. cbn [pf_types hd]. cbn [cnt_min cnt_max].
    rewrite sel_has_single. destruct (str_eqb t name) eqn:E.
    + apply str_eqb_eq in E. subst. rewrite N.eqb_refl. cbn [pf_list pf_null]. split; intros _; lia.
    + destruct (N.eqb (tid name) (tid t)) eqn:E2; [|reflexivity]. apply N.eqb_eq in E2. apply Inj in E2. subst.
      rewrite str_eqb_refl in E. discriminate.
  - intros n [<-|[]]. now exists name.
Qed.

Lemma lookup_map : forall t g fs, (forall f, ftype (g f) = ftype f) ->
  lookup t (map g fs) = match find (fun f => str_eqb t (ftype f)) fs with
                        | Some f => Some (pf_list (g f), pf_null (g f)) | None => None end.
Proof.
  intros t g fs Hg. unfold lookup. induction fs as [|f r IH]; cbn [map find]; [reflexivity|].
  rewrite Hg. destruct (str_eqb t (ftype f)); [reflexivity | exact IH].
Qed.

Lemma wf_map : forall g p, (forall f, wf_field f -> wf_field (g f) /\ ftype (g f) = ftype f) -> wf_phrase p ->
  Forall wf_field (map g (ph_fields p)) /\ NoDup (map ftype (map g (ph_fields p))).
Proof.
  intros g p Hg (W & ND). split.
  - apply Forall_map. eapply Forall_impl; [|exact W]. intros f Wf. apply (Hg f Wf).
  - rewrite map_map. replace (map (fun x => ftype (g x)) (ph_fields p)) with (map ftype (ph_fields p)); [exact ND|].
    apply map_ext_in. intros f Hf. rewrite Forall_forall in W. symmetry. apply (Hg f (W f Hf)).
Qed.

Lemma inv_opt : forall tid p c o, inv tid p c -> inv tid (mkPh (map set_null (ph_fields p)) o) (COpt c).
Proof.
  intros tid p c o (W & F & C). split; [|split]; cbn [ph_fields].
  - apply (wf_map set_null p); [|exact W]. intros f (A & B & D). split; [|reflexivity]. unfold wf_field, ftype, set_null. cbn. auto.
  - intro t. rewrite (lookup_map t set_null); [|reflexivity]. specialize (F t). unfold lookup in F. cbn [cnt_min cnt_max].
    destruct (find (fun f => str_eqb t (ftype f)) (ph_fields p)) as [f|]; [|exact F].
    cbn [set_null pf_list pf_null]. destruct F as [_ F]. split; [discriminate | exact F].
  - exact C.
Qed.

Lemma inv_list : forall tid p c o oom, inv tid p c ->
  inv tid (mkPh (map (fun f => mkPF (pf_name f) (pf_types f) true (pf_null f || negb oom) (pf_ident f)) (ph_fields p)) o) (CList c oom).
Proof.
  intros tid p c o oom (W & F & C). split; [|split]; cbn [ph_fields].
  - apply (wf_map (fun f => mkPF (pf_name f) (pf_types f) true (pf_null f || negb oom) (pf_ident f)) p); [|exact W].
    intros f (A & B & D). split; [|reflexivity]. unfold wf_field, ftype. cbn. auto.
  - intro t. rewrite (lookup_map t (fun f => mkPF (pf_name f) (pf_types f) true (pf_null f || negb oom) (pf_ident f))); [|reflexivity].
    specialize (F t). unfold lookup in F. cbn [cnt_min cnt_max].
    destruct (find (fun f => str_eqb t (ftype f)) (ph_fields p)) as [f|].
    + cbn [pf_list pf_null]. destruct F as [F _]. split; [|discriminate]. intro H. apply orb_false_iff in H. destruct H as [H1 H2].
      apply negb_false_iff in H2. subst oom. auto.
    + rewrite F. reflexivity.
  - exact C.
Qed.

Lemma simple_inv : forall tid m, (forall a b, tid a = tid b -> a = b) ->
  forall e, simple m e = true -> inv tid (phr m e) (cexpr_of tid m e).
Proof.
  intros tid m Inj e. induction e using expr_ind2; cbn [simple]; intro S; try discriminate; cbn [phr cexpr_of].
  - apply inv_empty.
  - apply inv_empty.
  - destruct (tok_name m s); [now apply inv_node | apply inv_empty].
  - now apply inv_node.
  - unfold concat_phrases.
    assert (G : forall l accp accc, inv tid accp accc ->
              Forall (fun e => simple m e = true -> inv tid (phr m e) (cexpr_of tid m e)) l -> forallb (simple m) l = true ->
              inv tid (fold_left (fun ret p => fold_left concat_step (ph_fields p) (mkPh (ph_fields ret) (ph_ordered ret && ph_ordered p)))
                                 (map (phr m) l) accp)
                      ((fix go (l : list expr) (acc : cexpr) {struct l} : cexpr :=
                          match l with [] => acc | x :: r => go r (CSeq acc (cexpr_of tid m x)) end) l accc)).
    { clear. induction l as [|x r IH]; intros accp accc IA HF HS; cbn [map fold_left]; [exact IA|].
      cbn [forallb] in HS. apply andb_true_iff in HS. destruct HS as [S1 S2]. inversion HF as [|? ? Hx Hr]; subst.
      apply IH; [|exact Hr | exact S2].
      eapply inv_seq; [exact IA | exact (Hx S1) |]. rewrite fold_concat_step_upd. reflexivity. }
    apply G; [apply inv_empty | exact H | exact S].
  - apply inv_opt. now apply IHe.
  - apply andb_true_iff in S. destruct S as [S1 S2]. apply inv_list. now apply IHe1.
  - now apply IHe.
Qed.

Lemma lookup_in : forall f fs, NoDup (map ftype fs) -> In f fs -> lookup (ftype f) fs = Some (pf_list f, pf_null f).
Proof.
  intros f fs. induction fs as [|g r IH]; intros ND H; [contradiction|]. rewrite lookup_cons.
  cbn [map] in ND. inversion ND as [|? ? N1 N2]; subst. destruct H as [->|H]; [now rewrite str_eqb_refl|].
  destruct (str_eqb (ftype f) (ftype g)) eqn:E; [|now apply IH].
  apply str_eqb_eq in E. exfalso. apply N1. rewrite <- E. now apply in_map.
Qed.

Theorem infer_fits : forall tid m np e st inj,
  (forall a b, tid a = tid b -> a = b) -> simple m e = true ->
  check_sym [] (to_fields tid (fst (expr_phrase_with np m e st))) inj (cexpr_of tid m e) = true.
Proof.
  intros tid m np e st inj Inj S. rewrite (phr_correct np m e S st). cbn [fst].
  destruct (simple_inv tid m Inj e S) as ((W & ND) & F & C). unfold check_sym, to_fields.
  repeat (apply andb_true_iff; split).
  - apply forallb_forall. intros f' Hf. apply in_map_iff in Hf. destruct Hf as (f & <- & Hf). cbn [f_after f_assert].
    unfold assert_covers_b. cbn [f_assert]. destruct (length (pf_types f) =? 1); reflexivity.
  - apply forallb_forall. intros f' Hf. apply in_map_iff in Hf. destruct Hf as (f & <- & Hf). cbn [f_required f_list f_sel].
    rewrite Forall_forall in W. destruct (W f Hf) as (Ft & _ & _). rewrite Ft. cbn [map].
    specialize (F (ftype f)). rewrite (lookup_in f _ ND Hf) in F. destruct F as [Fa Fb].
    destruct (pf_null f), (pf_list f); cbn [negb andb]; try reflexivity.
    + apply Nat.leb_le. now apply Fb.
    + apply andb_true_iff. split; apply Nat.leb_le; [now apply Fa | now apply Fb].
  - apply forallb_forall. intros n Hn. apply orb_true_iff. right. destruct (C n Hn) as (t & ->).
    assert (HS : sel_has [tid t] (tid t) = true) by (rewrite sel_has_single; apply N.eqb_refl).
    pose proof (cnodes_cnt_max [tid t] _ _ Hn HS) as CM. specialize (F t).
    destruct (lookup t (ph_fields (phr m e))) as [[l nl]|] eqn:L; [|lia].
    assert (Hin : In t (map ftype (ph_fields (phr m e)))) by (apply lookup_in_map; congruence).
    apply in_map_iff in Hin. destruct Hin as (f & Ef & Hf).
    apply existsb_exists. exists (mkF (map tid (pf_types f)) (-1) (negb (pf_null f)) (pf_list f)
                                      (if length (pf_types f) =? 1 then 0%Z else (-1)%Z)).
    split; [apply in_map_iff; exists f; split; [reflexivity | exact Hf]|]. cbn [f_sel].
    rewrite Forall_forall in W. destruct (W f Hf) as (Ft & _ & _). rewrite Ft, Ef. exact HS.
Qed.

Lemma iter_xO_inj : forall x y p q, Nat.iter x xO (xI p) = Nat.iter y xO (xI q) -> x = y /\ p = q.
Proof.
  induction x as [|x IH]; intros [|y] p q H; cbn [Nat.iter nat_rect] in H.
  - injection H as ->. now split.
  - discriminate.
  - discriminate.
  - injection H as H. destruct (IH _ _ _ H) as [-> ->]. now split.
Qed.

Lemma iter_xO_not_xH : forall x p, Nat.iter x xO (xI p) <> xH.
Proof. intros [|x] p; cbn [Nat.iter nat_rect]; discriminate. Qed.

Lemma tid_enc_inj : forall a b, tid_enc a = tid_enc b -> a = b.
Proof.
  unfold tid_enc. induction a as [|x a IH]; intros [|y b] H; [reflexivity| | |]; injection H as H; cbn [enc_str] in H.
  - symmetry in H. now apply iter_xO_not_xH in H.
  - now apply iter_xO_not_xH in H.
  - apply iter_xO_inj in H. destruct H as [H1 H2]. apply N2Nat.inj in H1. subst. f_equal. apply IH. now f_equal.
Qed.
