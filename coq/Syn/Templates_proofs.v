(* Proofs about Syn/Templates.v: predicate evaluation of the instantiator is the declarative evaluation,
   and doExpr preserves the template denotation for every expression kind. *)
From Coq Require Import List ZArith Bool Lia.
From TM Require Import Util.Ident Gram.Cfg Syn.Expr Syn.Expand Syn.ExtLang Syn.Expand_proofs Syn.Templates.
Import ListNotations.
Local Open Scope Z_scope.
Section PredInd.
  Variable P : pred -> Prop.
  Hypothesis Hor : forall l, Forall P l -> P (POr l).
  Hypothesis Hand : forall l, Forall P l -> P (PAnd l).
  Hypothesis Hnot : forall p, P p -> P (PNot p).
  Hypothesis Heq : forall i v, P (PEq i v).
  Fixpoint pred_ind2 (p : pred) : P p :=
    let fix all (l : list pred) : Forall P l :=
      match l with [] => Forall_nil P | x :: r => Forall_cons x (pred_ind2 x) (all r) end in
    match p with
    | POr l => Hor l (all l)
    | PAnd l => Hand l (all l)
    | PNot q => Hnot q (pred_ind2 q)
    | PEq i v => Heq i v
    end.
End PredInd.

(* instantiator.check = declarative evaluation, whenever no log.Fatal is reached *)
Theorem check_pred_eval e : forall p b, check_pred (Some e) p = (b, false) -> b = eval_pred e p.
Proof.
  induction p using pred_ind2; intros b Hc; cbn [check_pred eval_pred] in *.
  - revert b Hc. induction H as [|x l Hx Hl IH]; intros b Hc.
    + now injection Hc as <-.
    + cbn [existsb]. destruct (check_pred (Some e) x) as [bx fx] eqn:Ex. destruct fx; [discriminate|].
      rewrite <- (Hx bx eq_refl). destruct bx; [now injection Hc as <- | cbn; now apply IH].
  - revert b Hc. induction H as [|x l Hx Hl IH]; intros b Hc.
    + now injection Hc as <-.
    + cbn [forallb]. destruct (check_pred (Some e) x) as [bx fx] eqn:Ex. destruct fx; [discriminate|].
      rewrite <- (Hx bx eq_refl). destruct bx; [cbn; now apply IH | now injection Hc as <-].
  - destruct (check_pred (Some e) p) as [bp fp] eqn:Ep. injection Hc as <- ->. now rewrite <- (IHp bp eq_refl).
  - unfold resolve_arg in Hc. cbn [a_value a_take a_param] in Hc. destruct (env_get e i) as [x|]; [now injection Hc as <- | discriminate].
Qed.

(* no_fatal for predicates: every parameter bound => check never reaches the Fatal branch *)
Fixpoint pred_bound (e : env) (p : pred) : bool :=
  match p with
  | PEq i _ => match env_get e i with Some _ => true | None => false end
  | POr l | PAnd l => forallb (pred_bound e) l
  | PNot q => pred_bound e q
  end.

Theorem check_pred_no_fatal e : forall p, pred_bound e p = true -> snd (check_pred (Some e) p) = false.
Proof.
  induction p using pred_ind2; intro Hb; cbn [check_pred pred_bound] in *.
  - induction H as [|x l Hx Hl IH]; [reflexivity|]. cbn [forallb] in Hb. apply andb_true_iff in Hb as [H1 H2].
    specialize (Hx H1). destruct (check_pred (Some e) x) as [bx fx]. cbn in Hx. subst fx. destruct bx; [reflexivity | auto].
  - induction H as [|x l Hx Hl IH]; [reflexivity|]. cbn [forallb] in Hb. apply andb_true_iff in Hb as [H1 H2].
    specialize (Hx H1). destruct (check_pred (Some e) x) as [bx fx]. cbn in Hx. subst fx. destruct bx; [auto | reflexivity].
  - specialize (IHp Hb). destruct (check_pred (Some e) p) as [bp fp]. exact IHp.
  - unfold resolve_arg. cbn [a_value a_take a_param]. destruct (env_get e i); [reflexivity | discriminate].
Qed.
Lemma bytes_eqb_spec a : forall b, bytes_eqb a b = true <-> a = b.
Proof.
  induction a as [|x a IH]; intros [|y b]; cbn [bytes_eqb]; try (split; discriminate); [tauto|].
  rewrite andb_true_iff, Z.eqb_eq, IH. split; [intros [-> ->]; reflexivity | intro H; injection H; auto].
Qed.

Lemma sig_eqb_true a : forall b, sig_eqb a b = true -> a = b.
Proof.
  induction a as [|[p v] a IH]; intros [|[q w] b] H; try discriminate; auto.
  cbn in H. apply andb_true_iff in H as [H H3]. apply andb_true_iff in H as [H1 H2].
  apply Z.eqb_eq in H1. apply bytes_eqb_spec in H2. subst. f_equal. auto.
Qed.

Lemma sig_eqb_refl a : sig_eqb a a = true.
Proof. induction a as [|[p v] a IH]; cbn; auto. now rewrite Z.eqb_refl, (proj2 (bytes_eqb_spec v v) eq_refl), IH. Qed.

Lemma find_inst_nth nt sg l : forall k0 k, find_inst nt sg l k0 = Some k ->
  (k0 <= k)%nat /\ nth_error l (k - k0) = Some (mkInst nt sg).
Proof.
  induction l as [|i l IH]; intros k0 k H; cbn [find_inst] in H; [discriminate|].
  destruct ((i_nt i =? nt) && sig_eqb (i_sig i) sg) eqn:E.
  - injection H as <-. rewrite Nat.sub_diag. apply andb_true_iff in E as [E1 E2]. apply Z.eqb_eq in E1. apply sig_eqb_true in E2.
    destruct i as [n s]. cbn in *. subst. auto.
  - apply IH in H as [Hle Hn]. split; [lia|]. replace (k - k0)%nat with (S (k - S k0)) by lia. exact Hn.
Qed.

Lemma find_inst_none nt sg : forall l k, find_inst nt sg l k = None -> ~ In (mkInst nt sg) l.
Proof.
  induction l as [|i l IH]; intros k H Hin; [destruct Hin|]. cbn [find_inst] in H.
  destruct ((i_nt i =? nt) && sig_eqb (i_sig i) sg) eqn:E; [discriminate|]. destruct Hin as [->|Hin]; [|eapply IH; eauto].
  cbn [i_nt i_sig] in E. now rewrite Z.eqb_refl, sig_eqb_refl in E.
Qed.

Lemma inst_nodupb_iff l : inst_nodupb l = true <-> NoDup l.
Proof.
  assert (Heq : forall x y, inst_eqb x y = true <-> x = y).
  { intros [n s] [n' s']. unfold inst_eqb. cbn [i_nt i_sig]. rewrite andb_true_iff, Z.eqb_eq. split.
    - intros [-> H]. now apply sig_eqb_true in H as ->.
    - intro H. injection H as -> ->. split; [reflexivity | apply sig_eqb_refl]. }
  induction l as [|x l IH]; cbn [inst_nodupb]; [split; [constructor | reflexivity]|].
  rewrite andb_true_iff, negb_true_iff, IH, <- not_true_iff_false, existsb_exists. split.
  - intros [Hx Hl]. constructor; [|exact Hl]. intro Hin. apply Hx. exists x. split; [exact Hin | now apply Heq].
  - intro H. inversion H as [|? ? Hx Hl]; subst. split; [|exact Hl]. intros (y & Hy & E). apply Heq in E. now subst.
Qed.
Definition resolved (ctx : option env) (args : list arg) : list (Z * bytes) :=
  flat_map (fun a => match resolve_arg ctx a with Some bp => [bp] | None => [] end) args.
Definition unresolved (ctx : option env) (a : arg) : bool := match resolve_arg ctx a with Some _ => false | None => true end.

Lemma resolve_fold ctx args : forall sg0 f0,
  fold_left (fun '(sg, fatal) a => match resolve_arg ctx a with Some bp => (sg ++ [bp], fatal) | None => (sg, true) end)
            args (sg0, f0) = (sg0 ++ resolved ctx args, f0 || existsb (unresolved ctx) args).
Proof.
  unfold resolved, unresolved. induction args as [|a args IH]; intros sg0 f0; cbn [fold_left flat_map existsb].
  - now rewrite app_nil_r, orb_false_r.
  - destruct (resolve_arg ctx a) as [bp|]; rewrite IH; cbn [orb].
    + now rewrite <- app_assoc.
    + now rewrite orb_true_r.
Qed.

(* the instance asked for is found or appended; it was not there before when appended *)
Lemma resolve_instance_spec st ctx nt args k st' : resolve_instance st ctx nt args = (k, st') ->
  let i := mkInst nt (resolved ctx args) in
  nth_error (is_list st') k = Some i /\ is_fatal st' = is_fatal st || existsb (unresolved ctx) args /\
  (is_list st' = is_list st \/ (~ In i (is_list st) /\ is_list st' = is_list st ++ [i])).
Proof.
  unfold resolve_instance. rewrite resolve_fold. cbn [app].
  destruct (find_inst nt _ (is_list st) 0) as [j|] eqn:Ei; intro H; injection H as <- <-; cbn [is_list is_fatal].
  - apply find_inst_nth in Ei as [_ Hn]. rewrite Nat.sub_0_r in Hn. auto.
  - rewrite nth_error_app2, Nat.sub_diag by lia. apply find_inst_none in Ei. auto.
Qed.
Notation tgrows := (ext is_list is_fatal (fun _ : inst => True)).
Notation loop T ctx := (subs_loop (fun st x => do_expr T ctx st x) (check_pred ctx)).

(* every child goes through doExpr (which repeats the check on a conditional); it is dropped when it is a disabled
   alternative of a choice or an emptied part of a sequence *)
Lemma subs_loop_cons T ctx kc ks s rest st :
  loop T ctx kc ks (s :: rest) st =
  let '(conv, st1) := do_expr T ctx st s in
  let '(r, st2) := loop T ctx kc ks rest st1 in
  if (kc && match s with ECond p _ => negb (fst (check_pred ctx p)) | _ => false end) || (ks && is_empty_e conv)
  then (r, st2) else (conv :: r, st2).
Proof.
  destruct s; cbn [subs_loop]; try (rewrite andb_false_r; reflexivity).
  cbn [do_expr]. destruct kc; [|reflexivity]. destruct (check_pred ctx p) as [b fl]. destruct b; cbn [fst negb andb orb]; [reflexivity|].
  now destruct (subs_loop _ _ true ks rest (set_ifatal st fl)).
Qed.

Lemma set_ifatal_grows st f : tgrows st (set_ifatal st f).
Proof. split; [exists []; cbn; now rewrite app_nil_r | intro H; cbn; now rewrite H]. Qed.

Lemma resolve_instance_grows st ctx nt args k st' : resolve_instance st ctx nt args = (k, st') -> tgrows st st'.
Proof.
  intro H. destruct (resolve_instance_spec _ _ _ _ _ _ H) as (_ & Hf & Hl). split; [|intro E; now rewrite Hf, E].
  destruct Hl as [-> | [_ ->]]; [exists [] | eexists]; split; auto using app_nil_r.
Qed.
Lemma subs_loop_grows_ind T ctx kc ks l : Forall (fun x => forall st x' st', do_expr T ctx st x = (x', st') -> tgrows st st') l ->
  forall st r st', loop T ctx kc ks l st = (r, st') -> tgrows st st'.
Proof.
  induction 1 as [|s l Hs _ IH]; intros st r st' H; [injection H as <- <-; apply ext_refl|]. rewrite subs_loop_cons in H.
  destruct (do_expr T ctx st s) as [conv st1] eqn:E1. destruct (loop T ctx kc ks l st1) as [r2 st2] eqn:E2.
  assert (st2 = st') by (destruct (_ || _); now injection H). subst st2. eauto using ext_trans.
Qed.

Theorem do_expr_grows T ctx : forall x st x' st', do_expr T ctx st x = (x', st') -> tgrows st st'.
Proof.
  induction x using expr_ind2; intros st x' st' Hx; cbn [do_expr] in Hx;
    try (injection Hx as <- <-; apply ext_refl);
    try (destruct (do_expr T ctx st x) as [c st1] eqn:E1; apply IHx in E1; destruct (is_empty_e c); injection Hx as <- <-; exact E1);
    try (destruct l as [|a l]; [injection Hx as <- <-; apply ext_refl|];
         match type of Hx with (let '(r, st) := ?G in _) = _ => destruct G as [r st1] eqn:E1 end;
         apply (subs_loop_grows_ind T ctx _ _ _ H) in E1; destruct r as [|? [|? ?]]; injection Hx as <- <-; exact E1).
  - destruct (T <=? s); [|injection Hx as <- <-; apply ext_refl].
    destruct (resolve_instance st ctx (s - T) a) as [k st1] eqn:E1. injection Hx as <- <-. now apply resolve_instance_grows in E1.
  - destruct (do_expr T ctx st x) as [c st1] eqn:E1. apply IHx in E1. destruct s as [sp|]; [|injection Hx as <- <-; exact E1].
    destruct (do_expr T ctx st1 sp) as [d st2] eqn:E2. apply (H sp eq_refl) in E2. injection Hx as <- <-. eauto using ext_trans.
  - destruct (check_pred ctx p) as [b fl]. pose proof (set_ifatal_grows st fl) as Hg.
    destruct b; [apply IHx in Hx | injection Hx as <- <-]; eauto using ext_trans.
Qed.

Lemma subs_loop_grows T ctx kc ks l st r st' : loop T ctx kc ks l st = (r, st') -> tgrows st st'.
Proof. apply subs_loop_grows_ind, Forall_forall. intros x _. apply do_expr_grows. Qed.

(* without Fatal, a conditional is decided as the declarative semantics decides it *)
Lemma do_expr_cond T e p x st x' st' : do_expr T (Some e) st (ECond p x) = (x', st') -> is_fatal st' = false ->
  check_pred (Some e) p = (eval_pred e p, false).
Proof.
  cbn [do_expr]. destruct (check_pred (Some e) p) as [b fl] eqn:Ec. intros H Hnf.
  assert (Hg : tgrows (set_ifatal st fl) st') by (destruct b; [now apply do_expr_grows in H | injection H as <- <-; apply ext_refl]).
  assert (Hfl : fl = false).
  { destruct fl; [|reflexivity]. rewrite (proj2 Hg) in Hnf; [discriminate | apply orb_true_r]. }
  subst fl. now rewrite <- (check_pred_eval e p b Ec).
Qed.
Section Main.
  Variable T : Z.
  Variable trho : Z -> env -> lang.
  Variable setden : Z -> Z -> Prop.

  (* the interpretation of the instantiated grammar: instance k means its template under its arguments *)
  Variable rho : Z -> lang.
  Notation den := (den T rho setden).
  Notation tden := (tden T trho setden).

  Definition tok : ist -> Prop :=
    ok is_list is_fatal (fun k i => forall w, rho (T + Z.of_nat k) w <-> trho (T + i_nt i) (i_sig i) w).

  Definition elem_good (e : env) (x : expr) : Prop :=
    forall st x' st', do_expr T (Some e) st x = (x', st') -> tok st' -> forall w, den x' w <-> tden e x w.

  Definition enabled_lang (e : env) (a : expr) : lang := if alt_enabled e a then tden e a else (fun _ => False).

  Lemma subs_loop_seq e l : Forall (elem_good e) l ->
    forall st r st', loop T (Some e) false true l st = (r, st') -> tok st' ->
    forall w, lang_cat (map den r) w <-> lang_cat (map (tden e) l) w.
  Proof.
    induction 1 as [|s l Hs _ IH]; intros st r st' H Hok w; [injection H as <- <-; reflexivity|]. rewrite subs_loop_cons in H.
    destruct (do_expr T (Some e) st s) as [conv st1] eqn:E1. destruct (loop T (Some e) false true l st1) as [r2 st2] eqn:E2.
    cbn [andb orb] in H. assert (st2 = st') by (destruct (is_empty_e conv); now injection H). subst st2.
    pose proof (Hs _ _ _ E1 (ok_anti _ _ _ _ _ _ (subs_loop_grows _ _ _ _ _ _ _ _ E2) Hok)) as Hconv. specialize (IH _ _ _ E2 Hok).
    cbn [map]. destruct (is_empty_e conv) eqn:Ee; injection H as <-.
    - rewrite lang_cat_eps_drop; [apply IH|]. intro u. rewrite <- Hconv, (is_empty_e_true conv Ee). reflexivity.
    - now apply lang_cat_cons_ext.
  Qed.

  Lemma subs_loop_choice e l : Forall (elem_good e) l ->
    forall st r st', loop T (Some e) true false l st = (r, st') -> tok st' ->
    (forall w, lang_any (map den r) w <-> lang_any (map (enabled_lang e) l) w) /\
    (r = [] <-> existsb (alt_enabled e) l = false).
  Proof.
    induction 1 as [|s l Hs _ IH]; intros st r st' H Hok; [injection H as <- <-; cbn; tauto|]. rewrite subs_loop_cons in H.
    destruct (do_expr T (Some e) st s) as [conv st1] eqn:E1. destruct (loop T (Some e) true false l st1) as [r2 st2] eqn:E2.
    cbn [andb orb] in H. rewrite orb_false_r in H.
    assert (st2 = st') by (destruct (match s with ECond _ _ => _ | _ => _ end); now injection H). subst st2.
    pose proof (ok_anti _ _ _ _ _ _ (subs_loop_grows _ _ _ _ _ _ _ _ E2) Hok) as Hok1.
    pose proof (Hs _ _ _ E1 Hok1) as Hconv. destruct (IH _ _ _ E2 Hok) as [IH1 IH2].
    assert (Hdis : match s with ECond p _ => negb (fst (check_pred (Some e) p)) | _ => false end = negb (alt_enabled e s)).
    { destruct s; try reflexivity. cbn [alt_enabled]. now rewrite (do_expr_cond _ _ _ _ _ _ _ E1 (proj2 Hok1)). }
    rewrite Hdis in H. cbn [map lang_any existsb]. unfold enabled_lang at 1.
    destruct (alt_enabled e s); injection H as <-; cbn [negb map lang_any orb].
    - split; [intro w; now rewrite Hconv, IH1 | split; discriminate].
    - split; [intro w; rewrite IH1; tauto | exact IH2].
  Qed.

  Lemma wrap_good e (mk : expr -> expr) x :
    (forall y w, den (mk y) w <-> den y w) -> (forall w, tden e (mk x) w <-> tden e x w) ->
    elem_good e x -> forall st x' st', (let '(c, st) := do_expr T (Some e) st x in (mk c, st)) = (x', st') ->
    tok st' -> forall w, den x' w <-> tden e (mk x) w.
  Proof.
    intros Hd Ht Hx st x' st' H Hok w. destruct (do_expr T (Some e) st x) as [c st1] eqn:E1. injection H as <- <-.
    rewrite Hd, Ht. now apply (Hx _ _ _ E1).
  Qed.

  (* the expression written for an instance denotes what its template denotes under the instance's arguments *)
  Theorem do_expr_den e : forall x, elem_good e x.
  Proof.
    induction x using expr_ind2; intros st x' st' Hx Hok w; cbn [do_expr] in Hx;
      try (injection Hx as <- <-; reflexivity).
    - destruct (do_expr T (Some e) st x) as [c st1] eqn:E1. pose proof (IHx _ _ _ E1) as Hd.
      destruct (is_empty_e c) eqn:Ec; injection Hx as <- <-; specialize (Hd Hok); cbn [ExtLang.den Templates.tden].
      + rewrite <- (Hd w), (is_empty_e_true c Ec). cbn. unfold lang_eps. tauto.
      + now rewrite (Hd w).
    - destruct l as [|a l]; [injection Hx as <- <-; reflexivity|].
      destruct (loop T (Some e) true false (a :: l) st) as [r st1] eqn:E1.
      assert (Hst : st1 = st') by (destruct r as [|? [|? ?]]; now injection Hx). subst st1.
      destruct (subs_loop_choice e _ H _ _ _ E1 Hok) as [Hl1 Hl2].
      change (tden e (EChoice (a :: l)) w) with
        ((if existsb (alt_enabled e) (a :: l) then lang_any (map (enabled_lang e) (a :: l)) else lang_eps) w).
      destruct (existsb (alt_enabled e) (a :: l)); [rewrite <- (Hl1 w) | rewrite (proj2 Hl2 eq_refl) in Hx];
        [destruct r as [|y [|z r]]; [destruct Hl2 as [Hl2 _]; discriminate (Hl2 eq_refl) | |]|]; injection Hx as <-; cbn; tauto.
    - destruct l as [|a l]; [injection Hx as <- <-; reflexivity|].
      destruct (loop T (Some e) false true (a :: l) st) as [r st1] eqn:E1. injection Hx as <- <-.
      exact (subs_loop_seq e _ H _ _ _ E1 Hok w).
    - destruct (Z.leb_spec T s) as [Hs|Hs].
      + destruct (resolve_instance st (Some e) (s - T) a) as [k st1] eqn:E1. injection Hx as <- <-.
        destruct (resolve_instance_spec _ _ _ _ _ _ E1) as (Hn & _). rewrite den_ref_nt by lia.
        rewrite (proj1 Hok k _ Hn w). cbn [i_nt i_sig Templates.tden]. destruct (Z.ltb_spec s T); [lia|].
        now replace (T + (s - T)) with s by lia.
      + injection Hx as <- <-. cbn [ExtLang.den Templates.tden]. now destruct (Z.ltb_spec s T); [|lia].
    - exact (wrap_good e (EAssign n) x (fun _ _ => iff_refl _) (fun _ => iff_refl _) IHx _ _ _ Hx Hok w).
    - exact (wrap_good e (EAppend n) x (fun _ _ => iff_refl _) (fun _ => iff_refl _) IHx _ _ _ Hx Hok w).
    - exact (wrap_good e (EArrow n f) x (fun _ _ => iff_refl _) (fun _ => iff_refl _) IHx _ _ _ Hx Hok w).
    - destruct l as [|a l]; [injection Hx as <- <-; reflexivity|].
      destruct (loop T (Some e) false false (a :: l) st) as [r st1]. injection Hx as <- <-. reflexivity.
    - destruct (do_expr T (Some e) st x) as [c st1]. injection Hx as <- <-. reflexivity.
    - destruct (do_expr T (Some e) st x) as [c st1] eqn:E1. destruct s as [sp|].
      + destruct (do_expr T (Some e) st1 sp) as [d st2] eqn:E2. injection Hx as <- <-.
        apply (list_lang_ext f (den c) (tden e x) (den d) (tden e sp)); [|exact (H sp eq_refl _ _ _ E2 Hok)].
        apply (IHx _ _ _ E1). exact (ok_anti _ _ _ _ _ _ (do_expr_grows _ _ _ _ _ _ E2) Hok).
      + injection Hx as <- <-. apply (list_lang_ext f (den c) (tden e x) lang_eps lang_eps); [exact (IHx _ _ _ E1 Hok) | reflexivity].
    - pose proof (do_expr_cond T e p x st x' st') as Hc. cbn [do_expr] in Hc. specialize (Hc Hx (proj2 Hok)).
      rewrite Hc in Hx. cbn [Templates.tden]. destruct (eval_pred e p); [now apply (IHx _ _ _ Hx) | injection Hx as <- <-; reflexivity].
    - exact (wrap_good e (EPrec s) x (fun _ _ => iff_refl _) (fun _ => iff_refl _) IHx _ _ _ Hx Hok w).
  Qed.
End Main.

(* no_fatal, arguments: bound parameters only => no log.Fatal("grammar inconsistency on TakeFrom") *)
Definition args_bound (e : env) (args : list arg) : bool :=
  forallb (fun a => match resolve_arg (Some e) a with Some _ => true | None => false end) args.

Lemma resolve_instance_no_fatal st e nt args :
  args_bound e args = true -> is_fatal (snd (resolve_instance st (Some e) nt args)) = is_fatal st.
Proof.
  intro Hb. destruct (resolve_instance st (Some e) nt args) as [k st'] eqn:E.
  cbn [snd]. destruct (resolve_instance_spec _ _ _ _ _ _ E) as (_ & -> & _).
  replace (existsb (unresolved (Some e)) args) with false; [apply orb_false_r|]. symmetry. apply not_true_is_false. intro Hx.
  apply existsb_exists in Hx as (a & Ha & Hu). unfold args_bound in Hb. rewrite forallb_forall in Hb. specialize (Hb a Ha).
  unfold unresolved in Hu. now destruct (resolve_arg (Some e) a).
Qed.
