(* C13: [expand_checks] follows from the static [ExpandWf.wf_model]: no Fatal branch, references stay in range through
   phase 1, sortTail builds a permutation (loop invariant of phase 1). *)
From Coq Require Import List ZArith Bool Lia Permutation.
From TM Require Import Gram.Derive Syn.Expr Syn.Expand Syn.ExtLang Syn.Expand_proofs Syn.Expand_global
  Syn.SortPerm Syn.ExpandWf Syn.CfgNonneg Syn.ToCfg_proofs.
Import ListNotations.
Local Open Scope Z_scope.

Lemma length_multi_concat a b : length (multi_concat a b) = (length a * length b)%nat.
Proof.
  unfold multi_concat. induction a as [|x a IH]; cbn [flat_map length]; [reflexivity|].
  rewrite app_length, map_length, IH. lia.
Qed.
Theorem expand_expr_length c : forall e st alts st', expand_expr c st e = (alts, st') -> length alts = n_alts e.
Proof.
  induction e using expr_ind2; intros st alts st' Hx; try rewrite expand_list_eq in Hx; cbn [expand_expr] in Hx;
    try (injection Hx as <- <-; reflexivity);
    try (destruct (expand_expr c st e) as [r st1] eqn:E1; injection Hx as <- <-; rewrite ?map_length, ?app_length, (IHe _ _ _ E1); cbn; lia);
    try (destruct (extract c st _); injection Hx as <- <-; reflexivity).
  - change (expand_choice c l st = (alts, st')) in Hx. revert st alts Hx.
    induction H as [|x l Hx' _ IH]; intros st alts Hx; cbn [expand_choice] in Hx; [injection Hx as <- <-; reflexivity|].
    destruct (expand_expr c st x) as [r st1] eqn:E1. destruct (expand_choice c l st1) as [r2 st2] eqn:E2. injection Hx as <- <-.
    rewrite app_length, (Hx' _ _ _ E1), (IH _ _ E2). reflexivity.
  - change (expand_seq c l [EEmpty] st = (alts, st')) in Hx.
    enough (G : forall acc, expand_seq c l acc st = (alts, st') -> length alts = (length acc * n_alts (ESeq l))%nat)
      by (rewrite (G _ Hx); cbn [length]; lia).
    clear Hx. revert st. induction H as [|x l Hx' _ IH]; intros st acc Hx; cbn [expand_seq] in Hx; [injection Hx as <- <-; cbn; lia|].
    destruct (expand_expr c st x) as [r st1] eqn:E1. rewrite (IH _ _ Hx), length_multi_concat, (Hx' _ _ _ E1). cbn [n_alts fold_right]. lia.
  - destruct (expand_expr c st e) as [el st1]. destruct s as [sp|]; [destruct (expand_expr c st1 sp)|];
      unfold finish_list in Hx; destruct (extract c _ _) as [ret st4]; destruct (negb _ && _);
      try destruct (extract c st4 _); injection Hx as <- <-; reflexivity.
Qed.

Section Expr.
  Variable c : xctx.
  Let N : Z := cT c + Z.of_nat (n_orig c).

  (* lengths agree with the counter; the extracted values only mention existing nonterminals *)
  Definition xinv (st : xst) : Prop :=
    length (x_perm st) = (n_orig c + x_extra st)%nat /\ length (x_extras st) = x_extra st /\
    Forall (fun nv => bounded (N + Z.of_nat (x_extra st)) (snd nv) = true) (x_extras st).

  Definition xrel (st st' : xst) : Prop :=
    x_start st' = x_start st /\ x_base st' = x_base st /\ x_fatal st' = x_fatal st /\
    (x_extra st <= x_extra st')%nat /\ exists more, x_perm st' = x_perm st ++ more.

  Lemma xrel_refl st : xrel st st.
  Proof. unfold xrel. repeat split; auto. exists []. now rewrite app_nil_r. Qed.

  Lemma xrel_trans a b d : xrel a b -> xrel b d -> xrel a d.
  Proof.
    intros (A1 & A2 & A3 & A4 & m1 & A5) (B1 & B2 & B3 & B4 & m2 & B5). unfold xrel.
    repeat split; try congruence; try lia. exists (m1 ++ m2). now rewrite B5, A5, app_assoc.
  Qed.

  Lemma xrel_extra st st' : xrel st st' -> N + Z.of_nat (x_extra st) <= N + Z.of_nat (x_extra st').
  Proof. intros (_ & _ & _ & H & _). lia. Qed.

  (* a step keeps the invariant, relates to the state before, and gives results in range *)
  Definition wf_step (st st' : xst) (alts : list expr) : Prop :=
    xinv st' /\ xrel st st' /\ Forall (bnd (N + Z.of_nat (x_extra st'))) alts.

  Lemma wf_ret st alts : xinv st -> Forall (bnd (N + Z.of_nat (x_extra st))) alts -> wf_step st st alts.
  Proof. intros Hi Ha. split; [exact Hi|]. split; [apply xrel_refl | exact Ha]. Qed.

  Lemma wf_then st st1 st2 (a1 a2 out : list expr) :
    wf_step st st1 a1 -> wf_step st1 st2 a2 ->
    (Forall (bnd (N + Z.of_nat (x_extra st2))) a1 -> Forall (bnd (N + Z.of_nat (x_extra st2))) a2 ->
     Forall (bnd (N + Z.of_nat (x_extra st2))) out) ->
    wf_step st st2 out.
  Proof.
    intros (_ & R1 & F1) (I2 & R2 & F2) Hout. split; [exact I2|]. split; [eapply xrel_trans; eauto|].
    apply Hout; [|exact F2]. eapply Forall_bounded_mono; [|exact F1]. now apply xrel_extra.
  Qed.

  Lemma extract_wf st e r st' :
    xinv st -> bounded (N + Z.of_nat (x_extra st)) e = true -> extract c st e = (r, st') -> wf_step st st' [r].
  Proof.
    intros (Hl & He & Hb) Hbe H. destruct (extract_spec _ _ _ _ _ H) as (k & nm & v & -> & Hk & _ & Hst).
    assert (Hlt : (k < length (x_extras st'))%nat) by (apply nth_error_Some; congruence).
    assert (Hr : xinv st' -> Forall (bnd (N + Z.of_nat (x_extra st'))) [ERef (cT c + Z.of_nat (n_orig c + k)) []]).
    { intros (_ & He' & _). constructor; [|constructor]. cbn [bounded]. apply Z.ltb_lt. unfold N. lia. }
    destruct Hst as [-> | Est].
    - apply wf_ret; [|apply Hr]; repeat split; auto.
    - assert (Hi' : xinv st').
      { rewrite Est. unfold xinv. cbn [x_perm x_extras x_extra]. rewrite !app_length. cbn [length].
        split; [lia|]. split; [lia|]. apply Forall_app. split.
        - eapply Forall_impl; [|exact Hb]. intros nv Hnv. eapply bounded_mono; [|exact Hnv]. lia.
        - constructor; [|constructor]. cbn [snd]. eapply bounded_mono; [|exact Hbe]. lia. }
      split; [exact Hi'|]. split; [|now apply Hr]. rewrite Est. unfold xrel. cbn [x_perm x_extra x_start x_base x_fatal].
      repeat split; auto. eexists; reflexivity.
  Qed.

  Lemma finish_list_wf st fl el1 sep' fl' alts st' :
    xinv st -> bounded (N + Z.of_nat (x_extra st)) (EList fl' el1 sep') = true -> finish_list c st fl el1 sep' fl' = (alts, st') ->
    wf_step st st' alts.
  Proof.
    unfold finish_list. intros Hi Hb H. destruct (extract c st _) as [ret st4] eqn:E3.
    pose proof (extract_wf _ _ _ _ Hi Hb E3) as W3.
    destruct (negb _ && _); [destruct (extract c st4 (EOpt ret)) as [ret2 st5] eqn:E4|]; injection H as <- <-; [|auto].
    destruct W3 as (Hi4 & Hr4 & Hb4). inversion Hb4 as [|? ? Hb4' _]; subst.
    pose proof (extract_wf _ (EOpt ret) _ _ Hi4 Hb4' E4) as W4.
    apply (wf_then st st4 st5 [ret] [ret2] [ret2] (conj Hi4 (conj Hr4 Hb4)) W4). auto.
  Qed.

  Definition wf_all (l : list expr) : Prop :=
    Forall (fun e => forall st alts st', bounded N e = true -> seps_ok e = true -> xinv st ->
                       expand_expr c st e = (alts, st') -> wf_step st st' alts) l.

  Lemma expand_choice_wf l : wf_all l -> forallb (bounded N) l = true -> forallb seps_ok l = true ->
    forall st alts st', xinv st -> expand_choice c l st = (alts, st') -> wf_step st st' alts.
  Proof.
    induction 1 as [|x l Hx _ IH]; cbn [forallb]; intros Hb Hs st alts st' Hi H; cbn [expand_choice] in H.
    - injection H as <- <-. apply wf_ret; auto.
    - apply andb_true_iff in Hb as [Hbx Hbl]. apply andb_true_iff in Hs as [Hsx Hsl].
      destruct (expand_expr c st x) as [r st1] eqn:E1. destruct (expand_choice c l st1) as [r2 st2] eqn:E2. injection H as <- <-.
      pose proof (Hx _ _ _ Hbx Hsx Hi E1) as W1. pose proof (IH Hbl Hsl _ _ _ (proj1 W1) E2) as W2.
      apply (wf_then _ _ _ _ _ _ W1 W2). intros. now apply Forall_app.
  Qed.

  Lemma expand_seq_wf l : wf_all l -> forallb (bounded N) l = true -> forallb seps_ok l = true ->
    forall acc st alts st', xinv st -> Forall (bnd (N + Z.of_nat (x_extra st))) acc -> expand_seq c l acc st = (alts, st') ->
    wf_step st st' alts.
  Proof.
    induction 1 as [|x l Hx _ IH]; cbn [forallb]; intros Hb Hs acc st alts st' Hi Ha H; cbn [expand_seq] in H.
    - injection H as <- <-. now apply wf_ret.
    - apply andb_true_iff in Hb as [Hbx Hbl]. apply andb_true_iff in Hs as [Hsx Hsl].
      destruct (expand_expr c st x) as [r st1] eqn:E1. pose proof (Hx _ _ _ Hbx Hsx Hi E1) as W1.
      assert (W1' : wf_step st st1 (multi_concat acc r)).
      { apply (wf_then st st st1 acc r); [now apply wf_ret | exact W1|]. apply (multi_concat_keeps (bounded _)); reflexivity. }
      pose proof (IH Hbl Hsl _ _ _ _ (proj1 W1') (proj2 (proj2 W1')) H) as W2.
      apply (wf_then _ _ _ _ _ _ W1' W2). auto.
  Qed.

  Lemma Forall_map_wrap B (f : expr -> expr) alts :
    (forall v, bounded B v = true -> bounded B (f v) = true) -> Forall (bnd B) alts -> Forall (bnd B) (map f alts).
  Proof. intros Hf H. apply Forall_map. eapply Forall_impl; [|exact H]. exact Hf. Qed.

  (* under the static predicate: no Fatal, and every alternative mentions existing nonterminals only *)
  Theorem expand_expr_wf : forall e st alts st',
    bounded N e = true -> seps_ok e = true -> xinv st -> expand_expr c st e = (alts, st') -> wf_step st st' alts.
  Proof.
    induction e using expr_ind2; intros st alts st' Hb Hs Hi Hx; try rewrite expand_list_eq in Hx; cbn [expand_expr] in Hx;
      cbn [bounded seps_ok] in Hb, Hs;
      try (injection Hx as <- <-; apply wf_ret; [exact Hi|];
           constructor; [|constructor]; apply (bounded_mono N); [lia | exact Hb]);
      try (destruct (expand_expr c st e) as [r st1] eqn:E1; injection Hx as <- <-;
           destruct (IHe _ _ _ Hb Hs Hi E1) as (Hi1 & Hr1 & Hf1); split; [|split]; auto;
           apply Forall_map_wrap; auto; intros v Hv; now destruct (is_empty_e v));
      try (destruct (extract c st _) as [r st1] eqn:E1; injection Hx as <- <-;
           eapply extract_wf; [exact Hi | | exact E1]; reflexivity).
    - destruct (expand_expr c st e) as [r st1] eqn:E1. injection Hx as <- <-.
      destruct (IHe _ _ _ Hb Hs Hi E1) as (Hi1 & Hr1 & Hf1). split; [|split]; auto. apply Forall_app. auto.
    - exact (expand_choice_wf l H Hb Hs _ _ _ Hi Hx).
    - exact (expand_seq_wf l H Hb Hs [EEmpty] _ _ _ Hi (Forall_cons EEmpty eq_refl (Forall_nil _)) Hx).
    - apply andb_true_iff in Hb as [Hbe Hbs]. apply andb_true_iff in Hs as [Hse Hss].
      destruct (expand_expr c st e) as [el st1] eqn:E1.
      pose proof (IHe _ _ _ Hbe Hse Hi E1) as W1.
      assert (Hel1 : Forall (bnd (N + Z.of_nat (x_extra st1))) [one_or_choice el]).
      { constructor; [|constructor]. destruct W1 as (_ & _ & Hf1). destruct el as [|x [|y r]]; cbn [one_or_choice bounded];
          [reflexivity | now inversion Hf1 | now apply forallb_Forall]. }
      destruct s as [sp|].
      + apply andb_true_iff in Hss as [Hss Hone]. apply Nat.eqb_eq in Hone.
        destruct (expand_expr c st1 sp) as [spl st2] eqn:E2.
        pose proof (H sp eq_refl _ _ _ Hbs Hss (proj1 W1) E2) as W2.
        (* a simple separator: one alternative, so no Fatal *)
        rewrite <- (expand_expr_length c _ _ _ _ E2) in Hone. destruct spl as [|x [|y r]]; try discriminate Hone. cbn [hd] in Hx.
        assert (W12 : wf_step st st2 [one_or_choice el; x]).
        { apply (wf_then st st1 st2 [one_or_choice el] [x]); [exact (conj (proj1 W1) (conj (proj1 (proj2 W1)) Hel1)) | exact W2|].
          intros Ha Hb'. constructor; [now inversion Ha | exact Hb']. }
        destruct W12 as (Hi2 & Hr2 & Hf2).
        assert (Hb3 : bounded (N + Z.of_nat (x_extra st2)) (EList (Z.lor f 1) (one_or_choice el) (Some x)) = true).
        { cbn [bounded]. inversion Hf2 as [|? ? Ha Hf2']; subst. inversion Hf2' as [|? ? Hb' _]; subst. now rewrite Ha, Hb'. }
        destruct (finish_list_wf _ _ _ _ _ _ _ Hi2 Hb3 Hx) as (I3 & R3 & F3).
        split; [exact I3|]. split; [eapply xrel_trans; eauto | exact F3].
      + assert (Hb3 : bounded (N + Z.of_nat (x_extra st1)) (EList f (one_or_choice el) None) = true).
        { cbn [bounded]. inversion Hel1; subst. now rewrite andb_true_r. }
        destruct (finish_list_wf _ _ _ _ _ _ _ (proj1 W1) Hb3 Hx) as (I3 & R3 & F3).
        split; [exact I3|]. split; [eapply xrel_trans; [exact (proj1 (proj2 W1)) | exact R3] | exact F3].
  Qed.
End Expr.
Definition cN (c : xctx) : Z := cT c + Z.of_nat (n_orig c).

Lemma expand_rule_wf c rule st alts st' :
  bounded (cN c) rule = true -> seps_ok_rule rule = true -> xinv c st -> expand_rule c st rule = (alts, st') ->
  wf_step c st st' alts.
Proof.
  intros Hb Hs Hi Hx.
  destruct rule; cbn [expand_rule seps_ok_rule] in Hx, Hs; try exact (expand_expr_wf c _ _ _ _ Hb Hs Hi Hx).
  destruct (expand_expr c st rule) as [r st1] eqn:E1. injection Hx as <- <-. cbn [bounded] in Hb.
  destruct (expand_expr_wf c _ _ _ _ Hb Hs Hi E1) as (A & B & C). split; [exact A|]. split; [exact B|].
  now apply Forall_map_wrap.
Qed.

Lemma expand_rules_wf c rules : forall out st out' st',
  forallb (bounded (cN c)) rules = true -> forallb seps_ok_rule rules = true ->
  xinv c st -> Forall (bnd (cN c + Z.of_nat (x_extra st))) out ->
  expand_rules c rules out st = (out', st') -> wf_step c st st' out'.
Proof.
  induction rules as [|x rules IH]; cbn [forallb]; intros out st out' st' Hb Hs Hi Ho Hx; cbn [expand_rules fold_left] in Hx.
  - injection Hx as <- <-. now apply wf_ret.
  - apply andb_true_iff in Hb as [Hbx Hbl]. apply andb_true_iff in Hs as [Hsx Hsl].
    destruct (expand_rule c st x) as [r st1] eqn:E1. pose proof (expand_rule_wf c _ _ _ _ Hbx Hsx Hi E1) as W1.
    assert (W1' : wf_step c st st1 (out ++ r)).
    { apply (wf_then c st st st1 out r); [now apply wf_ret | exact W1|]. intros. now apply Forall_app. }
    pose proof (IH _ _ _ _ Hbl Hsl (proj1 W1') (proj2 (proj2 W1')) Hx) as W2.
    apply (wf_then c _ _ _ _ _ _ W1' W2). auto.
Qed.

Lemma expand_nonterm_wf c v st v' st' :
  bounded (cN c) v = true -> seps_ok_nt v = true -> xinv c st -> expand_nonterm c st v = (v', st') ->
  wf_step c st st' [v'].
Proof.
  intros Hb Hs Hi. rewrite expand_nonterm_eq. destruct (kept v) eqn:Ek.
  - intro H. injection H as <- <-. apply wf_ret; [exact Hi|]. constructor; [|constructor]. eapply bounded_mono; [|exact Hb]. unfold cN. lia.
  - destruct (expand_rules c (alts_of v) [] st) as [out st1] eqn:E. intro H. injection H as <- <-.
    assert (Hbr : forallb (bounded (cN c)) (alts_of v) = true) by (destruct v; cbn [alts_of forallb bounded] in *; rewrite ?Hb; auto).
    assert (Hsr : forallb seps_ok_rule (alts_of v) = true) by (destruct v; try discriminate; cbn in *; rewrite ?Hs; auto).
    destruct (expand_rules_wf c _ _ _ _ _ Hbr Hsr Hi (Forall_nil _) E) as (A & B & C). split; [exact A|]. split; [exact B|].
    constructor; [|constructor]. cbn [bounded]. apply forallb_forall. intros x Hx. apply (proj1 (collapse_empty_in _ _)) in Hx.
    rewrite Forall_forall in C. now apply C.
Qed.
Lemma upd_nat_length l : forall i v, length (upd_nat l i v) = length l.
Proof. induction l as [|x l IH]; intros [|i] v; cbn [upd_nat length]; auto. Qed.

Lemma nth_upd_nat_same l : forall i v, (i < length l)%nat -> nth i (upd_nat l i v) O = v.
Proof. induction l as [|x l IH]; intros [|i] v H; cbn [upd_nat length nth] in *; try lia; auto. apply IH. lia. Qed.

Lemma nth_upd_nat_other l : forall i j v, i <> j -> nth j (upd_nat l i v) O = nth j l O.
Proof.
  induction l as [|x l IH]; intros [|i] [|j] v H; cbn [upd_nat nth]; auto; try congruence.
Qed.

Definition pos_vals (perm : list nat) (ps : list nat) : list nat := map (fun j => nth j perm O) ps.

Lemma assign_fold (s : nat) : forall sorted perm k, NoDup sorted -> (forall x, In x sorted -> (x < length perm)%nat) ->
  let perm' := fst (fold_left (fun '(perm, k) nt => (upd_nat perm nt (s + k)%nat, S k)) sorted (perm, k)) in
  length perm' = length perm /\ (forall j, ~ In j sorted -> nth j perm' O = nth j perm O) /\
  pos_vals perm' sorted = seq (s + k) (length sorted).
Proof.
  induction sorted as [|x rest IH]; intros perm k Hnd Hlt; cbn [fold_left fst].
  - repeat split; auto.
  - inversion Hnd as [|? ? Hx Hnd']; subst.
    destruct (IH (upd_nat perm x (s + k)%nat) (S k) Hnd') as (H1 & H2 & H3).
    { intros y Hy. rewrite upd_nat_length. apply Hlt. now right. }
    cbv zeta in H1, H2, H3 |- *. rewrite upd_nat_length in H1. split; [exact H1|]. split.
    + intros j Hj. rewrite H2 by (intro; apply Hj; now right). apply nth_upd_nat_other. intro; apply Hj; now left.
    + unfold pos_vals in *. cbn [map length seq]. f_equal.
      * rewrite (H2 x Hx). apply nth_upd_nat_same. apply Hlt. now left.
      * rewrite H3. f_equal. lia.
Qed.

Lemma map_seq_shift (f : nat -> nat) b : forall k s, (forall j, (s <= j < s + k)%nat -> f j = (j + b)%nat) -> map f (seq s k) = seq (s + b) k.
Proof.
  induction k as [|k IH]; intros s H; cbn [seq map]; [reflexivity|]. f_equal; [apply H; lia|].
  rewrite IH by (intros j Hj; apply H; lia). reflexivity.
Qed.

Lemma perm_4 {A} (a b c d : list A) : Permutation ((a ++ b) ++ (c ++ d)) ((a ++ c) ++ (b ++ d)).
Proof.
  rewrite <- !app_assoc. apply Permutation_app_head. rewrite !app_assoc. apply Permutation_app_tail. apply Permutation_app_comm.
Qed.

Lemma map_nth_seq (l : list nat) : map (fun j => nth j l O) (seq 0 (length l)) = l.
Proof.
  induction l as [|x l IH]; cbn [length seq map nth]; [reflexivity|]. f_equal.
  rewrite <- seq_shift, map_map. exact IH.
Qed.

(* sortTail gives the slots start+base, start+base+1, ... to the local list (originals since the last sort, nonterminals
   extracted since); when nothing was extracted it relies on the slots given in advance *)
Lemma sort_tail_slots c st :
  (x_base st <= x_extra st)%nat -> (S (c_curr c) <= n_orig c)%nat -> length (x_extras st) = x_extra st ->
  length (x_perm st) = (n_orig c + x_extra st)%nat -> (x_start st <= S (c_curr c))%nat ->
  (x_extra st = x_base st -> forall j, (x_start st <= j < S (c_curr c))%nat -> nth j (x_perm st) O = (j + x_base st)%nat) ->
  let st' := sort_tail c st in
  let local := seq (x_start st) (S (c_curr c) - x_start st) ++ seq (n_orig c + x_base st) (x_extra st - x_base st) in
  (x_extras st' = x_extras st /\ x_extra st' = x_extra st /\ x_start st' = S (c_curr c) /\ x_base st' = x_extra st /\
   x_fatal st' = x_fatal st) /\
  length (x_perm st') = length (x_perm st) /\ (forall j, ~ In j local -> nth j (x_perm st') O = nth j (x_perm st) O) /\
  Permutation (pos_vals (x_perm st') local) (seq (x_start st + x_base st) (length local)).
Proof.
  intros Hbe Hcur Hle Hl Hst Hpre st' local. subst st'. unfold sort_tail. rewrite Hle.
  replace (n_orig c + x_extra st - (x_extra st - x_base st))%nat with (n_orig c + x_base st)%nat by lia. fold local.
  destruct (Nat.eqb (x_extra st - x_base st) 0) eqn:Esz; cbn [x_extras x_extra x_start x_base x_fatal x_perm].
  - apply Nat.eqb_eq in Esz. repeat split; auto. unfold local, pos_vals. rewrite Esz. cbn [seq]. rewrite app_nil_r, seq_length.
    rewrite (map_seq_shift _ (x_base st)) by (intros j Hj; apply Hpre; lia). apply Permutation_refl.
  - set (sorted := sort_by_name _ local). pose proof (sort_by_name_perm (fun i => nt_name_at c st (Z.of_nat i)) local) as HPs. fold sorted in HPs.
    assert (Hnds : NoDup sorted).
    { eapply Permutation_NoDup; [apply Permutation_sym; exact HPs | apply sort_tail_local_nodup; lia]. }
    assert (Hlt : forall x, In x sorted -> (x < length (x_perm st))%nat).
    { intros x Hx. apply (Permutation_in _ HPs), in_app_or in Hx as [Hx|Hx]; apply in_seq in Hx; lia. }
    destruct (assign_fold (x_start st + x_base st) sorted (x_perm st) O Hnds Hlt) as (A1 & A2 & A3). cbv zeta in A1, A2, A3.
    repeat split; auto.
    + intros j Hj. apply A2. intro Hin. apply Hj. now apply (Permutation_in _ HPs).
    + rewrite Nat.add_0_r in A3. rewrite <- (Permutation_length HPs), <- A3.
      apply Permutation_map, Permutation_sym, HPs.
Qed.

(* so the sorted positions stay mapped onto an initial segment of the slots *)
Lemma sort_tail_sorted c st :
  (x_base st <= x_extra st)%nat -> (S (c_curr c) <= n_orig c)%nat -> length (x_extras st) = x_extra st ->
  length (x_perm st) = (n_orig c + x_extra st)%nat -> (x_start st <= S (c_curr c))%nat ->
  (x_extra st = x_base st -> forall j, (x_start st <= j < S (c_curr c))%nat -> nth j (x_perm st) O = (j + x_base st)%nat) ->
  Permutation (pos_vals (x_perm st) (seq 0 (x_start st) ++ seq (n_orig c) (x_base st))) (seq 0 (x_start st + x_base st)) ->
  let st' := sort_tail c st in
  (x_extras st' = x_extras st /\ x_extra st' = x_extra st /\ x_start st' = S (c_curr c) /\ x_base st' = x_extra st /\
   x_fatal st' = x_fatal st) /\ length (x_perm st') = length (x_perm st) /\
  Permutation (pos_vals (x_perm st') (seq 0 (S (c_curr c)) ++ seq (n_orig c) (x_extra st))) (seq 0 (S (c_curr c) + x_extra st)).
Proof.
  intros Hbe Hcur Hle Hl Hst Hpre Hperm. destruct (sort_tail_slots c st Hbe Hcur Hle Hl Hst Hpre) as (E & L1 & L2 & L3).
  split; [exact E|]. split; [exact L1|]. clear E L1 Hpre Hle Hl.
  set (i := c_curr c) in *. set (n := n_orig c) in *. set (size := (x_extra st - x_base st)%nat) in *.
  set (local := seq (x_start st) (S i - x_start st) ++ seq (n + x_base st) size) in *.
  replace (S i) with (x_start st + (S i - x_start st))%nat at 1 by lia.
  replace (x_extra st) with (x_base st + size)%nat at 1 by lia.
  rewrite (seq_app (x_start st) (S i - x_start st) 0), (seq_app (x_base st) size n), !Nat.add_0_l.
  eapply Permutation_trans; [apply Permutation_map, perm_4|]. fold local. rewrite map_app.
  replace (S i + x_extra st)%nat with ((x_start st + x_base st) + length local)%nat by (unfold local; rewrite app_length, !seq_length; lia).
  rewrite (seq_app (x_start st + x_base st)), !Nat.add_0_l. apply Permutation_app; [|exact L3].
  rewrite (map_ext_in _ (fun j => nth j (x_perm st) O)); [exact Hperm|].
  intros j Hj. apply L2. intro Hin. unfold local in Hin.
  apply in_app_or in Hj as [Hj|Hj]; apply in_seq in Hj; apply in_app_or in Hin as [Hin|Hin]; apply in_seq in Hin; lia.
Qed.
(* a slot given in advance to nonterminal i and slots appended for extracted ones leave the sorted region alone *)
Lemma slots_step perm more i e start base n0 :
  length perm = (n0 + e)%nat -> (start <= i < n0)%nat -> (base <= e)%nat ->
  let perm2 := upd_nat perm i (i + e)%nat ++ more in
  pos_vals perm2 (seq 0 start ++ seq n0 base) = pos_vals perm (seq 0 start ++ seq n0 base) /\
  ((e = base -> forall j, (start <= j < i)%nat -> nth j perm O = (j + base)%nat) ->
   e = base -> forall j, (start <= j < S i)%nat -> nth j perm2 O = (j + base)%nat).
Proof.
  intros Hl Hi Hbe perm2.
  assert (Hnth : forall j, (j < length perm)%nat -> j <> i -> nth j perm2 O = nth j perm O).
  { intros j Hj Hne. unfold perm2. rewrite app_nth1 by (now rewrite upd_nat_length). apply nth_upd_nat_other. congruence. }
  split.
  - apply map_ext_in. intros j Hj. apply in_app_or in Hj as [Hj|Hj]; apply in_seq in Hj; apply Hnth; lia.
  - intros Hd Heq j Hj. destruct (Nat.eq_dec j i) as [->|Hne]; [|rewrite Hnth by lia; apply Hd; [exact Heq | lia]].
    unfold perm2. rewrite app_nth1, nth_upd_nat_same by (rewrite ?upd_nat_length; lia). lia.
Qed.

Section Phase1Inv.
  Variable m : model.
  Let n := length (m_nonterms m).
  Let N : Z := nterms m + Z.of_nat n.

  Lemma cN_ctx i : cN (ctx_at m i) = N.
  Proof. unfold cN. rewrite n_orig_ctx. reflexivity. Qed.

  Definition xinv' (st : xst) : Prop :=
    length (x_perm st) = (n + x_extra st)%nat /\ length (x_extras st) = x_extra st /\
    Forall (fun nv => bounded (N + Z.of_nat (x_extra st)) (snd nv) = true) (x_extras st).

  Lemma xinv_ctx i st : xinv (ctx_at m i) st <-> xinv' st.
  Proof. unfold xinv, xinv'. fold (cN (ctx_at m i)). rewrite cN_ctx, n_orig_ctx. tauto. Qed.

  (* after the nonterminals before i: the sorted region (originals before x_start, x_base extracted ones) fills an
     initial segment of the slots; while nothing was extracted, later originals hold the slots given in advance *)
  Definition pinv0 (i : nat) (vals : list expr) (st : xst) : Prop :=
    xinv' st /\ (x_start st <= i <= n)%nat /\ (x_base st <= x_extra st)%nat /\
    Permutation (pos_vals (x_perm st) (seq 0 (x_start st) ++ seq n (x_base st))) (seq 0 (x_start st + x_base st)) /\
    (x_extra st = x_base st -> forall j, (x_start st <= j < i)%nat -> nth j (x_perm st) O = (j + x_base st)%nat) /\
    Forall (bnd (N + Z.of_nat (x_extra st))) vals /\ length vals = i /\ x_fatal st = false.

  Definition pinv (i : nat) (vals : list expr) (st : xst) : Prop :=
    pinv0 i vals st /\ (i = n -> x_start st = n /\ x_base st = x_extra st).

  Lemma nonterm_pinv0 i vals st v st2 :
    (i < n)%nat -> bounded N (value_at m i) = true -> seps_ok_nt (value_at m i) = true -> pinv0 i vals st ->
    expand_nonterm (ctx_at m i)
      (mkX (x_extras st) (upd_nat (x_perm st) i (i + x_extra st)%nat) (x_extra st) (x_start st) (x_base st) (x_fatal st))
      (value_at m i) = (v, st2) ->
    pinv0 (S i) (vals ++ [v]) st2.
  Proof.
    intros Hi Hb Hs ((Hl & Hle & Hbx) & Hst & Hbe & Hperm & Hd & Hv & Hlv & Hf) E.
    rewrite <- (cN_ctx i) in Hb. apply expand_nonterm_wf in E; [|exact Hb | exact Hs|].
    2:{ apply xinv_ctx. unfold xinv'. cbn [x_perm x_extras x_extra]. rewrite upd_nat_length. repeat split; auto. }
    destruct E as (Hx2 & (Hs2 & Hb2 & Hf2 & Hle2 & more & Hp2) & Hbv). apply Forall_inv in Hbv.
    cbn [x_perm x_extra x_start x_base x_fatal] in Hs2, Hb2, Hf2, Hle2, Hp2.
    fold (cN (ctx_at m i)) in Hbv. rewrite cN_ctx in Hbv. apply xinv_ctx in Hx2.
    destruct (slots_step (x_perm st) more i (x_extra st) (x_start st) (x_base st) n Hl) as [Hpos Hpre]; [lia | lia|].
    unfold pinv0. rewrite Hs2, Hb2, Hf2, Hp2, Hpos. split; [exact Hx2|]. split; [lia|]. split; [lia|]. split; [exact Hperm|].
    split; [intro Heq; apply Hpre; [exact Hd | lia]|]. split; [|split; [rewrite app_length; cbn [length]; lia | exact Hf]].
    apply Forall_app. split; [eapply Forall_bounded_mono; [|exact Hv]; lia | constructor; [exact Hbv | constructor]].
  Qed.

  Lemma sort_tail_pinv i vals st : (i < n)%nat -> pinv0 (S i) vals st -> pinv (S i) vals (sort_tail (ctx_at m i) st).
  Proof.
    intros Hi ((Hl & Hle & Hbx) & Hst & Hbe & Hperm & Hd & Hv & Hlv & Hf).
    pose proof (sort_tail_sorted (ctx_at m i) st) as SL. rewrite n_orig_ctx in SL. cbn [c_curr ctx_at] in SL. fold n in SL.
    destruct (SL Hbe ltac:(lia) Hle Hl ltac:(lia) Hd Hperm) as ((e1 & e2 & e3 & e4 & e5) & L1 & L3). clear SL.
    unfold pinv, pinv0, xinv'. rewrite e1, e2, e3, e4, e5, L1.
    split; [|auto]. split; [repeat split; assumption|]. split; [lia|]. split; [lia|]. split; [exact L3|].
    split; [intros _ j Hj; lia | auto].
  Qed.

  Lemma step_pinv i vals st vals' st' :
    (i < n)%nat -> bounded N (value_at m i) = true -> seps_ok_nt (value_at m i) = true ->
    pinv i vals st -> step m (vals, st) i = (vals', st') -> pinv (S i) vals' st'.
  Proof.
    intros Hi Hb Hs [Hp _]. unfold step. fold (value_at m i).
    match goal with |- context [expand_nonterm (ctx_at m i) ?s (value_at m i)] => destruct (expand_nonterm (ctx_at m i) s (value_at m i)) as [v st2] eqn:E end.
    apply (nonterm_pinv0 i vals st v st2 Hi Hb Hs Hp) in E. intro H. injection H as <- <-.
    destruct (_ && _ && _) eqn:Edelay; [|now apply sort_tail_pinv].
    (* delayed: the next nonterminal is there and belongs to the same group *)
    split; [exact E|]. apply andb_true_iff in Edelay as [Ed _]. apply andb_true_iff in Ed as [_ Ed]. apply Nat.ltb_lt in Ed. fold n in Ed. lia.
  Qed.

  Hypothesis Hwf : wf_model m = true.

  Lemma wf_at i : (i < n)%nat -> bounded N (value_at m i) = true /\ seps_ok_nt (value_at m i) = true.
  Proof.
    intro Hi. unfold wf_model in Hwf. rewrite forallb_forall in Hwf.
    specialize (Hwf (nth i (m_nonterms m) (mkNt [] [] EEmpty 0)) (nth_In _ _ Hi)).
    apply andb_true_iff in Hwf. exact Hwf.
  Qed.

  Theorem phase1_pinv vals st : phase1 m = (vals, st) -> pinv n vals st.
  Proof.
    apply (phase1_inv m pinv).
    - unfold pinv, pinv0, xinv', init. cbn [x_perm x_extras x_extra x_start x_base x_fatal]. rewrite repeat_length.
      repeat split; auto; try lia.
    - intros i vals0 st0 vals' st' Hi Hp Hs. destruct (wf_at i Hi) as [Hb Hs']. eapply step_pinv; eauto.
  Qed.
End Phase1Inv.

Theorem wf_model_expand_checks m : wf_model m = true -> expand_checks m = true.
Proof.
  intro Hwf. unfold expand_checks. destruct (phase1 m) as [vals st] eqn:Hp.
  destruct (phase1_pinv m Hwf vals st Hp) as (((Hl & Hle & Hbx) & Hst & Hbe & Hperm & _ & Hv & Hlv & Hf) & He).
  destruct (He eq_refl) as [Hs Hb].
  set (n := length (m_nonterms m)) in *.
  assert (HlB : length (vals ++ map snd (x_extras st)) = (n + x_extra st)%nat) by (rewrite app_length, map_length; lia).
  rewrite HlB. rewrite Hf. cbn [negb andb].
  apply andb_true_iff. split; [apply andb_true_iff; split|].
  - apply forallb_forall. intros nt Hnt. unfold wf_model in Hwf. rewrite forallb_forall in Hwf.
    specialize (Hwf nt Hnt). apply andb_true_iff in Hwf as [H1 _]. exact H1.
  - apply perm_ok_iff. rewrite Hs, Hb in Hperm. rewrite <- seq_app in Hperm.
    unfold pos_vals in Hperm. rewrite <- Hl, map_nth_seq in Hperm. rewrite Hl in Hperm. exact Hperm.
  - apply forallb_Forall. replace (nterms m + Z.of_nat (n + x_extra st)) with (nterms m + Z.of_nat n + Z.of_nat (x_extra st)) by lia.
    apply Forall_app. split; [exact Hv|]. apply Forall_forall. intros v Hin. apply in_map_iff in Hin as (nv & <- & Hnv).
    rewrite Forall_forall in Hbx. exact (Hbx nv Hnv).
Qed.

Theorem expand_correct_wf setden m :
  wf_model m = true ->
  forall X, nterms m <= X < nterms m + Z.of_nat (length (m_nonterms m)) -> forall w,
    lfp (nterms m) setden (map nt_value (m_nonterms m)) X w <->
    lfp (nterms m) setden (map snd (res_nonterms (expand m))) (perm_sym (nterms m) (x_perm (snd (phase1 m))) X) w.
Proof.
  intros Hwf. now apply expand_correct_checked, wf_model_expand_checks.
Qed.

(* C13 with derivations: what the grammar to_cfg reads from the expanded model derives from the renamed nonterminal is
   the extended language of the original one (to_cfg's success and nonneg_rules are executable; sets resolved correctly) *)
Theorem expand_correct_derives_checked (setden : Z -> Z -> Prop) setterms m g :
  wf_model m = true ->
  to_cfg (nterms m) setterms (map snd (res_nonterms (expand m))) = Some g -> nonneg_rules g = true ->
  (forall i a, setden i a <-> In a (setterms i)) ->
  (forall i a, In a (setterms i) -> 0 <= a < nterms m) ->
  forall X, nterms m <= X < nterms m + Z.of_nat (length (m_nonterms m)) -> forall w,
    lfp (nterms m) setden (map nt_value (m_nonterms m)) X w <->
    derives g (perm_sym (nterms m) (x_perm (snd (phase1 m))) X) w.
Proof.
  intros Hwf Hg Hnn Hs Hr X HX w. rewrite (expand_correct_wf setden m Hwf X HX w).
  apply (to_cfg_language_checked (nterms m) setden setterms _ g); auto.
  unfold perm_sym. destruct (X <? nterms m); lia.
Qed.
