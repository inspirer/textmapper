(* Reading the exported .y file back (Syn/BisonRead.v): for a well-formed grammar (bison_wf) the reader applied to
   the model's rendering returns the rules, grouped by nonterminal, with their right-hand side symbols and %prec
   terminals, and the declarations in front of them. The text is first ++ unl L for a list of lines L, none with
   a newline or equal to "%%" (line_ok); every rule body is the join of its words. *)
From Coq Require Import List ZArith Bool Lia.
From TM Require Import Lib.ListX Util.Ident Syn.Expr Syn.Expand_proofs Syn.Sets Syn.Bison Syn.Bison_proofs Syn.BisonRead.
Import ListNotations.
Local Open Scope Z_scope.

Definition lacks (d : Z) (w : bytes) : bool := forallb (fun c => negb (c =? d)) w.

Lemma lacks_In d w : lacks d w = true -> ~ In d w.
Proof. intros H K. apply (proj1 (forallb_forall _ _) H) in K. now rewrite Z.eqb_refl in K. Qed.

Lemma lacks_app d a b : lacks d (a ++ b) = lacks d a && lacks d b.
Proof. apply forallb_app. Qed.

Lemma lacks_join d sep ws :
  lacks d sep = true -> Forall (fun w => lacks d w = true) ws -> lacks d (join sep ws) = true.
Proof.
  intro Hs. induction 1 as [|a ws Ha _ IH]; [reflexivity|]. destruct ws; [exact Ha|].
  rewrite join_cons2, !lacks_app, Ha, Hs. exact IH.
Qed.

Lemma split_on_nosep sep w : ~ In sep w -> split_on sep w = [w].
Proof.
  induction w as [|c w IH]; intro H; [reflexivity|]. cbn [split_on].
  destruct (Z.eqb_spec c sep) as [->|N]; [exfalso; apply H; now left|].
  rewrite IH by (intro K; apply H; now right). reflexivity.
Qed.

Lemma split_on_app sep w rest : ~ In sep w -> split_on sep (w ++ sep :: rest) = w :: split_on sep rest.
Proof.
  induction w as [|c w IH]; intro H; cbn [app split_on].
  - now rewrite Z.eqb_refl.
  - destruct (Z.eqb_spec c sep) as [->|N]; [exfalso; apply H; now left|].
    rewrite IH by (intro K; apply H; now right). reflexivity.
Qed.

Definition unl (L : list bytes) : bytes := flat_map (fun l => nl ++ l) L.

Lemma unl_app L1 L2 : unl (L1 ++ L2) = unl L1 ++ unl L2.
Proof. apply flat_map_app. Qed.

Lemma unl_cons l L : unl (l :: L) = nl ++ l ++ unl L.
Proof. unfold unl. cbn [flat_map]. now rewrite <- app_assoc. Qed.

Lemma unl_map {A} (f : A -> bytes) l : flat_map (fun x => nl ++ f x) l = unl (map f l).
Proof. induction l as [|a l IH]; [reflexivity|]. cbn [flat_map map]. rewrite unl_cons, IH. now rewrite <- app_assoc. Qed.

Lemma split_on_unl L : Forall (fun l => lacks 10 l = true) L ->
  forall first, lacks 10 first = true -> split_on 10 (first ++ unl L) = first :: L.
Proof.
  induction 1 as [|a L Ha HL IH]; intros first Hf; apply lacks_In in Hf.
  - cbn. rewrite app_nil_r. now apply split_on_nosep.
  - rewrite unl_cons. unfold nl. cbn [app]. rewrite split_on_app by exact Hf. f_equal. apply IH. exact Ha.
Qed.

Lemma words_join ws : Forall spaceless ws -> words (join [32] ws) = ws.
Proof.
  unfold words. induction ws as [|a ws IH]; intro H; [reflexivity|].
  inversion H as [|? ? [Ha Hsp] Hws]; subst. destruct ws as [|b ws].
  - cbn [join]. rewrite split_on_nosep by exact Hsp. cbn [filter]. destruct a; [congruence | reflexivity].
  - rewrite join_cons2. cbn [app]. rewrite split_on_app by exact Hsp. cbn [filter].
    destruct a; [congruence|]. cbn [is_nil negb]. f_equal. apply IH. exact Hws.
Qed.

Lemma filter_flat_map {A B} (p : B -> bool) (f : A -> list B) l :
  filter p (flat_map f l) = flat_map (fun x => filter p (f x)) l.
Proof. induction l as [|a l IH]; [reflexivity|]. cbn [flat_map]. now rewrite filter_app, IH. Qed.

Lemma all_some_map {A B} (f : A -> option B) (h : A -> B) l :
  Forall (fun a => f a = Some (h a)) l -> all_some (map f l) = Some (map h l).
Proof. induction 1 as [|a l Ha Hl IH]; [reflexivity|]. cbn [map all_some]. now rewrite Ha, IH. Qed.

Lemma starts_with_app p x : starts_with p (p ++ x) = true.
Proof. induction p as [|a p IH]; [reflexivity|]. cbn [app starts_with]. now rewrite Z.eqb_refl, IH. Qed.

Lemma fold_snoc {A X D} (step : D -> bytes -> D) (line : A -> bytes) (item : A -> X) (mk : list X -> D) l :
  (forall a S, In a l -> step (mk S) (line a) = mk (S ++ [item a])) ->
  forall S, fold_left step (map line l) (mk S) = mk (S ++ map item l).
Proof.
  induction l as [|a l IH]; intros H S; cbn [map fold_left]; [now rewrite app_nil_r|].
  rewrite H by now left. rewrite IH by (intros; apply H; now right). now rewrite <- app_assoc.
Qed.

(* a word of the file: not empty, no blank, no newline *)
Definition word_ok (w : bytes) : bool := negb (is_nil w) && lacks 32 w && lacks 10 w.

Lemma word_ok_spaceless w : word_ok w = true -> spaceless w.
Proof.
  intro H. apply andb_true_iff in H as [H _]. apply andb_true_iff in H as [H1 H2].
  split; [now intros -> | now apply lacks_In].
Qed.

Lemma word_ok_line w : word_ok w = true -> lacks 10 w = true.
Proof. intro H. now apply andb_true_iff in H as [_ H]. Qed.

(* the characters excluded from names differ from every character of a name *)
Lemma ok_char_neq c d : ok_char d = false -> ok_char c = true -> (c =? d) = false /\ (d =? c) = false.
Proof. intros Hd Hc. assert (c <> d) by congruence. split; apply Z.eqb_neq; auto. Qed.

Lemma ok_lacks d w : ok_char d = false -> forallb ok_char w = true -> lacks d w = true.
Proof.
  intros Hd H. unfold lacks. rewrite forallb_forall in *. intros c Hc.
  now rewrite (proj1 (ok_char_neq c d Hd (H c Hc))).
Qed.

Lemma name_word_ok w : name_ok w = true -> word_ok w = true.
Proof.
  intro H. apply andb_true_iff in H as [H1 H2]. unfold word_ok.
  now rewrite H1, (ok_lacks 32 w eq_refl H2), (ok_lacks 10 w eq_refl H2).
Qed.

Lemma name_ok_head w : name_ok w = true -> exists c r, w = c :: r /\ ok_char c = true.
Proof.
  intro H. apply andb_true_iff in H as [H1 H2]. destruct w as [|c r]; [discriminate|].
  exists c, r. split; [reflexivity|]. now apply andb_true_iff in H2 as [H2 _].
Qed.

Lemma name_ok_keep w : name_ok w = true -> keep_word w = true.
Proof.
  intro H. destruct (name_ok_head w H) as (c & r & -> & Hc).
  unfold keep_word, s_mark_open, s_empty. cbn [starts_with bytes_eqb].
  now rewrite (proj2 (ok_char_neq c 47 eq_refl Hc)), (proj1 (ok_char_neq c 37 eq_refl Hc)).
Qed.

Lemma name_ok_not_prec w : name_ok w = true -> bytes_eqb w w_prec = false.
Proof.
  intro H. destruct (name_ok_head w H) as (c & r & -> & Hc).
  unfold w_prec. cbn [bytes_eqb]. now rewrite (proj1 (ok_char_neq c 37 eq_refl Hc)).
Qed.

Lemma distinct_NoDup l : distinct l = true -> NoDup l.
Proof.
  induction l as [|x r IH]; cbn [distinct]; intro H; constructor; apply andb_true_iff in H as [H1 H2]; [|auto].
  intro Hin. apply negb_true_iff in H1. rewrite (proj2 (existsb_exists _ _)) in H1; [discriminate|].
  exists x. split; [exact Hin | now apply bytes_eqb_iff].
Qed.

Lemma find_inj (f : Z -> bytes) l s :
  (forall x y, In x l -> In y l -> f x = f y -> x = y) -> In s l ->
  find (fun x => bytes_eqb (f x) (f s)) l = Some s.
Proof.
  induction l as [|a l IH]; intros Hinj Hs; [destruct Hs|]. cbn [find].
  destruct (bytes_eqb (f a) (f s)) eqn:E.
  - apply bytes_eqb_iff in E. f_equal. apply Hinj; auto; now left.
  - destruct Hs as [->|Hs]; [rewrite (proj2 (bytes_eqb_iff _ _) eq_refl) in E; discriminate|].
    apply IH; auto. intros x y Hx Hy. apply Hinj; now right.
Qed.

Lemma in_nat_range n s : In s (map Z.of_nat (seq 0 n)) <-> 0 <= s < Z.of_nat n.
Proof. rewrite <- (Nat2Z.id n) at 1. apply in_map_of_nat_seq. Qed.

Lemma in_range_iff lo hi s : in_range lo hi s = true <-> lo <= s < hi.
Proof. unfold in_range. rewrite andb_true_iff, Z.leb_le, Z.ltb_lt. tauto. Qed.

Lemma rules_by_nonterm_all {A} (K : Z -> Prop) (P : Z -> A -> Prop) (rules : list (Z * A)) :
  Forall (fun p => K (fst p) /\ P (fst p) (snd p)) rules ->
  Forall (fun grp => K (fst grp) /\ Forall (P (fst grp)) (snd grp)) (rules_by_nonterm rules).
Proof.
  unfold rules_by_nonterm. generalize (@nil (Z * list A)) (Forall_nil (fun grp => K (fst grp) /\ Forall (P (fst grp)) (snd grp))).
  induction rules as [|[lhs r] rest IH]; intros g0 H0 Hr; [exact H0|]. cbn [fold_left].
  inversion Hr as [|? ? [Hk Hp] Hrest]; subst. cbn [fst snd] in Hk, Hp. apply IH; [|exact Hrest].
  clear IH Hr Hrest. induction H0 as [|[y rs] g0 [Hy Hrs] H0 IH0]; cbn [add_to_group].
  - repeat constructor; assumption.
  - destruct (y =? lhs) eqn:E; constructor; auto. apply Z.eqb_eq in E. subst y.
    split; [exact Hy|]. apply Forall_app. split; [exact Hrs | repeat constructor; exact Hp].
Qed.

Section Words.
  Variable nm : Z -> bytes.
  Variable idf : Z -> bytes.

  Lemma filter_keep_skip w : filter keep_word (if skip_words w then [] else w) = filter keep_word w.
  Proof.
    destruct w as [|a [|b r]]; cbn [skip_words]; try reflexivity.
    destruct (bytes_eqb a s_empty) eqn:E; [|reflexivity]. apply bytes_eqb_iff in E. subst. reflexivity.
  Qed.

  Lemma kept_seq l : filter keep_word (text_words nm idf (ESeq l)) =
    flat_map (fun x => filter keep_word (text_words nm idf x)) l.
  Proof.
    cbn [text_words]. cbv zeta. match goal with |- context [match ?w with _ => _ end] => set (ws := w) end.
    transitivity (filter keep_word ws); [now destruct ws|].
    unfold ws. rewrite filter_flat_map. apply flat_map_ext. intro x. apply filter_keep_skip.
  Qed.

  Lemma prec_free_words : forall e, prec_free e = true ->
    (forall s, In s (accept e) -> name_ok (nm s) = true) ->
    exportable nm idf e /\ Forall (fun w => word_ok w = true) (text_words nm idf e) /\
    filter keep_word (text_words nm idf e) = map nm (accept e).
  Proof.
    induction e using expr_ind2; intros Hpf Hn; cbn [prec_free] in Hpf; try discriminate.
    - repeat split; repeat constructor.
    - rewrite forallb_forall in Hpf. rewrite Forall_forall in H.
      assert (Hl : forall x, In x l -> exportable nm idf x /\ Forall (fun w => word_ok w = true) (text_words nm idf x) /\
                                       filter keep_word (text_words nm idf x) = map nm (accept x)).
      { intros x Hx. apply (H x Hx (Hpf x Hx)). intros s Hs. apply Hn, in_flat_map. eauto. }
      split; [apply exportable_seq, Forall_forall; intros x Hx; apply (Hl x Hx)|].
      split; [apply text_words_seq; [reflexivity | intros x Hx; apply (Hl x Hx)]|].
      rewrite kept_seq. cbn [accept]. clear -Hl. induction l as [|x l IH]; [reflexivity|]. cbn [flat_map].
      rewrite map_app, IH by (intros; apply Hl; now right). now rewrite (proj2 (proj2 (Hl x (or_introl eq_refl)))).
    - split; [exact I|]. pose proof (Hn s (or_introl eq_refl)) as Hs. cbn [text_words accept]. split.
      + constructor; [now apply name_word_ok | constructor].
      + cbn [filter map]. now rewrite (name_ok_keep _ Hs).
    - apply IHe; auto.
    - apply IHe; auto.
    - apply IHe; auto.
    - split; [apply lacks_In, ok_lacks; [reflexivity | exact Hpf]|]. split; [|reflexivity].
      constructor; [|constructor]. unfold word_ok. now rewrite !lacks_app, (ok_lacks 32 n), (ok_lacks 10 n).
    - repeat split; constructor.
  Qed.

  Lemma prints_words : forall e, prec_free e = true -> prints e = true -> text_words nm idf e <> [].
  Proof.
    induction e; intros Hpf Hpr; cbn [prec_free prints] in *; try discriminate; cbn [text_words]; try discriminate; auto.
    match goal with |- (match ?ws with _ => _ end) <> [] => destruct ws; discriminate end.
  Qed.

  Lemma rule_ok_words : forall e, rule_ok e = true ->
    (forall s, In s (accept e) -> name_ok (nm s) = true) -> (forall s, rule_prec e = Some s -> name_ok (idf s) = true) ->
    exportable nm idf e /\ Forall (fun w => word_ok w = true) (text_words nm idf e) /\
    filter keep_word (text_words nm idf e) =
      map nm (accept e) ++ (match rule_prec e with Some s => [w_prec; idf s] | None => [] end).
  Proof.
    induction e; intros Hok Hn Hi; cbn [rule_ok] in Hok; cbn [rule_prec];
      try (rewrite app_nil_r; apply prec_free_words; assumption).
    - apply IHe; auto.
    - apply IHe; auto.
    - apply IHe; auto.
    - apply andb_true_iff in Hok as [Hpf Hpr]. destruct (prec_free_words e Hpf Hn) as (Hex & Hw & Ek).
      pose proof (Hi sym eq_refl) as Hs. cbn [text_words accept exportable].
      split; [split; [exact Hex | now apply prints_words]|]. split.
      + apply Forall_app. split; [exact Hw|]. repeat constructor. now apply name_word_ok.
      + rewrite filter_app, Ek. cbn [filter]. now rewrite (name_ok_keep _ Hs).
  Qed.
End Words.

Definition body_opt (g : bgrammar) (x : Z) (r : brule) : option bytes :=
  match lookahead_of g x with
  | Some _ => Some s_empty
  | None => expr_string (ref_text g) (fun s => b_id (sym_at g s)) (br_value r)
  end.
Definition body_of (g : bgrammar) (x : Z) (r : brule) : bytes :=
  match body_opt g x r with Some b => b | None => [] end.

Fixpoint body_lines (k : nat) (bs : list bytes) : list bytes :=
  match bs with
  | [] => []
  | b :: r => ((if Nat.eqb k 0 then [32;32] else [124;32]) ++ b) :: body_lines (S k) r
  end.

Definition la_lines (g : bgrammar) (x : Z) : list bytes :=
  match lookahead_of g x with
  | Some l => [s_la ++ join s_amp (map (fun '(s, neg) => (if neg : bool then [33] else []) ++ ref_text g s) l)]
  | None => []
  end.

Definition group_lines (g : bgrammar) (grp : Z * list brule) : list bytes :=
  [[]] ++ la_lines g (fst grp) ++ [b_name (sym_at g (fst grp)) ++ [32;58]] ++
  body_lines 0 (map (body_of g (fst grp)) (snd grp)) ++ [[59]].

(* the two loops of rule_section, whatever their steps are called: each step appends lines *)
Lemma fold_lines {A} (F : option bytes -> A -> option bytes) (lines : A -> list bytes) l :
  (forall txt a, In a l -> F (Some txt) a = Some (txt ++ unl (lines a))) ->
  forall txt, fold_left F l (Some txt) = Some (txt ++ unl (flat_map lines l)).
Proof.
  induction l as [|a l IH]; intros H txt; cbn [fold_left flat_map]; [now rewrite app_nil_r|].
  rewrite H by now left. rewrite IH by (intros; apply H; now right). now rewrite unl_app, app_assoc.
Qed.

Lemma rules_fold (F : option bytes -> nat * brule -> option bytes) (body : brule -> bytes) : forall rs k t,
  (forall t i r, In r rs -> F (Some t) (i, r) = Some (t ++ nl ++ (if Nat.eqb i 0 then [32;32] else [124;32]) ++ body r)) ->
  fold_left F (combine (seq k (length rs)) rs) (Some t) = Some (t ++ unl (body_lines k (map body rs))).
Proof.
  induction rs as [|r rs IH]; intros k t H; [cbn; now rewrite app_nil_r|].
  cbn [length seq combine fold_left map body_lines]. rewrite H by now left.
  rewrite IH by (intros; apply H; now right). rewrite unl_cons. now rewrite <- !app_assoc.
Qed.

(* the text of one group and the frame of the file: both sides concatenate the same pieces (unl_concat) *)
Lemma unl_concat LL : unl (concat LL) = concat (map unl LL).
Proof. induction LL as [|L LL IH]; [reflexivity|]. cbn [concat map]. now rewrite unl_app, IH. Qed.

Lemma group_text (txt name : bytes) (la : option (bytes * bytes)) (BL : list bytes) :
  txt ++ nl ++ nl ++ (match la with Some (a, b) => a ++ b ++ nl | None => [] end) ++ name ++ [32;58] ++ ([] ++ unl BL) ++ nl ++ [59] =
  txt ++ unl ([[]] ++ (match la with Some (a, b) => [a ++ b] | None => [] end) ++ [name ++ [32;58]] ++ BL ++ [[59]]).
Proof.
  f_equal. change (_ ++ _ ++ _ ++ BL ++ [[59]]) with
    (concat [[[]]; match la with Some (a, b) => [a ++ b] | None => [] end; [name ++ [32;58]]; BL; [[59]]]).
  rewrite unl_concat. unfold nl. destruct la as [[a b]|]; cbn [map concat unl flat_map app]; rewrite ?app_nil_r, <- ?app_assoc; reflexivity.
Qed.

Lemma frame_text (A B C R : list bytes) :
  ([37;123] ++ nl ++ [37;125] ++ nl) ++ unl A ++ nl ++ unl B ++ unl C ++ nl ++ nl ++ s_pp ++ unl R ++ nl ++ nl ++ s_pp ++ nl ++ nl =
  [37;123] ++ unl (([[37;125]; []] ++ A ++ [[]] ++ B ++ C ++ [[]]) ++ [s_pp] ++ R ++ [[]; s_pp; []; []]).
Proof.
  transitivity ([37;123] ++ unl (concat [[[37;125]; []]; A; [[]]; B; C; [[]; s_pp]; R; [[]; s_pp; []; []]])).
  - rewrite unl_concat. reflexivity.
  - do 2 f_equal. cbn [concat]. now rewrite <- !app_assoc.
Qed.

Lemma read_header done cur name : name_ok name = true ->
  read_line (Some (done, cur)) (name ++ [32;58]) = Some (done, Some (name, [])).
Proof.
  intro H. unfold read_line, strip_header. rewrite rev_app_distr. cbn [rev app]. rewrite rev_involutive.
  destruct (name_ok_head name H) as (c & r & -> & Hc). cbn [app is_nil starts_with bytes_eqb].
  rewrite (proj2 (ok_char_neq c 9 eq_refl Hc)), (proj2 (ok_char_neq c 47 eq_refl Hc)), (proj1 (ok_char_neq c 59 eq_refl Hc)),
    (proj2 (ok_char_neq c 32 eq_refl Hc)), (proj2 (ok_char_neq c 124 eq_refl Hc)). reflexivity.
Qed.

Lemma read_body_lines done nme : forall bs k acc,
  fold_left read_line (body_lines k bs) (Some (done, Some (nme, acc))) = Some (done, Some (nme, acc ++ bs)).
Proof.
  induction bs as [|b bs IH]; intros k acc; cbn [body_lines fold_left]; [now rewrite app_nil_r|].
  replace (read_line _ _) with (Some (done, Some (nme, acc ++ [b]))) by (destruct (Nat.eqb k 0); reflexivity).
  rewrite IH, <- app_assoc. reflexivity.
Qed.

Lemma read_group g done grp : name_ok (b_name (sym_at g (fst grp))) = true ->
  fold_left read_line (group_lines g grp) (Some (done, None)) =
  Some (done ++ [(b_name (sym_at g (fst grp)), map (body_of g (fst grp)) (snd grp))], None).
Proof.
  intro Hn. unfold group_lines. rewrite !fold_left_app. cbn [fold_left].
  replace (fold_left read_line (la_lines g (fst grp)) _) with (Some (done, @None rgroup))
    by (unfold la_lines; destruct (lookahead_of g (fst grp)); reflexivity).
  rewrite read_header by exact Hn. rewrite read_body_lines. reflexivity.
Qed.

Lemma read_groups g : forall groups done,
  Forall (fun grp => name_ok (b_name (sym_at g (fst grp))) = true) groups ->
  fold_left read_line (flat_map (group_lines g) groups) (Some (done, None)) =
  Some (done ++ map (fun grp => (b_name (sym_at g (fst grp)), map (body_of g (fst grp)) (snd grp))) groups, None).
Proof.
  induction groups as [|grp groups IH]; intros done H; [cbn; now rewrite app_nil_r|].
  inversion H as [|? ? Hg Hgs]; subst. cbn [flat_map map]. rewrite fold_left_app, read_group by exact Hg.
  rewrite IH by exact Hgs. now rewrite <- app_assoc.
Qed.

Definition line_ok (l : bytes) : bool := lacks 10 l && negb (bytes_eqb l s_pp).

Lemma body_lines_ok bs : Forall (fun b => lacks 10 b = true) bs ->
  forall k, Forall (fun l => line_ok l = true) (body_lines k bs).
Proof.
  induction 1 as [|b bs Hb _ IH]; intro k; cbn [body_lines]; constructor; [|apply IH].
  unfold line_ok. rewrite lacks_app, Hb. destruct (Nat.eqb k 0); reflexivity.
Qed.

Lemma lines_nonl L : Forall (fun l => line_ok l = true) L -> Forall (fun l => lacks 10 l = true) L.
Proof. apply Forall_impl. intros l H. now apply andb_true_iff in H as [H _]. Qed.

Lemma break_pp_app A B : Forall (fun l => line_ok l = true) A -> break_pp (A ++ s_pp :: B) = (A, B).
Proof.
  induction 1 as [|a A Ha HA IH]; cbn [app break_pp]; [reflexivity|].
  apply andb_true_iff in Ha as [_ Ha]. apply negb_true_iff in Ha. now rewrite Ha, IH.
Qed.

Section Grammar.
  Variable g : bgrammar.
  Hypothesis Hwf : bison_wf g = true.

  Let n := Z.of_nat (length (bg_syms g)).
  Let idf (s : Z) := b_id (sym_at g s).
  Let groups := rules_by_nonterm (map (fun r => (br_lhs r, r)) (bg_rules g)).
  Let RL := flat_map (group_lines g) groups.

  Lemma wf_parts :
    0 <= bg_tokens g <= n /\
    (forall s, 0 <= s < n -> name_ok (ref_text g s) = true) /\
    distinct (map (ref_text g) (all_syms g)) = true /\
    (forall r, In r (bg_rules g) -> rule_wf g r = true).
  Proof.
    unfold bison_wf in Hwf. fold n in Hwf.
    apply andb_true_iff in Hwf as [H Hr]. apply andb_true_iff in H as [H Hd]. apply andb_true_iff in H as [H Hn].
    apply andb_true_iff in H as [H0 H1]. apply Z.leb_le in H0, H1.
    split; [lia|]. split; [|split; [exact Hd | now apply forallb_forall]].
    intros s Hs. rewrite forallb_forall in Hn. apply Hn. unfold all_syms. apply in_nat_range. exact Hs.
  Qed.

  Lemma ref_text_tok s : s < bg_tokens g -> ref_text g s = idf s.
  Proof. intro H. unfold ref_text. destruct (Z.ltb_spec s (bg_tokens g)); [reflexivity | lia]. Qed.

  Lemma ref_text_nt s : bg_tokens g <= s -> ref_text g s = b_name (sym_at g s).
  Proof. intro H. unfold ref_text. destruct (Z.ltb_spec s (bg_tokens g)); [lia | reflexivity]. Qed.

  Lemma tok_id_ok t : 0 <= t < bg_tokens g -> name_ok (idf t) = true.
  Proof. intro Ht. destruct wf_parts as (Hn & Hnm & _). rewrite <- ref_text_tok by lia. apply Hnm. lia. Qed.

  Lemma nt_name_ok x : bg_tokens g <= x < n -> name_ok (b_name (sym_at g x)) = true.
  Proof. intro Hx. destruct wf_parts as (Hn & Hnm & _). rewrite <- ref_text_nt by lia. apply Hnm. lia. Qed.

  Lemma sym_of_word_ref s : 0 <= s < n -> sym_of_word g (ref_text g s) = Some s.
  Proof.
    intro Hs. destruct wf_parts as (_ & _ & Hd & _). unfold sym_of_word.
    apply (find_inj (ref_text g)); [apply NoDup_map_inj, distinct_NoDup, Hd | apply in_nat_range; exact Hs].
  Qed.

  Lemma tok_of_id_ref s : 0 <= s < bg_tokens g -> tok_of_id g (idf s) = Some s.
  Proof.
    intro Hs. destruct wf_parts as (Ht & _ & Hd & _). unfold tok_of_id.
    apply (find_inj idf); [|apply in_map_of_nat_seq; exact Hs].
    intros x y Hx Hy E. apply in_map_of_nat_seq in Hx, Hy.
    rewrite <- !ref_text_tok in E by lia.
    apply (NoDup_map_inj (ref_text g) _ (distinct_NoDup _ Hd)); auto; apply in_nat_range; fold n; lia.
  Qed.

  Lemma body_syms_names syms tail p :
    (forall s, In s syms -> 0 <= s < n) -> body_syms g tail = Some ([], p) ->
    body_syms g (map (ref_text g) syms ++ tail) = Some (syms, p).
  Proof.
    intros Hs Ht. induction syms as [|s syms IH]; [exact Ht|]. cbn [map app body_syms].
    destruct wf_parts as (_ & Hn & _).
    rewrite (name_ok_not_prec _ (Hn s (Hs s (or_introl eq_refl)))).
    rewrite sym_of_word_ref by (apply Hs; now left). rewrite IH by (intros y Hy; apply Hs; now right). reflexivity.
  Qed.

  (* what every group of RulesByNonterm satisfies *)
  Definition key_ok (x : Z) : Prop :=
    bg_tokens g <= x < n /\
    forall l, lookahead_of g x = Some l -> forall p, In p l -> 0 <= fst p < n.
  Definition member_ok (x : Z) (r : brule) : Prop :=
    body_opt g x r = Some (body_of g x r) /\ lacks 10 (body_of g x r) = true /\
    parse_body g (body_of g x r) = Some (rule_spec r).

  Lemma rule_body r : rule_wf g r = true -> member_ok (br_lhs r) r.
  Proof.
    intro Hr. unfold rule_wf in Hr. fold n in Hr. apply andb_true_iff in Hr as [_ Hr].
    unfold member_ok, body_of, body_opt. destruct (lookahead_of g (br_lhs r)) as [l|].
    - apply andb_true_iff in Hr as [Hr _]. apply andb_true_iff in Hr as [Ha Hp].
      repeat split. unfold rule_spec. destruct (accept (br_value r)); [|discriminate].
      destruct (rule_prec (br_value r)); [discriminate|]. reflexivity.
    - apply andb_true_iff in Hr as [Hr Hp]. apply andb_true_iff in Hr as [Hok Ha].
      rewrite forallb_forall in Ha. unfold rule_spec. set (e := br_value r) in *.
      assert (Hacc : forall s, In s (accept e) -> 0 <= s < n) by (intros s Hs; apply in_range_iff; auto).
      assert (Hpr : forall s, rule_prec e = Some s -> 0 <= s < bg_tokens g).
      { intros s Hs. rewrite Hs in Hp. now apply in_range_iff. }
      destruct wf_parts as (_ & Hn & _).
      destruct (rule_ok_words (ref_text g) idf e Hok) as (Hex & Hw & Ek);
        [intros s Hs; apply Hn; auto | intros s Hs; apply tok_id_ok; auto |].
      assert (Hsp : Forall spaceless (text_words (ref_text g) idf e))
        by (eapply Forall_impl; [|exact Hw]; apply word_ok_spaceless).
      change (fun s => b_id (sym_at g s)) with idf. rewrite (expr_string_text _ _ e Hex Hsp). split; [reflexivity|]. split.
      + apply lacks_join; [reflexivity|]. eapply Forall_impl; [|exact Hw]. apply word_ok_line.
      + unfold parse_body. rewrite words_join by exact Hsp. rewrite Ek. apply body_syms_names; [exact Hacc|].
        destruct (rule_prec e) as [s|]; [|reflexivity].
        cbn [body_syms]. change (bytes_eqb w_prec w_prec) with true. cbv iota.
        rewrite tok_of_id_ref by (apply Hpr; reflexivity). reflexivity.
  Qed.

  Lemma groups_ok : Forall (fun grp => key_ok (fst grp) /\ Forall (member_ok (fst grp)) (snd grp)) groups.
  Proof.
    apply rules_by_nonterm_all. apply Forall_forall. intros p Hp.
    apply in_map_iff in Hp as (r & <- & Hr). cbn [fst snd].
    destruct wf_parts as (_ & _ & _ & Hrules). specialize (Hrules r Hr). split; [|exact (rule_body r Hrules)].
    unfold rule_wf in Hrules. fold n in Hrules. apply andb_true_iff in Hrules as [Hl Hrest].
    split; [now apply in_range_iff|]. intros l El p Hp. rewrite El in Hrest.
    apply andb_true_iff in Hrest as [_ Hla]. rewrite forallb_forall in Hla. apply in_range_iff. now apply Hla.
  Qed.

  Lemma section_is_lines : rule_section g = Some (unl RL).
  Proof.
    pose proof groups_ok as Hg. rewrite Forall_forall in Hg.
    unfold rule_section. fold groups. apply (fold_lines _ (group_lines g) groups) with (txt := []).
    intros txt [x rs] Hin. destruct (Hg _ Hin) as [_ Hm]. cbn [fst snd] in Hm. rewrite Forall_forall in Hm. cbv zeta.
    rewrite (rules_fold _ (body_of g x) rs 0%nat []).
    - unfold group_lines, la_lines. cbn [fst snd]. f_equal.
      destruct (lookahead_of g x) as [l|]; [exact (group_text txt _ (Some (s_la, _)) _) | exact (group_text txt _ None _)].
    - intros t i r Hr. fold (body_opt g x r). now rewrite (proj1 (Hm r Hr)).
  Qed.

  Lemma group_lines_ok grp : key_ok (fst grp) -> Forall (member_ok (fst grp)) (snd grp) ->
    Forall (fun l => line_ok l = true) (group_lines g grp).
  Proof.
    intros Hk Hm. pose proof (nt_name_ok _ (proj1 Hk)) as Hx. unfold group_lines. repeat (apply Forall_app; split).
    - repeat constructor.
    - unfold la_lines. destruct (lookahead_of g (fst grp)) as [l|] eqn:El; constructor; [|constructor].
      unfold line_ok. rewrite lacks_app, lacks_join; [reflexivity | reflexivity |].
      apply Forall_map, Forall_forall. intros [s neg] Hin. destruct wf_parts as (_ & Hn & _).
      rewrite lacks_app, (word_ok_line _ (name_word_ok _ (Hn s (proj2 Hk l El _ Hin)))). now destruct neg.
    - constructor; [|constructor]. unfold line_ok. rewrite lacks_app, (word_ok_line _ (name_word_ok _ Hx)).
      destruct (name_ok_head _ Hx) as (c & r & -> & Hc). cbn [app bytes_eqb s_pp].
      now rewrite (proj1 (ok_char_neq c 37 eq_refl Hc)).
    - apply body_lines_ok, Forall_map. eapply Forall_impl; [|exact Hm]. intros r (_ & H & _). exact H.
    - repeat constructor.
  Qed.

  Lemma RL_ok : Forall (fun l => line_ok l = true) RL.
  Proof.
    apply Forall_flat_map. eapply Forall_impl; [|exact groups_ok]. intros grp [Hk Hm]. now apply group_lines_ok.
  Qed.

  Let read_groups_result := map (fun grp => (b_name (sym_at g (fst grp)), map (body_of g (fst grp)) (snd grp))) groups.

  Lemma RL_read done : fold_left read_line RL (Some (done, None)) = Some (done ++ read_groups_result, None).
  Proof. apply read_groups. eapply Forall_impl; [|exact groups_ok]. intros grp [[Hx _] _]. now apply nt_name_ok. Qed.

  Lemma RL_interp : all_some (map (interp_group g) read_groups_result) = Some (expected_groups g).
  Proof.
    unfold read_groups_result, expected_groups. fold groups. rewrite map_map.
    rewrite (all_some_map _ (fun grp => (fst grp, map rule_spec (snd grp)))).
    - f_equal. apply map_ext. intros [x rs]. reflexivity.
    - eapply Forall_impl; [|exact groups_ok]. intros grp [[Hx _] Hm]. unfold interp_group. cbn [fst snd].
      destruct wf_parts as (Ht & _). rewrite <- ref_text_nt by lia.
      rewrite sym_of_word_ref by lia. rewrite map_map.
      rewrite (all_some_map _ rule_spec); [reflexivity|].
      eapply Forall_impl; [|exact Hm]. intros r (_ & _ & H). exact H.
  Qed.

  Theorem read_back_exact_frame :
    exists section,
      rule_section g = Some section /\
      bison_text g = Some (file_of_section g section) /\
      read_rules g section = Some (expected_groups g).
  Proof.
    exists (unl RL). split; [exact section_is_lines|]. split.
    - change (bison_text g) with (match rule_section g with Some gt => Some (file_of_section g gt) | None => None end).
      now rewrite section_is_lines.
    - pose proof (split_on_unl RL (lines_nonl _ RL_ok) [] eq_refl) as E. cbn [app] in E.
      unfold read_rules, read_rule_lines. rewrite E. cbn [fold_left].
      change (read_line (Some ([], None)) []) with (Some (@nil rgroup, @None rgroup)).
      rewrite RL_read. exact RL_interp.
  Qed.

  Hypothesis Hdw : decls_wf g = true.

  Definition start_line (p : Z * bool) : bytes :=
    s_start ++ b_name (sym_at g (bg_tokens g + fst p)) ++ (if snd p then s_noeoi else []).
  Definition prec_line (p : Z * list Z) : bytes :=
    [37] ++ assoc_text (fst p) ++ flat_map (fun t => [32] ++ idf t) (snd p).
  Definition token_line (t : Z) : bytes := s_token ++ idf t.
  Definition head_lines : list bytes :=
    [[37;125]; []] ++ map start_line (bg_inputs g) ++ [[]] ++ map prec_line (bg_prec g) ++
    map token_line (tl (tokens_without_prec g)) ++ [[]].

  Lemma file_lines :
    file_of_section g (unl RL) = [37;123] ++ unl (head_lines ++ [s_pp] ++ RL ++ [[]; s_pp; []; []]).
  Proof.
    unfold head_lines. rewrite <- frame_text, <- !unl_map. unfold file_of_section. cbv zeta.
    f_equal. f_equal; [apply flat_map_ext; intros [nt e]; reflexivity|].
    f_equal. f_equal. apply flat_map_ext. intros [a ts]. reflexivity.
  Qed.

  Lemma dw_parts :
    (forall p, In p (bg_inputs g) -> bg_tokens g <= bg_tokens g + fst p < n) /\
    (forall p, In p (bg_prec g) -> 0 <= fst p < 3 /\ forall t, In t (snd p) -> 0 <= t < bg_tokens g).
  Proof.
    unfold decls_wf in Hdw. fold n in Hdw. apply andb_true_iff in Hdw as [H1 H2].
    rewrite forallb_forall in H1, H2. split.
    - intros p Hp. apply in_range_iff. auto.
    - intros p Hp. specialize (H2 p Hp). apply andb_true_iff in H2 as [Ha Ht]. split; [now apply in_range_iff|].
      rewrite forallb_forall in Ht. intros t Hin. apply in_range_iff. auto.
  Qed.

  Lemma twp_range t : In t (tl (tokens_without_prec g)) -> 0 <= t < bg_tokens g.
  Proof.
    intro H. assert (H' : In t (tokens_without_prec g)) by (destruct (tokens_without_prec g); [destruct H | now right]).
    apply filter_In in H' as [H' _]. now apply in_map_of_nat_seq in H'.
  Qed.

  Lemma prec_line_words p : In p (bg_prec g) ->
    prec_line p = join [32] (([37] ++ assoc_text (fst p)) :: map idf (snd p)) /\
    Forall (fun w => word_ok w = true) (([37] ++ assoc_text (fst p)) :: map idf (snd p)).
  Proof.
    intro Hp. split.
    - unfold prec_line. rewrite app_assoc. generalize ([37] ++ assoc_text (fst p)).
      induction (snd p) as [|t ts IH]; intro w; [cbn; now rewrite app_nil_r|].
      cbn [flat_map map]. rewrite join_cons2, <- IH. now rewrite <- !app_assoc.
    - constructor; [unfold assoc_text; destruct (fst p =? 0); [|destruct (fst p =? 1)]; reflexivity|].
      apply Forall_map, Forall_forall. intros t Ht. apply name_word_ok, tok_id_ok. now apply (proj2 dw_parts p Hp).
  Qed.

  Lemma read_start S P T p : In p (bg_inputs g) ->
    read_decl (mkDecls S P T) (start_line p) = mkDecls (S ++ [(b_name (sym_at g (bg_tokens g + fst p)), snd p)]) P T.
  Proof.
    intro Hp. pose proof (name_word_ok _ (nt_name_ok _ (proj1 dw_parts p Hp))) as Hok.
    unfold read_decl, start_line. rewrite starts_with_app. cbn [d_starts d_precs d_tokens].
    set (nme := b_name (sym_at g (bg_tokens g + fst p))) in *.
    replace (s_start ++ nme ++ (if snd p then s_noeoi else []))
      with (join [32] ([removelast s_start; nme] ++ if snd p then [[47;47]; w_noeoi] else []))
      by (destruct (snd p); cbn [join app]; [|rewrite app_nil_r]; reflexivity).
    rewrite words_join; [now destruct (snd p)|].
    apply Forall_impl with (1 := word_ok_spaceless). destruct (snd p); repeat constructor; exact Hok.
  Qed.

  Lemma read_token S P T t : 0 <= t < bg_tokens g ->
    read_decl (mkDecls S P T) (token_line t) = mkDecls S P (T ++ [idf t]).
  Proof.
    intro Ht. pose proof (name_word_ok _ (tok_id_ok t Ht)) as Hok.
    unfold read_decl, token_line. rewrite starts_with_app.
    change (starts_with s_start (s_token ++ idf t)) with false. cbv iota.
    change (s_token ++ idf t) with (join [32] [removelast s_token; idf t]).
    rewrite words_join; [reflexivity|]. apply Forall_impl with (1 := word_ok_spaceless). repeat constructor. exact Hok.
  Qed.

  Lemma read_prec S P T p : In p (bg_prec g) ->
    read_decl (mkDecls S P T) (prec_line p) = mkDecls S (P ++ [(assoc_text (fst p), map idf (snd p))]) T.
  Proof.
    intro Hp. destruct (prec_line_words p Hp) as [Ej Hw].
    assert (Ew : words (prec_line p) = ([37] ++ assoc_text (fst p)) :: map idf (snd p)).
    { rewrite Ej. apply words_join. eapply Forall_impl; [|exact Hw]. apply word_ok_spaceless. }
    unfold read_decl. rewrite Ew. unfold prec_line.
    assert (Ea : fst p = 0 \/ fst p = 1 \/ fst p = 2) by (destruct (proj2 dw_parts p Hp); lia).
    destruct Ea as [-> | [-> | ->]]; reflexivity.
  Qed.

  Lemma read_head :
    read_decls ([37;123] :: head_lines) =
    mkDecls (map (fun p => (b_name (sym_at g (bg_tokens g + fst p)), snd p)) (bg_inputs g))
            (map (fun p => (assoc_text (fst p), map idf (snd p))) (bg_prec g))
            (map idf (tl (tokens_without_prec g))).
  Proof.
    unfold read_decls, head_lines. cbn [fold_left app].
    change (read_decl (read_decl (read_decl (mkDecls [] [] []) [37;123]) [37;125]) []) with (mkDecls [] [] []).
    rewrite fold_left_app, (fold_snoc read_decl start_line _ (fun S => mkDecls S [] [])) by (intros; now apply read_start).
    cbn [fold_left app]. change (read_decl ?d []) with d.
    rewrite fold_left_app, (fold_snoc read_decl prec_line _ (fun P => mkDecls _ P [])) by (intros; now apply read_prec).
    rewrite fold_left_app, (fold_snoc read_decl token_line _ (fun T => mkDecls _ _ T)) by (intros; apply read_token; now apply twp_range).
    reflexivity.
  Qed.

  Lemma head_lines_ok : Forall (fun l => line_ok l = true) ([37;123] :: head_lines).
  Proof.
    constructor; [reflexivity|]. unfold head_lines. repeat (apply Forall_app; split); try (repeat constructor; fail);
      apply Forall_map, Forall_forall; intros p Hp; unfold line_ok.
    - unfold start_line. rewrite !lacks_app, (word_ok_line _ (name_word_ok _ (nt_name_ok _ (proj1 dw_parts p Hp)))).
      now destruct (snd p).
    - destruct (prec_line_words p Hp) as [Ej Hw]. rewrite Ej at 1. rewrite lacks_join; [|reflexivity|].
      + unfold prec_line, assoc_text. destruct (fst p =? 0); [|destruct (fst p =? 1)]; reflexivity.
      + eapply Forall_impl; [|exact Hw]. apply word_ok_line.
    - unfold token_line. now rewrite lacks_app, (word_ok_line _ (name_word_ok _ (tok_id_ok p (twp_range p Hp)))).
  Qed.

  Theorem read_file_exact :
    exists text, bison_text g = Some text /\ read_file g text = Some (expected_file g).
  Proof.
    exists (file_of_section g (unl RL)). split.
    { change (bison_text g) with (match rule_section g with Some gt => Some (file_of_section g gt) | None => None end).
      now rewrite section_is_lines. }
    (* split into lines, cut at the two "%%" lines (no other line is one), read the declarations, then the rules *)
    rewrite file_lines. unfold read_file. rewrite split_on_unl; [| |reflexivity].
    2:{ apply Forall_app; split; [exact (Forall_inv_tail (lines_nonl _ head_lines_ok))|].
        apply Forall_app; split; [repeat constructor|].
        apply Forall_app; split; [exact (lines_nonl _ RL_ok) | repeat constructor]. }
    change ([37;123] :: head_lines ++ [s_pp] ++ RL ++ [[]; s_pp; []; []])
      with (([37;123] :: head_lines) ++ s_pp :: (RL ++ [[]] ++ s_pp :: [[]; []])).
    rewrite break_pp_app by exact head_lines_ok. rewrite app_assoc.
    rewrite break_pp_app by (apply Forall_app; split; [exact RL_ok | repeat constructor]).
    rewrite read_head. cbn [d_starts d_precs d_tokens].
    destruct dw_parts as [Hin Hpr]. destruct wf_parts as (Ht & _).
    rewrite map_map. rewrite (all_some_map _ (fun p => (bg_tokens g + fst p, snd p))).
    2:{ apply Forall_forall. intros p Hp. specialize (Hin p Hp). rewrite <- ref_text_nt by lia.
        rewrite sym_of_word_ref by lia. reflexivity. }
    rewrite map_map. rewrite (all_some_map _ (fun p => p)).
    2:{ apply Forall_forall. intros p Hp. destruct (Hpr p Hp) as [Ha Hts].
        replace (assoc_of_text (assoc_text (fst p))) with (Some (fst p))
          by (assert (E : fst p = 0 \/ fst p = 1 \/ fst p = 2) by lia; destruct E as [-> | [-> | ->]]; reflexivity).
        rewrite map_map. rewrite (all_some_map _ (fun t => t)).
        - rewrite map_id. destruct p; reflexivity.
        - apply Forall_forall. intros t Hin'. apply tok_of_id_ref. auto. }
    rewrite map_map. rewrite (all_some_map _ (fun t => t)).
    2:{ apply Forall_forall. intros t Hin'. apply tok_of_id_ref. now apply twp_range. }
    unfold read_rule_lines. rewrite fold_left_app, RL_read. cbn [fold_left app].
    change (read_line (Some (read_groups_result, None)) []) with (Some (read_groups_result, @None rgroup)).
    cbv beta iota. rewrite RL_interp. unfold expected_file. rewrite !map_id. f_equal. f_equal.
    apply map_ext. intros [nt e]. reflexivity.
  Qed.
End Grammar.
