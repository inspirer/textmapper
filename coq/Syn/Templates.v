(* Model of syntax/templates.go: Instantiate (resolveInstance, instance.resolve, allocate, check, doExpr,
   doSet, suffix, the final sort + Rearrange), and the meaning of templated grammars:
   predicate evaluation, the template denotation [tden], and the exhaustive semantic specialisation used
   by the oracle.  Executable and Prop-valued definitions only. *)
From Coq Require Import List ZArith Bool Arith.
From TM Require Import Util.Ident Gram.Cfg Syn.Expr Syn.Expand Syn.ExtLang.
Import ListNotations.
Local Open Scope Z_scope.

Definition env := list (Z * bytes).        (* instance.args: (param, value) *)

Fixpoint env_get (e : env) (p : Z) : option bytes :=
  match e with [] => None | (q, v) :: r => if q =? p then Some v else env_get r p end.

(* instance.resolve; None = log.Fatal("grammar inconsistency on TakeFrom") *)
Definition resolve_arg (ctx : option env) (a : arg) : option (Z * bytes) :=
  match a_value a with
  | _ :: _ => Some (a_param a, a_value a)
  | [] => match ctx with
          | Some e => match env_get e (a_take a) with Some v => Some (a_param a, v) | None => None end
          | None => None
          end
  end.

(* instantiator.check; the second component is "a log.Fatal was reached" *)
Fixpoint check_pred (ctx : option env) (p : pred) : bool * bool :=
  match p with
  | PEq param v =>
      match resolve_arg ctx (mkArg 0 [] param) with
      | Some (_, x) => (bytes_eqb x v, false)
      | None => (false, true)
      end
  | POr l =>
      (fix go (l : list pred) : bool * bool :=
         match l with
         | [] => (false, false)
         | s :: r => let '(b, f) := check_pred ctx s in
                     if f then (false, true) else if b then (true, false) else go r
         end) l
  | PAnd l =>
      (fix go (l : list pred) : bool * bool :=
         match l with
         | [] => (true, false)
         | s :: r => let '(b, f) := check_pred ctx s in
                     if f then (false, true) else if b then go r else (false, false)
         end) l
  | PNot s => let '(b, f) := check_pred ctx s in (negb b, f)
  end.

(* ---- instances ---- *)
Record inst := mkInst { i_nt : Z; i_sig : list (Z * bytes) (* bound parameters in argument order *) }.

Record ist := mkI { is_list : list inst; is_fatal : bool }.

Fixpoint sig_eqb (a b : list (Z * bytes)) : bool :=
  match a, b with
  | [], [] => true
  | (p, v) :: a', (q, w) :: b' => (p =? q) && bytes_eqb v w && sig_eqb a' b'
  | _, _ => false
  end.

Fixpoint find_inst (nt : Z) (sg : list (Z * bytes)) (l : list inst) (k : nat) : option nat :=
  match l with
  | [] => None
  | i :: r => if (i_nt i =? nt) && sig_eqb (i_sig i) sg then Some k else find_inst nt sg r (S k)
  end.

(* allocate sorts the arguments by parameter (insertion sort; parameters are distinct) *)
Fixpoint insert_bp (x : Z * bytes) (l : env) : env :=
  match l with
  | [] => [x]
  | y :: t => if fst x <? fst y then x :: l else y :: insert_bp x t
  end.
Definition inst_env (i : inst) : env := fold_left (fun acc x => insert_bp x acc) (i_sig i) [].

(* resolveInstance *)
Definition resolve_instance (st : ist) (ctx : option env) (nt : Z) (args : list arg) : nat * ist :=
  let '(sg, fatal) := fold_left (fun '(sg, fatal) a =>
      match resolve_arg ctx a with
      | Some bp => (sg ++ [bp], fatal)
      | None => (sg, true)
      end) args ([], is_fatal st) in
  match find_inst nt sg (is_list st) O with
  | Some k => (k, mkI (is_list st) fatal)
  | None => (length (is_list st), mkI (is_list st ++ [mkInst nt sg]) fatal)
  end.

Definition is_cond (e : expr) : bool := match e with ECond _ _ => true | _ => false end.
Definition set_ifatal (st : ist) (f : bool) : ist := mkI (is_list st) (is_fatal st || f).

(* the loop over the children of a Choice (kc: conditional alternatives are filtered), a Sequence (ks:
   children that became Empty are dropped) or a Lookahead *)
Section SubsLoop.
  Variable f : ist -> expr -> expr * ist.
  Variable chk : pred -> bool * bool.
  Fixpoint subs_loop (kc ks : bool) (l : list expr) (st : ist) {struct l} : list expr * ist :=
    match l with
    | [] => ([], st)
    | s :: rest =>
        let k := fun (cs : expr * ist) =>
          let '(conv, st) := cs in
          let '(r, st) := subs_loop kc ks rest st in
          if ks && is_empty_e conv then (r, st) else (conv :: r, st) in
        match s with
        | ECond p inner =>
            if kc then
              let '(b, fl) := chk p in
              let st := set_ifatal st fl in
              if b then k (f st inner) else subs_loop kc ks rest st
            else k (f st s)
        | _ => k (f st s)
        end
    end.
End SubsLoop.

(* doExpr *)
Fixpoint do_expr (T : Z) (ctx : option env) (st : ist) (e : expr) {struct e} : expr * ist :=
  let subs_of (kind_choice kind_seq : bool) :=
    subs_loop (fun st x => do_expr T ctx st x) (check_pred ctx) kind_choice kind_seq in
  match e with
  | ERef s args =>
      if T <=? s then
        let '(k, st) := resolve_instance st ctx (s - T) args in (ERef (T + Z.of_nat k) [], st)
      else (e, st)
  | ECond p s =>
      let '(b, f) := check_pred ctx p in
      let st := set_ifatal st f in
      if b then do_expr T ctx st s else (EEmpty, st)
  | EChoice l =>
      match l with
      | [] => (e, st)
      | _ => let '(r, st) := subs_of true false l st in
             match r with [] => (EEmpty, st) | [x] => (x, st) | _ => (EChoice r, st) end
      end
  | ESeq l =>
      match l with
      | [] => (e, st)
      | _ => let '(r, st) := subs_of false true l st in (ESeq r, st)
      end
  | EOpt s => let '(c, st) := do_expr T ctx st s in if is_empty_e c then (EEmpty, st) else (EOpt c, st)
  | EAssign n s => let '(c, st) := do_expr T ctx st s in (EAssign n c, st)
  | EAppend n s => let '(c, st) := do_expr T ctx st s in (EAppend n c, st)
  | EArrow n f s => let '(c, st) := do_expr T ctx st s in (EArrow n f c, st)
  | EPrec sym s => let '(c, st) := do_expr T ctx st s in (EPrec sym c, st)
  | ELaNot s => let '(c, st) := do_expr T ctx st s in (ELaNot c, st)
  | ELookahead l =>
      match l with
      | [] => (e, st)
      | _ => let '(r, st) := subs_of false false l st in (ELookahead r, st)
      end
  | EList fl el sep =>
      let '(c, st) := do_expr T ctx st el in
      match sep with
      | None => (EList fl c None, st)
      | Some s => let '(d, st) := do_expr T ctx st s in (EList fl c (Some d), st)
      end
  | EEmpty | ESet _ | EMarker _ | ECmd _ => (e, st)
  end.

(* doSet: only nonterminals without arguments can be named in set expressions of this model *)
Fixpoint do_set (T : Z) (st : ist) (t : tset) : tset * ist :=
  match t with
  | TSym op s =>
      if T <=? s then let '(k, st) := resolve_instance st None (s - T) [] in (TSym op (T + Z.of_nat k), st)
      else (t, st)
  | TUnion l =>
      let '(r, st) := (fix go (l : list tset) (st : ist) : list tset * ist :=
                         match l with [] => ([], st)
                         | x :: rest => let '(y, st) := do_set T st x in let '(r, st) := go rest st in (y :: r, st) end) l st in
      (TUnion r, st)
  | TInter l =>
      let '(r, st) := (fix go (l : list tset) (st : ist) : list tset * ist :=
                         match l with [] => ([], st)
                         | x :: rest => let '(y, st) := do_set T st x in let '(r, st) := go rest st in (y :: r, st) end) l st in
      (TInter r, st)
  | TCompl i x => let '(y, st) := do_set T st x in (TCompl i y, st)
  | TNamed _ => (t, st)
  end.

Definition s_true : bytes := [116; 114; 117; 101].
Definition s_false : bytes := [102; 97; 108; 115; 101].

(* suffix; the flag = log.Fatal("broken invariant") on a value that is neither "true" nor "false" *)
Definition suffix_of (params : list param) (e : env) : bytes * bool :=
  fold_left (fun '(sfx, fatal) '(p, v) =>
      if bytes_eqb v s_true then (sfx ++ [95] ++ p_name (nth (Z.to_nat p) params (mkParam [] [] false)), fatal)
      else if bytes_eqb v s_false then (sfx, fatal) else (sfx, true)) e ([], false).

(* the main loop: instantiate every allocated instance (the list grows while it is walked) *)
Fixpoint inst_loop (fuel : nat) (T : Z) (nts : list nonterm) (i : nat) (st : ist) (vals : list expr) : list expr * ist :=
  match fuel with
  | O => (vals, mkI (is_list st) true)
  | S f =>
    match nth_error (is_list st) i with
    | None => (vals, st)
    | Some cur =>
        let v := nt_value (nth (Z.to_nat (i_nt cur)) nts (mkNt [] [] EEmpty 0)) in
        let '(c, st) := do_expr T (Some (inst_env cur)) st v in
        inst_loop f T nts (S i) st (vals ++ [c])
    end
  end.

Record tresult := mkTR {
  tr_nonterms : list (bytes * expr * Z);     (* name, value, group *)
  tr_inputs : list input;
  tr_sets : list tset;
  tr_fatal : bool
}.

(* order by (nonterm, suffix) *)
Definition inst_lt (a b : Z * bytes) : bool :=
  if fst a <? fst b then true else if fst b <? fst a then false else bytes_ltb (snd a) (snd b).
Fixpoint insert_inst (keys : nat -> Z * bytes) (x : nat) (l : list nat) : list nat :=
  match l with
  | [] => [x]
  | y :: t => if inst_lt (keys x) (keys y) then x :: l else y :: insert_inst keys x t
  end.

Definition instantiate (fuel : nat) (m : model) : tresult :=
  let T := nterms m in
  match m_params m with
  | [] => mkTR (map (fun nt => (nt_name nt, nt_value nt, nt_group nt)) (m_nonterms m)) (m_inputs m) (m_sets m) false
  | _ =>
    let st := mkI [] false in
    let '(inputs, st) := fold_left (fun '(acc, st) i =>
        let '(k, st) := resolve_instance st None (in_nt i) [] in
        (acc ++ [mkInput (Z.of_nat k) (in_noeoi i)], st)) (m_inputs m) ([], st) in
    let '(sets, st) := fold_left (fun '(acc, st) s => let '(y, st) := do_set T st s in (acc ++ [y], st)) (m_sets m) ([], st) in
    let '(vals, st) := inst_loop fuel T (m_nonterms m) O st [] in
    let insts := is_list st in
    let sfx := map (fun i => suffix_of (m_params m) (inst_env i)) insts in
    let fatal := is_fatal st || existsb snd sfx in
    let named := map (fun '(i, (s, v)) =>
        let nt := nth (Z.to_nat (i_nt i)) (m_nonterms m) (mkNt [] [] EEmpty 0) in
        (nt_name nt ++ fst s, v, i_nt i + 1)) (List.combine insts (List.combine sfx vals)) in
    let keys k := (i_nt (nth k insts (mkInst 0 [])), fst (nth k sfx ([], false))) in
    let sorted := fold_left (fun acc x => insert_inst keys x acc) (seq 0 (length insts)) [] in
    (* perm[instance.index] = position in the sorted list *)
    let perm := map (fun k => index_of k sorted O) (seq 0 (length insts)) in
    let f := perm_sym T perm in
    let moved := rearrange_list perm named ([], EEmpty, 0) in
    mkTR (map (fun '(n, v, g) => (n, rename_expr f v, g)) moved)
         (map (fun i => mkInput (Z.of_nat (nth (Z.to_nat (in_nt i)) perm O)) (in_noeoi i)) inputs)
         (map (rename_tset f) sets)
         fatal
  end.

(* ---------- the meaning of a templated grammar ---------- *)
(* predicate evaluation under an environment (unbound parameter: false) *)
Fixpoint eval_pred (e : env) (p : pred) : bool :=
  match p with
  | PEq param v => match env_get e param with Some x => bytes_eqb x v | None => false end
  | POr l => existsb (eval_pred e) l
  | PAnd l => forallb (eval_pred e) l
  | PNot s => negb (eval_pred e s)
  end.

(* argument binding of a reference under the caller's environment *)
Definition bind_args (e : env) (args : list arg) : env :=
  flat_map (fun a => match resolve_arg (Some e) a with Some bp => [bp] | None => [] end) args.

Section TDen.
  Variable T : Z.
  Variable trho : Z -> env -> lang.       (* nonterminal symbol, bound arguments (in argument order) -> language *)
  Variable setden : Z -> Z -> Prop.

  Definition alt_enabled (e : env) (a : expr) : bool :=
    match a with ECond p _ => eval_pred e p | _ => true end.

  (* template denotation under the environment of the enclosing instance.  Disabled alternatives of a choice
     are removed; a group left without alternatives, and a conditional that is not an alternative of a
     choice (a parenthesised single rule, a nonterminal with one rule), vanish: they match the empty string.
     This is the reading pinned by syntax/templates_test.go (`F<T>: a ([T] b) a` with T=false gives `F: a a`). *)
  Fixpoint tden (e : env) (x : expr) : lang :=
    match x with
    | EEmpty | EMarker _ | ECmd _ | ELookahead _ | ELaNot _ => lang_eps
    | EOpt s => fun w => w = [] \/ tden e s w
    | EChoice l =>
        match l with
        | [] => lang_any []
        | _ => if existsb (alt_enabled e) l
               then lang_any (map (fun a => if alt_enabled e a then tden e a else (fun _ => False)) l)
               else lang_eps
        end
    | ESeq l => lang_cat (map (tden e) l)
    | ERef s args => if s <? T then (fun w => w = [s]) else trho s (bind_args e args)
    | ESet i => fun w => exists a, w = [a] /\ setden i a
    | EArrow _ _ s | EAssign _ s | EAppend _ s | EPrec _ s => tden e s
    | ECond p s => if eval_pred e p then tden e s else lang_eps
    | EList fl el sep =>
        let E := tden e el in
        let S := match sep with None => lang_eps | Some s => tden e s end in
        fun w => (Z.odd fl = false /\ w = []) \/ plus_sep E S w
    end.
End TDen.

(* ---------- exhaustive semantic specialisation (oracle) ---------- *)
(* all boolean valuations of a parameter list, in argument order *)
Fixpoint valuations (ps : list Z) : list env :=
  match ps with
  | [] => [[]]
  | p :: r => flat_map (fun v => [(p, s_true) :: v; (p, s_false) :: v]) (valuations r)
  end.

(* every (nonterminal, valuation) pair, numbered consecutively *)
Definition all_pairs (nts : list nonterm) : list (Z * env) :=
  flat_map (fun '(i, nt) => map (fun v => (Z.of_nat i, v)) (valuations (nt_params nt)))
           (List.combine (seq 0 (length nts)) nts).

Fixpoint pair_index (nt : Z) (sg : env) (l : list (Z * env)) (k : nat) : option nat :=
  match l with
  | [] => None
  | (n, v) :: r => if (n =? nt) && sig_eqb v sg then Some k else pair_index nt sg r (S k)
  end.

(* specialise an expression under an environment: conditionals are decided (a false one becomes the empty
   choice = no string), references point at the pair of the callee.  [eps_if_dead]: the variant reading in
   which a disabled conditional stands for the empty string. *)
Fixpoint specialise (eps_if_dead : bool) (T : Z) (pairs : list (Z * env)) (e : env) (x : expr) : expr :=
  match x with
  | ERef s args =>
      if s <? T then ERef s []
      else match pair_index (s - T) (bind_args e args) pairs O with
           | Some k => ERef (T + Z.of_nat k) []
           | None => EChoice []            (* not a boolean valuation of the callee: no such instance *)
           end
  | ECond p s => if eval_pred e p then specialise eps_if_dead T pairs e s else if eps_if_dead then EEmpty else EChoice []
  | EOpt s => EOpt (specialise eps_if_dead T pairs e s)
  | EChoice l =>
      let l' := map (specialise eps_if_dead T pairs e) l in
      if eps_if_dead then
        (* drop the disabled alternatives; if none is left the choice stands for the empty string *)
        let live := flat_map (fun a => if match a with ECond p _ => eval_pred e p | _ => true end
                                       then [specialise eps_if_dead T pairs e a] else []) l in
        match l, live with [], _ => EChoice [] | _, [] => EEmpty | _, _ => EChoice live end
      else EChoice l'
  | ESeq l => ESeq (map (specialise eps_if_dead T pairs e) l)
  | EAssign n s => EAssign n (specialise eps_if_dead T pairs e s)
  | EAppend n s => EAppend n (specialise eps_if_dead T pairs e s)
  | EArrow n f s => EArrow n f (specialise eps_if_dead T pairs e s)
  | EPrec sym s => EPrec sym (specialise eps_if_dead T pairs e s)
  | EList fl el sep => EList fl (specialise eps_if_dead T pairs e el) (option_map (specialise eps_if_dead T pairs e) sep)
  | ELookahead _ | ELaNot _ | EEmpty | ESet _ | EMarker _ | ECmd _ => x
  end.

Definition spec_values (eps_if_dead : bool) (T : Z) (nts : list nonterm) : list (Z * env) * list expr :=
  let pairs := all_pairs nts in
  (pairs, map (fun '(n, v) => specialise eps_if_dead T pairs v (nt_value (nth (Z.to_nat n) nts (mkNt [] [] EEmpty 0)))) pairs).

(* ---------- the pieces of Instantiate by name, and the run-time checkable side conditions of the
              correctness theorem (Templates_global.v) ---------- *)
Definition inst_start (m : model) : ist :=
  let T := nterms m in
  let '(inputs, st) := fold_left (fun '(acc, st) i =>
      let '(k, st) := resolve_instance st None (in_nt i) [] in
      (acc ++ [mkInput (Z.of_nat k) (in_noeoi i)], st)) (m_inputs m) ([], mkI [] false) in
  snd (fold_left (fun '(acc, st) s => let '(y, st) := do_set T st s in (acc ++ [y], st)) (m_sets m) ([], st)).

Definition inst_perm (m : model) (insts : list inst) : list nat :=
  let sfx := map (fun i => suffix_of (m_params m) (inst_env i)) insts in
  let keys k := (i_nt (nth k insts (mkInst 0 [])), fst (nth k sfx ([], false))) in
  let sorted := fold_left (fun acc x => insert_inst keys x acc) (seq 0 (length insts)) [] in
  map (fun k => index_of k sorted O) (seq 0 (length insts)).

Definition inst_eqb (a b : inst) : bool := (i_nt a =? i_nt b) && sig_eqb (i_sig a) (i_sig b).
Fixpoint inst_nodupb (l : list inst) : bool :=
  match l with [] => true | x :: r => negb (existsb (inst_eqb x) r) && inst_nodupb r end.

Definition inst_checks (fuel : nat) (m : model) : bool :=
  match m_params m with
  | [] => true
  | _ =>
    let '(vals, st) := inst_loop fuel (nterms m) (m_nonterms m) O (inst_start m) [] in
    negb (is_fatal st) && inst_nodupb (is_list st) &&
    perm_ok (inst_perm m (is_list st)) (length vals) &&
    forallb (bounded (nterms m + Z.of_nat (length vals))) vals
  end.

(* the part of inst_checks that is not proved for all models: no Fatal branch, instances pairwise different,
   references of the instantiated table in range.  That the final sort builds a permutation is a theorem
   (Templates_global.inst_perm_ok), so inst_checks_core implies inst_checks. *)
Definition inst_checks_core (fuel : nat) (m : model) : bool :=
  match m_params m with
  | [] => true
  | _ =>
    let '(vals, st) := inst_loop fuel (nterms m) (m_nonterms m) O (inst_start m) [] in
    negb (is_fatal st) && inst_nodupb (is_list st) &&
    forallb (bounded (nterms m + Z.of_nat (length vals))) vals
  end.

(* ---------- lookahead flags (oracle side only; PropagateLookaheads itself is not modelled) ---------- *)
(* The meaning of a lookahead flag: it is visible in every nonterminal without being declared; a reference
   passes it on unchanged when it is an entry point of the enclosing rule (the first significant symbol, as in
   entryPoints), resets it to false elsewhere, and an explicit argument overrides both.  [la_explicit] rewrites a
   model into one where the lookahead flags are ordinary parameters of every nonterminal with explicit arguments
   everywhere, so that the ordinary template semantics applies. *)
Definition la_flags (m : model) : list Z :=
  flat_map (fun '(i, p) => if p_la p then [Z.of_nat i] else []) (List.combine (seq 0 (length (m_params m))) (m_params m)).

Definition seq_skipped (e : expr) : bool :=
  match e with EEmpty | EMarker _ | ECmd _ | ELookahead _ => true | _ => false end.

Fixpoint la_expr (T : Z) (la : list Z) (entry : bool) (e : expr) : expr :=
  match e with
  | ERef s args =>
      if s <? T then e else
      let is_la p := existsb (Z.eqb p) la in
      let regular := filter (fun a => negb (is_la (a_param a))) args in
      let extra := map (fun v => match filter (fun a => a_param a =? v) args with
                                 | a :: _ => a
                                 | [] => if entry then mkArg v [] v else mkArg v s_false 0
                                 end) la in
      ERef s (regular ++ extra)
  | ESeq l =>
      ESeq ((fix go (l : list expr) (first : bool) : list expr :=
               match l with
               | [] => []
               | x :: r => if seq_skipped x then x :: go r first
                           else la_expr T la (first && entry) x :: go r false
               end) l true)
  | EChoice l => EChoice (map (la_expr T la entry) l)
  | EOpt x => EOpt (la_expr T la entry x)
  | EAssign n x => EAssign n (la_expr T la entry x)
  | EAppend n x => EAppend n (la_expr T la entry x)
  | EArrow n f x => EArrow n f (la_expr T la entry x)
  | ECond p x => ECond p (la_expr T la entry x)
  | EPrec sym x => EPrec sym (la_expr T la entry x)
  | EList fl el sep => EList fl (la_expr T la entry el) (option_map (la_expr T la false) sep)
  | _ => e
  end.

Definition la_explicit (m : model) : model :=
  let la := la_flags m in
  match la with
  | [] => m
  | _ =>
    mkModel (m_terms m) (m_params m)
      (map (fun nt => mkNt (nt_name nt) (nt_params nt ++ la) (la_expr (nterms m) la true (nt_value nt)) (nt_group nt)) (m_nonterms m))
      (m_inputs m) (m_sets m)
  end.
