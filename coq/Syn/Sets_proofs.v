(* Proofs about the model of syntax/nullable.go: isNullable decides "derives the empty string" for the
   denotation of ExtLang.v. *)
From Coq Require Import List ZArith Lia.
From TM Require Import Gram.Cfg Syn.Expr Syn.ExtLang Syn.Expand_proofs Syn.Sets.
Import ListNotations.
Local Open Scope Z_scope.

Lemma lang_cat_nil (ls : list lang) : lang_cat ls [] <-> Forall (fun l => l []) ls.
Proof.
  induction ls as [|l r IH]; cbn.
  - split; auto.
  - split.
    + intros (w1 & w2 & H & H1 & H2). symmetry in H. apply app_eq_nil in H as [-> ->]. constructor; [auto | now apply IH].
    + intro H. inversion H; subst. exists [], []. repeat split; auto. now apply IH.
Qed.

Lemma plus_sep_nil (E S : lang) : plus_sep E S [] <-> E [].
Proof.
  split.
  - intro H. remember [] as w eqn:Hw. induction H as [w H | w1 s w2 H1 IH Hs He]; subst; auto.
    apply app_eq_nil in Hw as [-> Hw]. apply app_eq_nil in Hw as [-> ->]. exact He.
  - apply ps_one.
Qed.

(* what isNullable is defined on: rule bodies as the compiler builds them *)
Fixpoint nullable_scope (e : expr) : bool :=
  match e with
  | EEmpty | ERef _ _ | EMarker _ | ECmd _ | ESet _ | ELookahead _ => true
  | EOpt s | EArrow _ _ s | EAssign _ s | EAppend _ s | EPrec _ s => nullable_scope s
  | EChoice l => match l with [] => false | _ => forallb nullable_scope l end
  | ESeq l => forallb nullable_scope l
  | EList _ el _ => nullable_scope el
  | ELaNot _ | ECond _ _ => false
  end.

Section Nullable.
  Variable T : Z.
  Variable rho : Z -> lang.
  Variable setden : Z -> Z -> Prop.
  Variable nl : list Z.
  (* nl is the set of symbols deriving the empty string; terminals are never in it *)
  Hypothesis Hnl : forall s, mem s nl = true <-> (T <= s /\ rho s []).

  Theorem is_nullable_exact : forall e, nullable_scope e = true ->
    (is_nullable nl e = true <-> den T rho setden e []).
  Proof.
    induction e using expr_ind2; intro Hs; cbn [nullable_scope] in Hs; try discriminate; cbn [is_nullable ExtLang.den].
    - unfold lang_eps. tauto.
    - split; auto.
    - destruct l as [|x l]; [discriminate|]. rewrite existsb_exists, lang_any_map. rewrite forallb_forall in Hs. rewrite Forall_forall in H.
      split; intros (y & Hy & Hv); exists y; split; auto; apply (H y Hy (Hs y Hy)); auto.
    - rewrite forallb_forall, lang_cat_nil, Forall_forall. rewrite forallb_forall in Hs. rewrite Forall_forall in H. split.
      + intros Hv l0 Hl. apply in_map_iff in Hl as (y & <- & Hy). apply (H y Hy (Hs y Hy)). auto.
      + intros Hv y Hy. apply (H y Hy (Hs y Hy)). apply Hv. now apply in_map.
    - rewrite Hnl. destruct (s <? T) eqn:E.
      + apply Z.ltb_lt in E. split; [intros [? _]; lia | discriminate].
      + apply Z.ltb_ge in E. tauto.
    - auto.
    - auto.
    - auto.
    - split; [discriminate | intros (a & Ha & _); discriminate].
    - unfold lang_eps. tauto.
    - unfold lang_eps. tauto.
    - unfold lang_eps. tauto.
    - destruct (Z.odd f) eqn:Eo.
      + rewrite (IHe Hs), plus_sep_nil. split; [auto | intros [[? _]|?]; [discriminate | auto]].
      + split; auto.
    - auto.
  Qed.
End Nullable.
