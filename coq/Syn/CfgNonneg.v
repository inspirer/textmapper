(* C13: executable side condition of the derives bridge (Syn/ToCfg_proofs.v): the plain grammar read from an
   expanded model mentions no negative symbol.  Executable definitions only. *)
From Coq Require Import List ZArith Bool.
From TM Require Import Gram.Cfg.
Import ListNotations.
Local Open Scope Z_scope.

Definition nonneg_rules (g : grammar) : bool :=
  forallb (fun r => forallb (fun s => 0 <=? s) (r_rhs r)) (g_rules g).
