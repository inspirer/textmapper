(* The tables of SetsSpec.v are exact: a stabilised Kleene iteration (result [Some _]) is the inductive definition
   (nullable_in, first_in, last_in, any_in, follow_in, precede_in), and a closed set expression evaluated from the
   tables has its declarative meaning. last and precede are first and follow of the reversed grammar. *)
From Coq Require Import List ZArith Bool Lia.
From TM Require Import Lib.ListX Gram.Cfg Gram.Cfg_proofs Syn.Expr Syn.SetsSpec.
Import ListNotations.
Local Open Scope Z_scope.

Lemma mem_nil x : mem x [] = false. Proof. reflexivity. Qed.

Lemma mem_In x l : mem x l = true <-> In x l.
Proof. apply Cfg_proofs.mem_In. Qed.

Lemma table_eqb_eq a : forall b, table_eqb a b = true -> a = b.
Proof.
  induction a as [|[x l] a IH]; intros [|[y k] b] H; try discriminate; auto.
  cbn in H. apply andb_true_iff in H as [H H3]. apply andb_true_iff in H as [H1 H2].
  apply Z.eqb_eq in H1. apply zl_eqb_eq in H2. subst. f_equal. auto.
Qed.

Section Nullable.
  Variable rules : list prule.

  Definition nstep (nl : list Z) (r : prule) : list Z :=
    if forallb (fun s => mem s nl) (snd r) then ins (fst r) nl else nl.

  Lemma spec_nullable_step_fold nl : spec_nullable_step rules nl = fold_left nstep rules nl.
  Proof.
    unfold spec_nullable_step. revert nl. induction rules as [|[x rhs] rs IH]; intro nl; cbn [fold_left]; auto.
  Qed.

  Lemma nstep_grows nl r y : mem y nl = true -> mem y (nstep nl r) = true.
  Proof. unfold nstep. intro H. destruct (forallb _ _); auto. rewrite mem_ins, H. apply orb_true_r. Qed.

  Lemma fold_nstep_grows rs : forall nl y, mem y nl = true -> mem y (fold_left nstep rs nl) = true.
  Proof. induction rs as [|r rs IH]; intros nl y H; cbn [fold_left]; auto. apply IH. now apply nstep_grows. Qed.

  Lemma fold_nstep_closed rs : forall nl0 nl r,
    (forall y, mem y nl0 = true -> mem y nl = true) ->
    In r rs -> forallb (fun s => mem s nl0) (snd r) = true -> mem (fst r) (fold_left nstep rs nl) = true.
  Proof.
    induction rs as [|r0 rs IH]; intros nl0 nl r Hm Hin Hb; [destruct Hin|]. cbn [fold_left].
    destruct Hin as [-> | Hin].
    - apply fold_nstep_grows. unfold nstep.
      replace (forallb _ (snd r)) with true; [rewrite mem_ins, Z.eqb_refl; reflexivity|].
      symmetry. rewrite forallb_forall in *. auto.
    - apply (IH nl0); auto. intros y Hy. apply nstep_grows. auto.
  Qed.

  Lemma fold_nstep_sound rs : (forall r, In r rs -> In r rules) -> forall nl,
    (forall y, mem y nl = true -> nullable_in rules y) ->
    forall y, mem y (fold_left nstep rs nl) = true -> nullable_in rules y.
  Proof.
    induction rs as [|r rs IH]; intros Hsub nl Hnl y Hy; cbn [fold_left] in Hy; auto.
    apply (IH (fun r' H => Hsub r' (or_intror H)) (nstep nl r)); auto.
    intros z Hz. unfold nstep in Hz. destruct (forallb _ (snd r)) eqn:Eb; auto.
    rewrite mem_ins in Hz. apply orb_true_iff in Hz as [Hz | Hz]; auto.
    apply Z.eqb_eq in Hz. subst z. destruct r as [x rhs]. apply (nu_rule rules x rhs).
    - apply Hsub. now left.
    - intros s Hs. apply Hnl. rewrite forallb_forall in Eb. now apply Eb.
  Qed.

  Theorem spec_nullable_exact nl : spec_nullable rules = Some nl ->
    forall X, mem X nl = true <-> nullable_in rules X.
  Proof.
    unfold spec_nullable. set (n0 := iterate _ _ _). destruct (zl_eqb _ n0) eqn:E; [|discriminate].
    intro H. injection H as <-. apply zl_eqb_eq in E. intro X. split.
    - revert X. apply (iterate_inv (fun nl => forall y, mem y nl = true -> nullable_in rules y)); [discriminate|].
      intros nl Hnl y Hy. rewrite spec_nullable_step_fold in Hy. eapply fold_nstep_sound; eauto.
    - induction 1 as [X rhs Hin _ IH]. rewrite <- E, spec_nullable_step_fold.
      apply (fold_nstep_closed rules n0 n0 (X, rhs)); auto. cbn [snd]. apply forallb_forall. exact IH.
  Qed.
End Nullable.

(* The grammar with reversed right-hand sides: its first is last, its follow is precede. *)
Definition rev_rules (rules : list prule) : list prule := map (fun r => (fst r, rev (snd r))) rules.

Lemma in_rev_rules rules X rhs : In (X, rhs) (rev_rules rules) <-> In (X, rev rhs) rules.
Proof.
  unfold rev_rules. rewrite in_map_iff. split.
  - intros ([Y r] & H & Hin). cbn in H. injection H as <- <-. now rewrite rev_involutive.
  - intro H. exists (X, rev rhs). cbn. now rewrite rev_involutive.
Qed.

Lemma rev_rules_invol rules : rev_rules (rev_rules rules) = rules.
Proof.
  unfold rev_rules. rewrite map_map. rewrite <- (map_id rules) at 2. apply map_ext. intros [x r]. cbn. now rewrite rev_involutive.
Qed.

Lemma nullable_rev1 rules X : nullable_in rules X -> nullable_in (rev_rules rules) X.
Proof.
  induction 1 as [X rhs Hin _ IH]. apply (nu_rule _ X (rev rhs)).
  - apply in_rev_rules. now rewrite rev_involutive.
  - intros s Hs. apply IH. now apply in_rev.
Qed.

Lemma nullable_rev rules X : nullable_in (rev_rules rules) X <-> nullable_in rules X.
Proof. split; [intro H; apply nullable_rev1 in H; now rewrite rev_rules_invol in H | apply nullable_rev1]. Qed.

Lemma all_nullable_rev rules l : all_nullable (rev_rules rules) (rev l) <-> all_nullable rules l.
Proof.
  unfold all_nullable. split; intros H s Hs.
  - apply (nullable_rev rules), H. now apply -> in_rev.
  - apply (nullable_rev rules), H. now apply in_rev.
Qed.

Lemma rev_flip (pre : list Z) y post : rev (rev post ++ y :: rev pre) = pre ++ y :: post.
Proof. rewrite rev_app_distr. cbn [rev]. rewrite !rev_involutive, <- app_assoc. reflexivity. Qed.

Lemma last_first_rev1 T rules s a : last_in T rules s a -> first_in T (rev_rules rules) s a.
Proof.
  induction 1 as [b Hb | X pre y post b Hin Hpost _ IH]; [now apply fi_term|].
  apply (fi_rule T _ X (rev post) y (rev pre) b); auto.
  - apply in_rev_rules. now rewrite rev_flip.
  - now apply all_nullable_rev.
Qed.

Lemma first_last_rev1 T rules s a : first_in T rules s a -> last_in T (rev_rules rules) s a.
Proof.
  induction 1 as [b Hb | X pre y post b Hin Hpre _ IH]; [now apply la_term|].
  apply (la_rule T _ X (rev post) y (rev pre) b); auto.
  - apply in_rev_rules. now rewrite rev_flip.
  - now apply all_nullable_rev.
Qed.

Lemma first_rev T rules s a : first_in T (rev_rules rules) s a <-> last_in T rules s a.
Proof. split; [intro H; apply first_last_rev1 in H; now rewrite rev_rules_invol in H | apply last_first_rev1]. Qed.

Lemma rev_mid (pre : list Z) y mid s post : rev (pre ++ y :: mid ++ s :: post) = rev post ++ s :: rev mid ++ y :: rev pre.
Proof. rewrite rev_app_distr. cbn [rev]. rewrite rev_app_distr. cbn [rev]. now rewrite <- !app_assoc. Qed.

Lemma precede_follow_rev1 T rules s a : precede_in T rules s a -> follow_in T (rev_rules rules) s a.
Proof.
  induction 1 as [X pre y mid s post a Hin Hmid Hy | X pre s post a Hin Hpre _ IH].
  - apply (fo_next T _ X (rev post) s (rev mid) y (rev pre) a).
    + apply in_rev_rules. rewrite <- rev_mid, rev_involutive. exact Hin.
    + now apply all_nullable_rev.
    + now apply first_rev.
  - apply (fo_end T _ X (rev post) s (rev pre) a); auto.
    + apply in_rev_rules. now rewrite rev_flip.
    + now apply all_nullable_rev.
Qed.

Lemma follow_precede_rev1 T rules s a : follow_in T rules s a -> precede_in T (rev_rules rules) s a.
Proof.
  induction 1 as [X pre s mid y post a Hin Hmid Hy | X pre s post a Hin Hpost _ IH].
  - apply (pr_prev T _ X (rev post) y (rev mid) s (rev pre) a).
    + apply in_rev_rules. rewrite <- rev_mid, rev_involutive. exact Hin.
    + now apply all_nullable_rev.
    + now apply first_last_rev1.
  - apply (pr_start T _ X (rev post) s (rev pre) a); auto.
    + apply in_rev_rules. now rewrite rev_flip.
    + now apply all_nullable_rev.
Qed.

Lemma follow_rev T rules s a : follow_in T (rev_rules rules) s a <-> precede_in T rules s a.
Proof. split; [intro H; apply follow_precede_rev1 in H; now rewrite rev_rules_invol in H | apply precede_follow_rev1]. Qed.

Lemma first_in_range T R s a : first_in T R s a -> 0 <= a < T.
Proof. induction 1; auto. Qed.

Lemma any_in_range T R s a : any_in T R s a -> 0 <= a < T.
Proof. induction 1; auto. Qed.

Lemma follow_in_range T R s a : follow_in T R s a -> 0 <= a < T.
Proof. induction 1; auto. eapply first_in_range; eauto. Qed.

Lemma op_in_range T R op s a : op_in T R op s a -> 0 <= a < T.
Proof.
  unfold op_in. destruct (op =? 0); [apply any_in_range|]. destruct (op =? 1); [apply first_in_range|].
  destruct (op =? 2); [rewrite <- first_rev; apply first_in_range|].
  destruct (op =? 3); [rewrite <- follow_rev; apply follow_in_range|].
  destruct (op =? 4); [apply follow_in_range | tauto].
Qed.

(* The visible prefix: the symbols of a string up to and including the first that is not nullable. *)
Fixpoint vis (nl : list Z) (syms : list Z) : list Z :=
  match syms with
  | [] => []
  | s :: rest => s :: (if mem s nl then vis nl rest else [])
  end.

Lemma vis_decl rules nl syms y : (forall s, In s syms -> (mem s nl = true <-> nullable_in rules s)) ->
  (In y (vis nl syms) <-> exists pre post, syms = pre ++ y :: post /\ all_nullable rules pre).
Proof.
  induction syms as [|s rest IH]; intro Hnl; cbn [vis].
  - split; [intros [] | intros ([|? ?] & post & H & _); discriminate].
  - specialize (IH (fun z Hz => Hnl z (or_intror Hz))). split.
    + intros [<- | H]; [exists [], rest; split; [reflexivity | intros ? []]|].
      destruct (mem s nl) eqn:Es; [|destruct H]. apply IH in H as (pre & post & -> & Hp).
      exists (s :: pre), post. split; [reflexivity|]. intros z [<- | Hz]; [now apply Hnl; [left|] | auto].
    + intros ([|p pre] & post & Heq & Hp); cbn [app] in Heq; injection Heq as <- ->; [now left | right].
      rewrite (proj2 (Hnl s (or_introl eq_refl)) (Hp s (or_introl eq_refl))). apply IH.
      exists pre, post. split; [reflexivity|]. intros z Hz. apply Hp. now right.
Qed.

Lemma tget_tadd t x l y a :
  mem a (tget (tadd t x l) y) = if y =? x then mem a (tget t x) || mem a l else mem a (tget t y).
Proof.
  induction t as [|[z l0] t IH]; cbn [tadd tget].
  - destruct (Z.eqb_spec x y) as [->|N].
    + rewrite Z.eqb_refl, mem_union. reflexivity.
    + destruct (Z.eqb_spec y x) as [->|_]; [congruence | reflexivity].
  - destruct (Z.eqb_spec z x) as [->|Nzx]; cbn [tget].
    + destruct (Z.eqb_spec x y) as [->|N].
      * rewrite Z.eqb_refl, mem_union. reflexivity.
      * destruct (Z.eqb_spec y x) as [->|_]; [congruence | reflexivity].
    + destruct (Z.eqb_spec z y) as [->|Nzy].
      * destruct (Z.eqb_spec y x) as [->|_]; [congruence | reflexivity].
      * exact IH.
Qed.

Definition add_item (acc : table) (it : Z * list Z) : table := tadd acc (fst it) (snd it).

Lemma fold_item_grows its : forall acc x a, mem a (tget acc x) = true -> mem a (tget (fold_left add_item its acc) x) = true.
Proof.
  induction its as [|it its IH]; intros acc x a H; cbn [fold_left]; auto. apply IH. unfold add_item.
  rewrite tget_tadd. destruct (x =? fst it) eqn:E; auto. apply Z.eqb_eq in E. subst. now rewrite H.
Qed.

Lemma fold_item_contains its : forall acc it a, In it its -> mem a (snd it) = true ->
  mem a (tget (fold_left add_item its acc) (fst it)) = true.
Proof.
  induction its as [|i0 its IH]; intros acc it a Hin Ha; [destruct Hin|]. cbn [fold_left]. destruct Hin as [-> | Hin].
  - apply fold_item_grows. unfold add_item. rewrite tget_tadd, Z.eqb_refl, Ha. apply orb_true_r.
  - now apply IH.
Qed.

Lemma fold_item_origin its : forall acc x a, mem a (tget (fold_left add_item its acc) x) = true ->
  mem a (tget acc x) = true \/ exists it, In it its /\ fst it = x /\ mem a (snd it) = true.
Proof.
  induction its as [|i0 its IH]; intros acc x a H; cbn [fold_left] in H; [now left|].
  apply IH in H as [H | (it & Hin & Hx & Ha)].
  - unfold add_item in H. rewrite tget_tadd in H. destruct (x =? fst i0) eqn:E; [|now left].
    apply Z.eqb_eq in E. apply orb_true_iff in H as [H | H]; [left; now subst | right].
    exists i0. split; [now left|]. auto.
  - right. exists it. split; [now right|]. auto.
Qed.

Lemma fix_table_ext k f g : (forall t, f t = g t) -> fix_table k f = fix_table k g.
Proof.
  intro H. unfold fix_table. replace (iterate k f []) with (iterate k g []); [now rewrite H|].
  generalize (@nil (Z * list Z)). induction k as [|k IH]; intro t; cbn [iterate]; [reflexivity|]. now rewrite H, IH.
Qed.

(* A stabilised table whose step adds the items computed from the previous round holds only what the items
   can justify (P), and contains every item computed from itself. *)
Lemma fix_table_exact (items : table -> list (Z * list Z)) (P : Z -> Z -> Prop) k step t :
  (forall t, step t = fold_left add_item (items t) t) ->
  (forall t, (forall x a, mem a (tget t x) = true -> P x a) ->
             forall it a, In it (items t) -> mem a (snd it) = true -> P (fst it) a) ->
  fix_table k step = Some t ->
  (forall x a, mem a (tget t x) = true -> P x a) /\
  (forall it a, In it (items t) -> mem a (snd it) = true -> mem a (tget t (fst it)) = true).
Proof.
  intros Hstep Hsound. unfold fix_table. set (t0 := iterate k step []).
  destruct (table_eqb (step t0) t0) eqn:E; [|discriminate]. intro H. injection H as <-. apply table_eqb_eq in E. split.
  - apply (iterate_inv (fun t => forall x a, mem a (tget t x) = true -> P x a)); [discriminate|].
    intros t Ht x a H. rewrite Hstep in H.
    apply fold_item_origin in H as [H | (it & Hin & <- & Ha)]; [now apply Ht | now apply (Hsound t Ht)].
  - intros it a Hin Ha. rewrite <- E, Hstep. now apply fold_item_contains.
Qed.

Lemma step_with_items contrib rules t :
  step_with contrib rules t = fold_left add_item (map (fun r => (fst r, contrib t r)) rules) t.
Proof. unfold step_with. generalize t at 2 4. induction rules as [|r rs IH]; intro acc; cbn [fold_left map]; auto. Qed.

Lemma sym_val_term T t a s : 0 <= s < T -> (mem a (sym_val T t s) = true <-> a = s).
Proof.
  intro H. unfold sym_val. replace ((0 <=? s) && (s <? T)) with true by (symmetry; apply andb_true_iff; split; [apply Z.leb_le | apply Z.ltb_lt]; lia).
  unfold mem. cbn. rewrite orb_false_r. apply Z.eqb_eq.
Qed.

Lemma sym_val_nonterm T t s : T <= s -> sym_val T t s = tget t s.
Proof. intro H. unfold sym_val. replace (s <? T) with false by (symmetry; apply Z.ltb_ge; lia). now rewrite andb_false_r. Qed.

Lemma sym_val_sound (P : Z -> Z -> Prop) T t :
  (forall a, 0 <= a < T -> P a a) -> (forall x a, mem a (tget t x) = true -> P x a) ->
  forall y a, mem a (sym_val T t y) = true -> P y a.
Proof.
  intros Hterm Ht y a H. unfold sym_val in H. destruct ((0 <=? y) && (y <? T)) eqn:E; [|now apply Ht].
  apply andb_true_iff in E as [E1 E2]. apply Z.leb_le in E1. apply Z.ltb_lt in E2.
  unfold mem in H. cbn in H. rewrite orb_false_r in H. apply Z.eqb_eq in H. subst. apply Hterm. lia.
Qed.

Lemma prefix_vals_vis T nl t syms a :
  mem a (prefix_vals T nl t syms) = true <-> exists y, In y (vis nl syms) /\ mem a (sym_val T t y) = true.
Proof.
  rewrite <- existsb_exists. apply eq_iff_eq_true.
  induction syms as [|s rest IH]; cbn [prefix_vals vis existsb]; [reflexivity|].
  rewrite mem_union. destruct (mem s nl); [now rewrite IH | reflexivity].
Qed.

Section Tables.
  Variable T : Z.
  Variable rules : list prule.
  Variable nl : list Z.
  Hypothesis Hnl : forall X, mem X nl = true <-> nullable_in rules X.
  Hypothesis Hlhs : forall r, In r rules -> T <= fst r.      (* left-hand sides are nonterminals *)

  Lemma vis_rules syms y : In y (vis nl syms) <-> exists pre post, syms = pre ++ y :: post /\ all_nullable rules pre.
  Proof. apply vis_decl. intros s _. apply Hnl. Qed.

  Theorem spec_first_exact t : spec_first T nl rules = Some t ->
    forall s a, mem a (sym_val T t s) = true <-> first_in T rules s a.
  Proof.
    intro H. apply (fix_table_exact (fun t => map (fun r => (fst r, prefix_vals T nl t (snd r))) rules) (first_in T rules)) in H
      as [Hs Hc]; [| apply step_with_items |].
    - intros s a. split; [apply sym_val_sound; [apply fi_term | exact Hs]|].
      induction 1 as [b Hb | X pre y post b Hin Hpre _ IH]; [now apply sym_val_term|].
      rewrite (sym_val_nonterm T t X (Hlhs _ Hin)).
      apply (Hc (X, prefix_vals T nl t (pre ++ y :: post))); [exact (in_map _ _ _ Hin)|].
      apply prefix_vals_vis. exists y. split; [apply vis_rules; eauto | exact IH].
    - intros t0 Ht it a Hin Ha. apply in_map_iff in Hin as ([X rhs] & <- & Hin). cbn [fst snd] in *.
      apply prefix_vals_vis in Ha as (y & Hy & Ha). apply vis_rules in Hy as (pre & post & -> & Hp).
      apply (fi_rule T rules X pre y post a Hin Hp). revert Ha. apply sym_val_sound; [apply fi_term | exact Ht].
  Qed.

  Lemma any_contrib_spec t r a :
    mem a (any_contrib T t r) = true <-> exists s, In s (snd r) /\ mem a (sym_val T t s) = true.
  Proof.
    rewrite <- existsb_exists, <- (orb_false_l (existsb _ _)). apply eq_iff_eq_true.
    unfold any_contrib. change false with (mem a []). generalize (@nil Z).
    induction (snd r) as [|s l IH]; intro acc; cbn [fold_left existsb]; [now rewrite orb_false_r|].
    now rewrite IH, mem_union, orb_assoc.
  Qed.

  Theorem spec_any_exact t : spec_any T rules = Some t ->
    forall s a, mem a (sym_val T t s) = true <-> any_in T rules s a.
  Proof.
    intro H. apply (fix_table_exact (fun t => map (fun r => (fst r, any_contrib T t r)) rules) (any_in T rules)) in H
      as [Hs Hc]; [| apply step_with_items |].
    - intros s a. split; [apply sym_val_sound; [apply an_term | exact Hs]|].
      induction 1 as [b Hb | X pre y post b Hin _ IH]; [now apply sym_val_term|].
      rewrite (sym_val_nonterm T t X (Hlhs _ Hin)).
      apply (Hc (X, any_contrib T t (X, pre ++ y :: post))); [exact (in_map _ _ _ Hin)|].
      apply any_contrib_spec. exists y. split; [apply in_elt | exact IH].
    - intros t0 Ht it a Hin Ha. apply in_map_iff in Hin as ([X rhs] & <- & Hin). cbn [fst snd] in *.
      apply any_contrib_spec in Ha as (y & Hy & Ha). cbn [snd] in Hy. apply in_split in Hy as (pre & post & ->).
      apply (an_rule T rules X pre y post a Hin). revert Ha. apply sym_val_sound; [apply an_term | exact Ht].
  Qed.

  (* the contributions of one rule: for every occurrence of a symbol, what follows it *)
  Fixpoint contribs (ft t : table) (x : Z) (rhs : list Z) : list (Z * list Z) :=
    match rhs with
    | [] => []
    | s :: rest => (s, prefix_vals T nl ft rest) :: (if all_null nl rest then [(s, tget t x)] else []) ++ contribs ft t x rest
    end.

  Lemma follow_contrib_fold ft t x rhs : forall acc, follow_contrib T nl ft t x rhs acc = fold_left add_item (contribs ft t x rhs) acc.
  Proof.
    induction rhs as [|s rest IH]; intro acc; cbn [follow_contrib contribs fold_left]; [reflexivity|].
    unfold add_item at 1. cbn [fst snd]. destruct (all_null nl rest); cbn [app fold_left]; rewrite IH; reflexivity.
  Qed.

  Lemma step_fold ft t : follow_step T nl ft rules t = fold_left add_item (flat_map (fun r => contribs ft t (fst r) (snd r)) rules) t.
  Proof.
    unfold follow_step. generalize t at 2 4. generalize rules. intro rs.
    induction rs as [|[x rhs] rs IH]; intro acc; cbn [fold_left flat_map fst snd]; [reflexivity|].
    rewrite fold_left_app, <- follow_contrib_fold. apply IH.
  Qed.

  Lemma contribs_in ft t x rhs k l : In (k, l) (contribs ft t x rhs) <->
    exists pre rest, rhs = pre ++ k :: rest /\ (l = prefix_vals T nl ft rest \/ (all_null nl rest = true /\ l = tget t x)).
  Proof.
    induction rhs as [|s rest IH]; cbn [contribs].
    - split; [intros [] | intros ([|? ?] & ? & H & _); discriminate].
    - cbn [In]. rewrite in_app_iff, IH. split.
      + intros [H | [H | (pre & r2 & -> & Hl)]].
        * injection H as <- <-. exists [], rest. split; [reflexivity | now left].
        * destruct (all_null nl rest) eqn:En; [|destruct H]. destruct H as [H | []]. injection H as <- <-.
          exists [], rest. split; [reflexivity | right; auto].
        * exists (s :: pre), r2. split; [reflexivity | exact Hl].
      + intros ([|p pre] & r2 & Heq & Hl); cbn [app] in Heq; injection Heq as <- ->.
        * destruct Hl as [-> | [En ->]]; [now left | right; left; rewrite En; now left].
        * right. right. eauto.
  Qed.

  Lemma all_null_spec l : all_null nl l = true <-> all_nullable rules l.
  Proof.
    unfold all_null, all_nullable. rewrite forallb_forall. split; intros H s Hs; apply Hnl; auto.
  Qed.

  Theorem spec_follow_exact ft : (forall s a, mem a (sym_val T ft s) = true <-> first_in T rules s a) ->
    forall t, spec_follow T nl ft rules = Some t -> forall s a, mem a (tget t s) = true <-> follow_in T rules s a.
  Proof.
    intros Hft t H.
    apply (fix_table_exact (fun t => flat_map (fun r => contribs ft t (fst r) (snd r)) rules) (follow_in T rules)) in H
      as [Hs Hc]; [| apply step_fold |].
    - intros s a. split; [apply Hs|].
      induction 1 as [X pre s mid y post a Hin Hmid Hy | X pre s post a Hin Hpost _ IH].
      + apply (Hc (s, prefix_vals T nl ft (mid ++ y :: post))).
        * apply in_flat_map. exists (X, pre ++ s :: mid ++ y :: post). split; [exact Hin|].
          apply contribs_in. exists pre, (mid ++ y :: post). split; [reflexivity | now left].
        * apply prefix_vals_vis. exists y. split; [apply vis_rules; eauto | now apply Hft].
      + apply (Hc (s, tget t X)); [|exact IH].
        apply in_flat_map. exists (X, pre ++ s :: post). split; [exact Hin|]. apply contribs_in.
        exists pre, post. split; [reflexivity | right]. split; [now apply all_null_spec | reflexivity].
    - intros t0 Ht [k l] a Hin Ha. cbn [fst snd] in *. apply in_flat_map in Hin as ([X rhs] & Hr & Hc). cbn [fst snd] in Hc.
      apply contribs_in in Hc as (pre & rest & -> & [-> | [Hn ->]]).
      + apply prefix_vals_vis in Ha as (y & Hy & Ha). apply vis_rules in Hy as (mid & post & -> & Hmid).
        apply (fo_next T rules X pre k mid y post a Hr Hmid). now apply Hft.
      + apply (fo_end T rules X pre k rest a Hr); [now apply all_null_spec | now apply Ht].
  Qed.
End Tables.

Lemma spec_last_rev T nl rules : spec_last T nl rules = spec_first T nl (rev_rules rules).
Proof.
  unfold spec_last, spec_first, rev_rules. rewrite map_length. apply fix_table_ext. intro t.
  unfold last_step, first_step. now rewrite !step_with_items, map_map.
Qed.

Lemma spec_precede_rev T nl lt rules : spec_precede T nl lt rules = spec_follow T nl lt (rev_rules rules).
Proof.
  unfold spec_precede, spec_follow, rev_rules. rewrite map_length. apply fix_table_ext. intro t.
  unfold precede_step, follow_step. generalize t at 2 4.
  induction rules as [|[x rhs] rs IH]; intro acc; cbn [fold_left map fst snd]; auto.
Qed.

Section Reversed.
  Variable T : Z.
  Variable rules : list prule.
  Variable nl : list Z.
  Hypothesis Hnl : forall X, mem X nl = true <-> nullable_in rules X.
  Hypothesis Hlhs : forall r, In r rules -> T <= fst r.

  Lemma rev_nl X : mem X nl = true <-> nullable_in (rev_rules rules) X.
  Proof. now rewrite nullable_rev. Qed.

  Lemma rev_lhs r : In r (rev_rules rules) -> T <= fst r.
  Proof. destruct r as [X rhs]. intro H. apply in_rev_rules in H. exact (Hlhs _ H). Qed.

  Theorem spec_last_exact t : spec_last T nl rules = Some t ->
    forall s a, mem a (sym_val T t s) = true <-> last_in T rules s a.
  Proof.
    rewrite spec_last_rev. intros H s a. rewrite <- first_rev.
    exact (spec_first_exact T (rev_rules rules) nl rev_nl rev_lhs t H s a).
  Qed.

  Theorem spec_precede_exact lt : (forall s a, mem a (sym_val T lt s) = true <-> last_in T rules s a) ->
    forall t, spec_precede T nl lt rules = Some t -> forall s a, mem a (tget t s) = true <-> precede_in T rules s a.
  Proof.
    rewrite spec_precede_rev. intros Hlt t H s a. rewrite <- follow_rev.
    apply (spec_follow_exact T (rev_rules rules) nl rev_nl lt); [|exact H].
    intros s0 a0. now rewrite Hlt, first_rev.
  Qed.
End Reversed.

Section TsetInd.
  Variable P : tset -> Prop.
  Hypothesis Hsym : forall op s, P (TSym op s).
  Hypothesis Hunion : forall l, Forall P l -> P (TUnion l).
  Hypothesis Hinter : forall l, Forall P l -> P (TInter l).
  Hypothesis Hcompl : forall i t, P t -> P (TCompl i t).
  Hypothesis Hnamed : forall i, P (TNamed i).
  Fixpoint tset_ind2 (t : tset) : P t :=
    let fix all (l : list tset) : Forall P l :=
      match l with [] => Forall_nil P | x :: r => Forall_cons x (tset_ind2 x) (all r) end in
    match t with
    | TSym op s => Hsym op s
    | TUnion l => Hunion l (all l)
    | TInter l => Hinter l (all l)
    | TCompl i x => Hcompl i x (tset_ind2 x)
    | TNamed i => Hnamed i
    end.
End TsetInd.

Theorem mem_set_exact T rules tb :
  (forall r, In r rules -> T <= fst r) ->
  all_tables T rules = Some tb ->
  forall t, closed_tset t = true -> forall a, (mem_set T tb t a = true <-> set_den T rules t a).
Proof.
  (* all_tables succeeds only if all six iterations stabilise, so each table is exact; the rest is the
     structure of the expression *)
  intros Hlhs Hall. unfold all_tables, plain_table in Hall.
  destruct (spec_nullable rules) as [nl|] eqn:En; [|discriminate].
  pose proof (spec_nullable_exact rules nl En) as Hnl.
  cbn [Z.eqb] in Hall.
  destruct (spec_any T rules) as [ta|] eqn:Ea; [|discriminate].
  destruct (spec_first T nl rules) as [tf|] eqn:Ef; [|discriminate].
  destruct (spec_last T nl rules) as [tl|] eqn:El; [|discriminate].
  destruct (spec_precede T nl tl rules) as [tp|] eqn:Ep; [|discriminate].
  destruct (spec_follow T nl tf rules) as [tfo|] eqn:Efo; [|discriminate].
  injection Hall as <-.
  pose proof (spec_any_exact T rules Hlhs ta Ea) as HA.
  pose proof (spec_first_exact T rules nl Hnl Hlhs tf Ef) as HF.
  pose proof (spec_last_exact T rules nl Hnl Hlhs tl El) as HL.
  pose proof (spec_precede_exact T rules nl Hnl tl HL tp Ep) as HP.
  pose proof (spec_follow_exact T rules nl Hnl tf HF tfo Efo) as HFo.
  induction t using tset_ind2; intros Hc a; cbn [closed_tset] in Hc; cbn [mem_set set_den tb_any tb_first tb_last tb_precede tb_follow].
  - unfold op_in. destruct (op =? 0); [apply HA|]. destruct (op =? 1); [apply HF|]. destruct (op =? 2); [apply HL|].
    destruct (op =? 3); [apply HP|]. destruct (op =? 4); [apply HFo|]. split; [discriminate | tauto].
  - induction H as [|x l Hx Hl IH]; cbn [existsb]; [split; [discriminate | tauto]|].
    cbn [forallb] in Hc. apply andb_true_iff in Hc as [Hc1 Hc2]. rewrite orb_true_iff, (Hx Hc1 a), (IH Hc2). tauto.
  - induction H as [|x l Hx Hl IH]; cbn [forallb]; [tauto|].
    cbn [forallb] in Hc. apply andb_true_iff in Hc as [Hc1 Hc2]. rewrite andb_true_iff, (Hx Hc1 a), (IH Hc2). tauto.
  - rewrite negb_true_iff, <- (IHt Hc a). now destruct (mem_set _ _ t a).
  - discriminate.
Qed.

Theorem eval_set_exact T rules tb :
  (forall r, In r rules -> T <= fst r) ->
  all_tables T rules = Some tb ->
  forall t, closed_tset t = true -> forall a, In a (eval_set T tb t) <-> (0 <= a < T /\ set_den T rules t a).
Proof.
  intros Hlhs Hall t Hc a. unfold eval_set. rewrite filter_In, in_map_of_nat_seq, (mem_set_exact T rules tb Hlhs Hall t Hc a). reflexivity.
Qed.
