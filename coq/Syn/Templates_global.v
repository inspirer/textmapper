(* Instantiate as a whole: the language of a templated grammar as a least solution over (nonterminal, arguments), the
   instance work list, the final sort. *)
From Coq Require Import List ZArith Bool Lia Permutation.
From TM Require Import Syn.Expr Syn.Expand Syn.ExtLang Syn.Expand_proofs Syn.Expand_global Syn.SortPerm
  Syn.Templates Syn.Templates_proofs.
Import ListNotations.
Local Open Scope Z_scope.
Section TLfp.
  Variable T : Z.
  Variable setden : Z -> Z -> Prop.
  Variable nts : list nonterm.

  Definition tvalue (Y : Z) : expr := nt_value (nth (Z.to_nat (Y - T)) nts (mkNt [] [] EEmpty 0)).

  Definition tprefixpoint (trho : Z -> env -> lang) : Prop :=
    forall Y sg w, tden T trho setden (inst_env (mkInst (Y - T) sg)) (tvalue Y) w -> trho Y sg w.

  Definition tlfp : Z -> env -> lang := fun Y sg w => forall trho, tprefixpoint trho -> trho Y sg w.

  Lemma tden_mono (trho trho' : Z -> env -> lang) : (forall Y e w, trho Y e w -> trho' Y e w) ->
    forall e x w, tden T trho setden e x w -> tden T trho' setden e x w.
  Proof.
    intros Hr e. induction x using expr_ind2; intro w; cbn [tden]; auto.
    - intros [?|?]; auto.
    - destruct l as [|a l]; [auto|]. destruct (existsb (alt_enabled e) (a :: l)); [|auto].
      apply lang_any_mono, Forall2_map_same. rewrite Forall_forall in *. intros y Hy u. destruct (alt_enabled e y); auto.
    - apply lang_cat_mono, Forall2_map_same, H.
    - destruct (s <? T); auto.
    - apply (list_lang_mono f); [exact IHx | now apply opt_lang_mono].
    - destruct (eval_pred e p); auto.
  Qed.

  Lemma tlfp_prefixpoint : tprefixpoint tlfp.
  Proof. intros Y sg w Hd trho Hp. apply Hp. revert Hd. apply tden_mono. intros Z0 e u Hl. now apply Hl. Qed.

  Lemma tlfp_fixpoint Y sg w : tlfp Y sg w <-> tden T tlfp setden (inst_env (mkInst (Y - T) sg)) (tvalue Y) w.
  Proof.
    split; [|apply tlfp_prefixpoint]. intro Hl.
    apply (Hl (fun Y sg w => tden T tlfp setden (inst_env (mkInst (Y - T) sg)) (tvalue Y) w)).
    intros Z0 sg0 u. apply tden_mono. intros Z1 e v. apply tlfp_prefixpoint.
  Qed.
End TLfp.
Section InstLoop.
  Variable T : Z.
  Variable nts : list nonterm.
  Notation body cur := (nt_value (nth (Z.to_nat (i_nt cur)) nts (mkNt [] [] EEmpty 0))).

  Lemma inst_loop_grows : forall fuel i st vals0 vals st', inst_loop fuel T nts i st vals0 = (vals, st') -> tgrows st st'.
  Proof.
    induction fuel as [|f IH]; intros i st vals0 vals st' H; cbn [inst_loop] in H.
    - injection H as <- <-. split; [exists []; now rewrite app_nil_r | reflexivity].
    - destruct (nth_error (is_list st) i) as [cur|]; [|injection H as <- <-; apply ext_refl].
      destruct (do_expr T (Some (inst_env cur)) st _) as [c st1] eqn:Ed. apply do_expr_grows in Ed. apply IH in H. eauto using ext_trans.
  Qed.

  (* without Fatal there is one value per instance, the one doExpr wrote for its body *)
  Lemma inst_loop_spec : forall fuel i st vals0 vals st',
    inst_loop fuel T nts i st vals0 = (vals, st') -> is_fatal st' = false ->
    length vals0 = i -> (i <= length (is_list st))%nat ->
    length vals = length (is_list st') /\
    (forall k, (k < i)%nat -> nth k vals EEmpty = nth k vals0 EEmpty) /\
    (forall k, (i <= k < length (is_list st'))%nat ->
       exists cur stk stk', nth_error (is_list st') k = Some cur /\
         do_expr T (Some (inst_env cur)) stk (body cur) = (nth k vals EEmpty, stk') /\ tgrows stk' st').
  Proof.
    induction fuel as [|f IH]; intros i st vals0 vals st' H Hnf Hlen Hi; cbn [inst_loop] in H.
    - injection H as <- <-. discriminate Hnf.
    - destruct (nth_error (is_list st) i) as [cur|] eqn:En.
      + destruct (do_expr T (Some (inst_env cur)) st _) as [c st1] eqn:Ed.
        pose proof (do_expr_grows _ _ _ _ _ _ Ed) as Hg1. pose proof (inst_loop_grows _ _ _ _ _ _ H) as Hg2.
        assert (Hi1 : (S i <= length (is_list st1))%nat).
        { pose proof (ext_length _ _ _ _ _ Hg1). assert (i < length (is_list st))%nat by (apply nth_error_Some; congruence). lia. }
        destruct (IH (S i) st1 (vals0 ++ [c]) vals st' H Hnf) as (Hl2 & Hold & Hnew); [rewrite app_length; cbn; lia | exact Hi1 |].
        split; [exact Hl2|]. split.
        * intros k Hk. rewrite (Hold k) by lia. now rewrite app_nth1 by lia.
        * intros k Hk. destruct (Nat.eq_dec k i) as [->|N]; [|apply Hnew; lia].
          exists cur, st, st1. split; [eapply ext_nth; [exact Hg2|]; eapply ext_nth; eauto|]. split; [|exact Hg2].
          rewrite (Hold i) by lia. now rewrite app_nth2, Hlen, Nat.sub_diag by lia.
      + injection H as <- <-. apply nth_error_None in En. split; [lia|]. split; [auto|]. intros k Hk. lia.
  Qed.
End InstLoop.
Section InstLanguage.
  Variable T : Z.
  Variable setden : Z -> Z -> Prop.
  Variable nts : list nonterm.
  Notation body cur := (nt_value (nth (Z.to_nat (i_nt cur)) nts (mkNt [] [] EEmpty 0))).

  Variable fuel : nat.
  Variable st0 : ist.                 (* after the inputs and the sets have been resolved *)
  Variable vals : list expr.
  Variable st' : ist.
  Hypothesis Hloop : inst_loop fuel T nts O st0 [] = (vals, st').
  Hypothesis Hnf : is_fatal st' = false.
  Hypothesis Hnodup : NoDup (is_list st').       (* a conjunct of inst_checks_core; follows from wf_templates (tinv) *)

  Let insts := is_list st'.

  Lemma inst_facts : length vals = length insts /\
    forall k, (k < length insts)%nat ->
      exists cur stk stk', nth_error insts k = Some cur /\
        do_expr T (Some (inst_env cur)) stk (body cur) = (nth k vals EEmpty, stk') /\ tgrows stk' st'.
  Proof.
    destruct (inst_loop_spec T nts fuel O st0 [] vals st' Hloop Hnf eq_refl (Nat.le_0_l _)) as (Hl & _ & Hnew).
    split; [exact Hl|]. intros k Hk. apply Hnew. split; [lia | exact Hk].
  Qed.

  Lemma tvalue_inst cur : tvalue T nts (T + i_nt cur) = body cur.
  Proof. unfold tvalue. now replace (T + i_nt cur - T) with (i_nt cur) by lia. Qed.

  Theorem instance_language : forall k cur, nth_error insts k = Some cur -> forall w,
    lfp T setden vals (T + Z.of_nat k) w <-> tlfp T setden nts (T + i_nt cur) (i_sig cur) w.
  Proof.
    destruct inst_facts as [Hlen Hinst]. intros k cur Hk w. split.
    - (* the instantiated grammar derives nothing the template does not *)
      intro Hl.
      set (rho := fun Y u => exists k0 c0, Y = T + Z.of_nat k0 /\ nth_error insts k0 = Some c0 /\ tlfp T setden nts (T + i_nt c0) (i_sig c0) u).
      assert (Hok : tok T (tlfp T setden nts) rho st').
      { split; [|exact Hnf]. intros k1 i1 Hk1 u. split.
        - intros (k2 & c2 & He & Hc2 & Ht). assert (k2 = k1) by lia. subst k2. unfold insts in Hc2. rewrite Hk1 in Hc2. now injection Hc2 as <-.
        - intro Ht. exists k1, i1. auto. }
      enough (Hp : prefixpoint T setden vals rho).
      { destruct (Hl rho Hp) as (k0 & c0 & He & Hc0 & Ht). assert (k0 = k) by lia. subst k0. rewrite Hk in Hc0. now injection Hc0 as <-. }
      apply prefixpoint_at. intros k0 Hk0 u Hd. rewrite Hlen in Hk0.
      destruct (Hinst k0 Hk0) as (c0 & stk & stk' & Hc0 & Hdo & Hg).
      exists k0, c0. repeat split; auto. apply tlfp_prefixpoint. rewrite tvalue_inst. replace (T + i_nt c0 - T) with (i_nt c0) by lia.
      rewrite (nth_indep _ _ EEmpty) in Hd by lia. destruct c0 as [n0 s0].
      now apply (do_expr_den T (tlfp T setden nts) setden rho _ _ _ _ _ Hdo (ok_anti _ _ _ _ _ _ Hg Hok)).
    - (* and everything the template derives *)
      intros Ht rho Hp.
      set (trho := fun Y sg u => forall k0, nth_error insts k0 = Some (mkInst (Y - T) sg) -> rho (T + Z.of_nat k0) u).
      assert (Hok : tok T trho rho st').
      { split; [|exact Hnf]. intros k1 [n1 s1] Hk1 u. unfold trho, insts in *. cbn [i_nt i_sig]. replace (T + n1 - T) with n1 by lia. split.
        - intros Hr k2 Hk2. assert (k2 = k1); [|now subst].
          apply (proj1 (NoDup_nth_error _) Hnodup); [apply nth_error_Some|]; congruence.
        - intro Hr. now apply Hr. }
      enough (Htp : tprefixpoint T setden nts trho).
      { apply (Ht trho Htp). replace (T + i_nt cur - T) with (i_nt cur) by lia. now destruct cur. }
      intros Y sg u Hd k0 Hk0.
      assert (Hk0' : (k0 < length insts)%nat) by (apply nth_error_Some; congruence).
      destruct (Hinst k0 Hk0') as (c0 & stk & stk' & Hc0 & Hdo & Hg).
      assert (c0 = mkInst (Y - T) sg) by congruence. subst c0.
      apply Hp; [apply in_sys_at; lia|]. rewrite value_of_at, (nth_indep _ _ EEmpty) by lia.
      apply (do_expr_den T trho setden rho _ _ _ _ _ Hdo (ok_anti _ _ _ _ _ _ Hg Hok)). exact Hd.
  Qed.
End InstLanguage.
Definition val3 (t : bytes * expr * Z) : expr := snd (fst t).

Lemma val3_renamed f (M : list (bytes * expr * Z)) :
  map val3 (map (fun '(n, v, g) => (n, rename_expr f v, g)) M) = map (rename_expr f) (map val3 M).
Proof. rewrite !map_map. apply map_ext. now intros [[n v] g]. Qed.

Lemma val3_named {I S} (name : I -> S -> bytes) (grp : I -> Z) (insts : list I) (sfx : list S) (vals : list expr) :
  length insts = length vals -> length sfx = length vals ->
  map val3 (map (fun '(i, (s, v)) => (name i s, v, grp i)) (List.combine insts (List.combine sfx vals))) = vals.
Proof.
  revert sfx vals. induction insts as [|i insts IH]; intros [|s sfx] [|v vals] H1 H2; cbn in *; try discriminate; auto.
  f_equal. apply IH; lia.
Qed.

Lemma instantiate_values fuel m vals st' :
  m_params m <> [] ->
  inst_loop fuel (nterms m) (m_nonterms m) O (inst_start m) [] = (vals, st') ->
  length vals = length (is_list st') ->
  map val3 (tr_nonterms (instantiate fuel m)) = renamed (nterms m) vals (inst_perm m (is_list st')).
Proof.
  intros Hparams Hloop Hlen. unfold instantiate, inst_start in *.
  destruct (m_params m) as [|p0 ps] eqn:Ep; [congruence|].
  destruct (fold_left _ (m_inputs m) ([], mkI [] false)) as [inputs st1].
  destruct (fold_left _ (m_sets m) ([], st1)) as [sets st2]. cbn [snd] in Hloop. rewrite Hloop.
  cbn [tr_nonterms]. rewrite val3_renamed, (map_rearrange_list val3), val3_named by (rewrite ?map_length; auto).
  unfold renamed, fwd, inst_perm. rewrite Ep. exact (map_rearrange_list (rename_expr _) _ vals EEmpty).
Qed.

Lemma sort_inst_perm keys l : Permutation (fold_left (fun acc x => insert_inst keys x acc) l []) l.
Proof. apply (insert_sort_perm (fun x y => inst_lt (keys x) (keys y))); reflexivity. Qed.

(* the final sort IS a permutation: no side condition *)
Theorem inst_perm_ok m insts : perm_ok (inst_perm m insts) (length insts) = true.
Proof. unfold inst_perm. apply inverse_perm_ok, sort_inst_perm. Qed.

(* every instantiated nonterminal derives exactly what its template derives under its arguments; so does an input
   (no parameters) *)
Theorem instantiate_correct_core setden fuel m :
  m_params m <> [] -> inst_checks_core fuel m = true ->
  let st := snd (inst_loop fuel (nterms m) (m_nonterms m) O (inst_start m) []) in
  forall k cur, nth_error (is_list st) k = Some cur -> forall w,
    tlfp (nterms m) setden (m_nonterms m) (nterms m + i_nt cur) (i_sig cur) w <->
    lfp (nterms m) setden (map val3 (tr_nonterms (instantiate fuel m)))
        (nterms m + Z.of_nat (nth k (inst_perm m (is_list st)) O)) w.
Proof.
  intros Hparams Hc. unfold inst_checks_core in Hc. destruct (m_params m) as [|p0 ps] eqn:Ep; [congruence|].
  destruct (inst_loop fuel (nterms m) (m_nonterms m) O (inst_start m) []) as [vals st'] eqn:Hloop. cbn [snd].
  apply andb_true_iff in Hc as [Hc Hb]. apply andb_true_iff in Hc as [Hnf Hnd].
  apply negb_true_iff in Hnf. apply inst_nodupb_iff in Hnd. apply forallb_Forall in Hb.
  intros k cur Hk w.
  destruct (inst_facts (nterms m) (m_nonterms m) fuel (inst_start m) vals st' Hloop Hnf) as [Hlen _].
  rewrite (instantiate_values fuel m vals st') by (rewrite ?Ep; auto; discriminate).
  rewrite <- (instance_language (nterms m) setden (m_nonterms m) fuel (inst_start m) vals st' Hloop Hnf Hnd k cur Hk w).
  pose proof (inst_perm_ok m (is_list st')) as Hperm. rewrite <- Hlen in Hperm.
  assert (Hk' : (k < length vals)%nat) by (rewrite Hlen; apply nth_error_Some; congruence).
  rewrite (rearrange_language_preserved (nterms m) setden vals _ Hperm Hb (nterms m + Z.of_nat k)) by lia.
  now rewrite fwd_at.
Qed.

Corollary instantiate_correct setden fuel m :
  m_params m <> [] -> inst_checks fuel m = true ->
  let st := snd (inst_loop fuel (nterms m) (m_nonterms m) O (inst_start m) []) in
  forall k cur, nth_error (is_list st) k = Some cur -> forall w,
    tlfp (nterms m) setden (m_nonterms m) (nterms m + i_nt cur) (i_sig cur) w <->
    lfp (nterms m) setden (map val3 (tr_nonterms (instantiate fuel m)))
        (nterms m + Z.of_nat (nth k (inst_perm m (is_list st)) O)) w.
Proof.
  intros Hp Hc. apply instantiate_correct_core; [exact Hp|]. unfold inst_checks, inst_checks_core in *.
  destruct (m_params m); [reflexivity|]. destruct (inst_loop fuel _ _ _ _ _) as [vals st].
  apply andb_true_iff in Hc as [Hc ->]. apply andb_true_iff in Hc as [-> _]. reflexivity.
Qed.
