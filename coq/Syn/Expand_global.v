(* Expand as a whole: phase 1 as a loop with an invariant; the language of a value table as a least fixpoint, kept by
   phase 1 (extraction), Rearrange (a permutation applied consistently) and phase 2 (list / optional rules). *)
From Coq Require Import List ZArith Bool Lia Permutation.
From TM Require Import Lib.ListX Util.Ident Syn.Expr Syn.Expand Syn.ExtLang Syn.Expand_proofs Syn.SortPerm.
Import ListNotations.
Local Open Scope Z_scope.

(* "at this point all lists either have at least one element or have no separators" *)
Definition list_inv (v : expr) : Prop :=
  match v with EList fl _ sep => Z.odd fl = false -> sep = None | _ => True end.

Definition extras_inv (st : xst) : Prop := Forall (fun nv => list_inv (snd nv)) (x_extras st).

Lemma set_fatal_inv st : extras_inv st -> extras_inv (set_fatal st).
Proof. auto. Qed.

Lemma extractable_list_inv v : extractable v -> list_inv v.
Proof. destruct v as [| | | | | | | | | | | | |fl el [s|]| |]; cbn; congruence. Qed.

Lemma expand_nonterm_list_inv c st v v' st' : expand_nonterm c st v = (v', st') -> list_inv v'.
Proof.
  rewrite expand_nonterm_eq. destruct (kept v) eqn:Ek; [|destruct (expand_rules c _ [] st)]; intro H; injection H as <- <-; [|exact I].
  now destruct v.
Qed.
Section Phase1.
  Variable m : model.
  Let n := length (m_nonterms m).

  Definition ctx_at (i : nat) : xctx := mkCtx (m_terms m) (map nt_name (m_nonterms m)) (m_sets m) i.

  Definition step (acc : list expr * xst) (i : nat) : list expr * xst :=
    let '(vals, st) := acc in
    let nts := m_nonterms m in
    let n := length nts in
    let c := ctx_at i in
    let st := mkX (x_extras st) (upd_nat (x_perm st) i (i + x_extra st)%nat) (x_extra st) (x_start st) (x_base st) (x_fatal st) in
    let '(v, st) := expand_nonterm c st (nt_value (nth i nts (mkNt [] [] EEmpty 0))) in
    let delay := (0 <? group_at nts i) && Nat.ltb (S i) n && (group_at nts i =? group_at nts (S i)) in
    (vals ++ [v], if delay then st else sort_tail c st).

  Definition value_at (i : nat) : expr := nt_value (nth i (m_nonterms m) (mkNt [] [] EEmpty 0)).

  Lemma n_orig_ctx i : n_orig (ctx_at i) = n.
  Proof. apply map_length. Qed.

  (* table and flag after the loop body: one run of expand_nonterm *)
  Lemma step_spec vals st i vals' st' : step (vals, st) i = (vals', st') ->
    exists st0 v st2, expand_nonterm (ctx_at i) st0 (value_at i) = (v, st2) /\ vals' = vals ++ [v] /\
      x_extras st0 = x_extras st /\ x_fatal st0 = x_fatal st /\ x_extras st' = x_extras st2 /\ x_fatal st' = x_fatal st2.
  Proof.
    unfold step. fold (value_at i).
    match goal with |- context [expand_nonterm _ ?s _] => set (st0 := s) end.
    destruct (expand_nonterm (ctx_at i) st0 (value_at i)) as [v st2] eqn:E. intro H. injection H as <- <-.
    exists st0, v, st2. repeat split; auto;
      (match goal with |- context [if ?d then _ else _] => destruct d end; [reflexivity|]);
      unfold sort_tail; destruct (Nat.eqb _ 0); reflexivity.
  Qed.

  Lemma step_grows vals st i vals' st' : step (vals, st) i = (vals', st') ->
    exists v, vals' = vals ++ [v] /\ list_inv v /\ grows st st'.
  Proof.
    intro H. destruct (step_spec _ _ _ _ _ H) as (st0 & v & st2 & E & -> & e0 & f0 & e2 & f2). exists v.
    split; [reflexivity|]. split; [now apply expand_nonterm_list_inv in E|].
    apply expand_nonterm_grows in E. unfold ext in *. now rewrite e2, f2, <- e0, <- f0.
  Qed.

  Definition init : xst := mkX [] (repeat O n) O O O false.

  Lemma phase1_inv (P : nat -> list expr -> xst -> Prop) :
    P O [] init ->
    (forall i vals st vals' st', (i < n)%nat -> P i vals st -> step (vals, st) i = (vals', st') -> P (S i) vals' st') ->
    forall vals st, phase1 m = (vals, st) -> P n vals st.
  Proof.
    intros H0 Hs vals st.
    assert (G : forall k i vals0 st0, (i + k = n)%nat -> P i vals0 st0 -> fold_left step (seq i k) (vals0, st0) = (vals, st) -> P n vals st).
    { induction k as [|k IH]; intros i vals0 st0 Hik Hp H; cbn [seq fold_left] in H.
      - injection H as <- <-. now replace n with i by lia.
      - destruct (step (vals0, st0) i) as [vals1 st1] eqn:E. apply (IH (S i) vals1 st1); [lia | | exact H].
        apply (Hs i vals0 st0); [lia | exact Hp | exact E]. }
    intro H. apply (G n O [] init); [reflexivity | exact H0|]. rewrite <- H. apply fold_left_ext. now intros [vs s] i.
  Qed.

  Theorem phase1_shape vals st : phase1 m = (vals, st) -> length vals = n /\ Forall list_inv vals /\ extras_inv st.
  Proof.
    intro H.
    enough (G : length vals = n /\ Forall list_inv vals /\ grows init st).
    { destruct G as (Hl & Hv & [(more & Em & Hm) _]). repeat split; auto. unfold extras_inv. rewrite Em.
      eapply Forall_impl; [|exact Hm]. intros nv. apply extractable_list_inv. }
    revert vals st H. apply (phase1_inv (fun i vals st => length vals = i /\ Forall list_inv vals /\ grows init st));
      [split; [reflexivity | split; [constructor | apply ext_refl]]|].
    intros i vals st vals' st' _ (Hl & Hv & Hg) Hs. destruct (step_grows _ _ _ _ _ Hs) as (v & -> & Hlv & Hg').
    rewrite app_length, Hl. split; [cbn; lia|]. split; [apply Forall_app; auto | eapply ext_trans; eauto].
  Qed.

  Theorem phase1_extras_inv vals st : phase1 m = (vals, st) -> extras_inv st.
  Proof. intro H. now apply phase1_shape in H. Qed.

  Variable T : Z.
  Variable rho : Z -> lang.
  Variable setden : Z -> Z -> Prop.
  Notation den := (den T rho setden).
  Hypothesis HT : T = nterms m.

  Lemma step_den vals st i vals' st' : step (vals, st) i = (vals', st') -> length vals = i -> xok T rho setden n st' ->
    forall w, den (value_at i) w <-> den (nth i vals' EEmpty) w.
  Proof.
    intros H Hl Hok. destruct (step_spec _ _ _ _ _ H) as (st0 & v & st2 & E & -> & _ & _ & e2 & f2).
    rewrite app_nth2, Hl, Nat.sub_diag by lia. apply (expand_nonterm_den T rho setden (ctx_at i) HT _ _ _ _ E).
    rewrite n_orig_ctx. unfold xok, ok in *. now rewrite <- e2, <- f2.
  Qed.

  Theorem phase1_preserves vals st : phase1 m = (vals, st) -> xok T rho setden n st ->
    forall i, (i < n)%nat -> forall w, den (value_at i) w <-> den (nth i vals EEmpty) w.
  Proof.
    intro H.
    enough (G : length vals = n /\ forall st', grows st st' -> xok T rho setden n st' ->
                  forall i, (i < n)%nat -> forall w, den (value_at i) w <-> den (nth i vals EEmpty) w).
    { apply G, ext_refl. }
    revert vals st H.
    apply (phase1_inv (fun i vals st => length vals = i /\ forall st', grows st st' -> xok T rho setden n st' ->
                         forall j, (j < i)%nat -> forall w, den (value_at j) w <-> den (nth j vals EEmpty) w));
      [split; [reflexivity | intros; lia]|].
    intros i vals st vals' st' _ [Hl Hd] Hs. destruct (step_grows _ _ _ _ _ Hs) as (v & Ev & _ & Hg).
    split; [subst vals'; rewrite app_length, Hl; cbn; lia|].
    intros st'' Hg' Hok j Hj w. destruct (Nat.eq_dec j i) as [->|Hne].
    - exact (step_den _ _ _ _ _ Hs Hl (ok_anti _ _ _ _ _ _ Hg' Hok) w).
    - subst vals'. rewrite app_nth1 by lia. apply (Hd st''); [eapply ext_trans; eauto | exact Hok | lia].
  Qed.
End Phase1.
Section Lfp.
  Variable T : Z.
  Variable setden : Z -> Z -> Prop.
  Notation den := (fun rho => den T rho setden).

  Definition value_of (vals : list expr) (Y : Z) : expr := nth (Z.to_nat (Y - T)) vals (EChoice []).
  Definition in_sys (vals : list expr) (Y : Z) : Prop := T <= Y < T + Z.of_nat (length vals).

  Definition prefixpoint (vals : list expr) (rho : Z -> lang) : Prop :=
    forall Y w, in_sys vals Y -> den rho (value_of vals Y) w -> rho Y w.

  (* the language of nonterminal X in the grammar given by the value table: the least solution *)
  Definition lfp (vals : list expr) : Z -> lang := fun X w => forall rho, prefixpoint vals rho -> rho X w.

  Lemma value_of_at vals k : value_of vals (T + Z.of_nat k) = nth k vals (EChoice []).
  Proof. unfold value_of. f_equal. lia. Qed.

  Lemma in_sys_at vals k : in_sys vals (T + Z.of_nat k) <-> (k < length vals)%nat.
  Proof. unfold in_sys. lia. Qed.

  Lemma in_sys_self (V : list expr) Y : in_sys V Y -> exists self, (self < length V)%nat /\ Y = T + Z.of_nat self.
  Proof. intros [H1 H2]. exists (Z.to_nat (Y - T)). split; lia. Qed.

  Lemma prefixpoint_at vals rho :
    (forall k, (k < length vals)%nat -> forall w, den rho (nth k vals (EChoice [])) w -> rho (T + Z.of_nat k) w) ->
    prefixpoint vals rho.
  Proof. intros H Y w Hin Hd. destruct (in_sys_self _ _ Hin) as (k & Hk & ->). rewrite value_of_at in Hd. now apply H. Qed.

  Lemma lfp_least vals rho : prefixpoint vals rho -> forall X w, lfp vals X w -> rho X w.
  Proof. intros Hp X w H. now apply H. Qed.

  Lemma lfp_prefixpoint vals : prefixpoint vals (lfp vals).
  Proof. intros Y w Hin Hd rho Hp. apply Hp; auto. revert Hd. apply den_mono. intros Z0 u. now apply lfp_least. Qed.

  Lemma lfp_postfixpoint vals Y w : lfp vals Y w -> in_sys vals Y /\ den (lfp vals) (value_of vals Y) w.
  Proof.
    apply (lfp_least vals (fun Y w => in_sys vals Y /\ den (lfp vals) (value_of vals Y) w)).
    intros Z0 u Hz Hd. split; [exact Hz|]. revert Hd. apply den_mono. intros Z1 v [Hin Hv]. now apply lfp_prefixpoint.
  Qed.

  Theorem lfp_fixpoint vals Y w : in_sys vals Y -> (lfp vals Y w <-> den (lfp vals) (value_of vals Y) w).
  Proof. intro Hin. split; [intro H; now apply lfp_postfixpoint | now apply lfp_prefixpoint]. Qed.

  Definition solution (vals : list expr) (rho : Z -> lang) : Prop :=
    forall k, (k < length vals)%nat -> forall w, rho (T + Z.of_nat k) w <-> den rho (nth k vals (EChoice [])) w.

  Lemma lfp_solution vals : solution vals (lfp vals).
  Proof. intros k Hk w. rewrite <- value_of_at. now apply lfp_fixpoint, in_sys_at. Qed.

  (* tables that every solution of either reads alike have the same least solution *)
  Lemma lfp_congr_sol V V' : length V = length V' ->
    (forall rho, solution V rho \/ solution V' rho -> forall k, (k < length V)%nat -> forall w,
        den rho (nth k V (EChoice [])) w <-> den rho (nth k V' (EChoice [])) w) ->
    forall X w, lfp V X w <-> lfp V' X w.
  Proof.
    intros Hlen Heq X w. split; apply lfp_least, prefixpoint_at; intros k Hk u Hd.
    - apply lfp_solution; [lia|]. apply (Heq _ (or_intror (lfp_solution V'))); [exact Hk | exact Hd].
    - apply lfp_solution; [lia|]. apply (Heq _ (or_introl (lfp_solution V))); [lia | exact Hd].
  Qed.

  (* equations for new symbols do not change the least solution of a closed system *)
  Lemma lfp_app A E : Forall (fun a => bounded (T + Z.of_nat (length A)) a = true) A ->
    forall Y, Y < T + Z.of_nat (length A) -> forall w, lfp A Y w <-> lfp (A ++ E) Y w.
  Proof.
    intros Hb Y HY w.
    assert (Hnth : forall k, (k < length A)%nat -> nth k (A ++ E) (EChoice []) = nth k A (EChoice [])) by (intros; now apply app_nth1).
    assert (Hsub : forall Z0 u, lfp A Z0 u -> lfp (A ++ E) Z0 u).
    { apply lfp_least, prefixpoint_at. intros k Hk u Hd. apply lfp_solution; [rewrite app_length; lia|]. now rewrite Hnth. }
    split; [apply Hsub|].
    (* below T + |A| take the solution of A, above it that of the larger system: a solution of the larger system *)
    set (rho := fun Z0 u => if Z0 <? T + Z.of_nat (length A) then lfp A Z0 u else lfp (A ++ E) Z0 u).
    assert (Hrho : forall Z0 u, rho Z0 u -> lfp (A ++ E) Z0 u).
    { intros Z0 u. unfold rho. destruct (Z0 <? _); auto. }
    intro Hl. apply (lfp_least (A ++ E) rho) in Hl.
    - unfold rho in Hl. now destruct (Z.ltb_spec Y (T + Z.of_nat (length A))); [|lia].
    - apply prefixpoint_at. intros k Hk u Hd. unfold rho. destruct (Z.ltb_spec (T + Z.of_nat k) (T + Z.of_nat (length A))).
      + assert (Hk' : (k < length A)%nat) by lia. apply lfp_solution; [exact Hk'|]. rewrite Hnth in Hd by exact Hk'.
        apply (den_local T setden (T + Z.of_nat (length A)) rho (lfp A)); [| |exact Hd].
        * intros Z1 Hz u0. unfold rho. now destruct (Z.ltb_spec Z1 (T + Z.of_nat (length A))); [|lia].
        * rewrite Forall_forall in Hb. now apply Hb, nth_In.
      + apply lfp_solution; [exact Hk|]. revert Hd. apply den_mono. exact Hrho.
  Qed.
End Lfp.
Section Global1.
  Variable setden : Z -> Z -> Prop.
  Variable m : model.
  Let T := nterms m.
  Let n0 := length (m_nonterms m).
  Let A := map nt_value (m_nonterms m).

  Variable vals1 : list expr.
  Variable st : xst.
  Hypothesis Hphase : phase1 m = (vals1, st).
  Hypothesis Hnf : x_fatal st = false.
  (* the original rules mention only terminals and original nonterminals *)
  Hypothesis Hwf : forall i, (i < n0)%nat -> bounded (T + Z.of_nat n0) (value_at m i) = true.

  Let E := map snd (x_extras st).

  Lemma A_nth i : (i < n0)%nat -> nth i A (EChoice []) = value_at m i.
  Proof.
    intro Hi. unfold A, value_at. rewrite (nth_indep _ (EChoice []) (nt_value (mkNt [] [] EEmpty 0))) by (rewrite map_length; exact Hi).
    apply map_nth.
  Qed.

  Lemma solution_ok (V : list expr) rho : length V = n0 -> solution T setden (V ++ E) rho -> xok T rho setden n0 st.
  Proof.
    intros HV Hsol. split; [|exact Hnf]. intros k nv Hk w.
    assert (Hlt : (k < length E)%nat) by (unfold E; rewrite map_length; apply nth_error_Some; congruence).
    rewrite (Hsol (n0 + k)%nat) by (rewrite app_length; lia). rewrite app_nth2, HV by lia. replace (n0 + k - n0)%nat with k by lia.
    unfold E. change (EChoice []) with (snd (@nil Z, EChoice [])). rewrite map_nth. now rewrite (nth_error_nth _ _ _ Hk).
  Qed.

  (* phase 1: with the extracted nonterminals added, every original nonterminal keeps its language *)
  Theorem phase1_language_preserved : forall Y, T <= Y < T + Z.of_nat n0 -> forall w,
    lfp T setden A Y w <-> lfp T setden (vals1 ++ E) Y w.
  Proof.
    intros Y HY w. destruct (phase1_shape m _ _ Hphase) as (Hl1 & _).
    assert (HlA : length A = n0) by apply map_length.
    assert (HbA : Forall (fun a => bounded (T + Z.of_nat (length A)) a = true) A).
    { rewrite HlA. apply Forall_forall. intros a Ha. apply (In_nth _ _ (EChoice [])) in Ha as (i & Hi & <-).
      rewrite A_nth by lia. apply Hwf. lia. }
    rewrite (lfp_app T setden A E HbA) by lia.
    apply lfp_congr_sol; [rewrite !app_length; lia|].
    intros rho Hsol k Hk u. destruct (Nat.lt_ge_cases k n0) as [Hlt|Hge].
    - rewrite !app_nth1, A_nth by lia. rewrite (nth_indep vals1 _ EEmpty) by lia.
      apply (phase1_preserves m T rho setden eq_refl _ _ Hphase); [|exact Hlt].
      destruct Hsol as [Hsol|Hsol]; [apply (solution_ok A) | apply (solution_ok vals1)]; auto.
    - rewrite !app_nth2 by lia. now rewrite HlA, Hl1.
  Qed.
End Global1.
Section Global2.
  Variable T : Z.
  Variable setden : Z -> Z -> Prop.
  Variable vals : list expr.
  Hypothesis Hinv : Forall list_inv vals.

  Definition phase2_table : list expr :=
    map (fun '(self, v) => expand_top T self v) (List.combine (seq 0 (length vals)) vals).

  Lemma phase2_length : length phase2_table = length vals.
  Proof. unfold phase2_table. rewrite map_length, combine_length, seq_length. lia. Qed.

  Lemma phase2_nth self : (self < length vals)%nat ->
    nth self phase2_table (EChoice []) = expand_top T self (nth self vals (EChoice [])).
  Proof.
    intro Hs. unfold phase2_table.
    rewrite (nth_indep _ _ ((fun '(self, v) => expand_top T self v) (O, EChoice []))) by (rewrite map_length, combine_length, seq_length; lia).
    rewrite (map_nth (fun '(self, v) => expand_top T self v) _ (O, EChoice [])), combine_nth, seq_nth by (rewrite ?seq_length; auto).
    reflexivity.
  Qed.

  Lemma list_inv_nth self : list_inv (nth self vals (EChoice [])).
  Proof. destruct (nth_in_or_default self vals (EChoice [])) as [Hin | ->]; [|exact I]. rewrite Forall_forall in Hinv. now apply Hinv. Qed.

  (* phase 2: the synthesised rules do not change any language *)
  Theorem phase2_language_preserved : forall Y w, lfp T setden vals Y w <-> lfp T setden phase2_table Y w.
  Proof.
    intros Y w. split; apply lfp_least, prefixpoint_at; intros k Hk u Hd.
    - (* the least solution of the rules is closed under the list equations *)
      pose proof (list_inv_nth k) as Hl. pose proof (lfp_solution T setden phase2_table k) as Hsol.
      rewrite phase2_length, phase2_nth in Hsol by exact Hk. specialize (Hsol Hk).
      destruct (nth k vals (EChoice [])) as [| |es|es|s a|nm e|nm e|nm f e|i|nm|nm|l|e|fl el sep|p e|s e]; try (now apply Hsol).
      + apply Hsol. cbn [expand_top den map lang_any] in *. unfold lang_eps. tauto.
      + apply (list_rules_closed (Z.testbit fl 1) fl (den T (lfp T setden phase2_table) setden el)
                                 (opt_lang (den T (lfp T setden phase2_table) setden) sep)); [|intros u0 Hu|exact Hd].
        * intros Ho s. now rewrite (Hl Ho).
        * now apply Hsol, den_expand_top_list.
    - (* the least solution of the list equations satisfies the rules *)
      rewrite phase2_length in Hk. rewrite phase2_nth in Hd by exact Hk. apply lfp_solution; [exact Hk|].
      apply (expand_top_good T (lfp T setden vals) setden k); [| |exact Hd].
      + intros fl el sep Hv Ho. pose proof (list_inv_nth k) as Hl. rewrite Hv in Hl. exact (Hl Ho).
      + now apply lfp_solution.
  Qed.
End Global2.

Lemma phase1_table_inv m vals st : phase1 m = (vals, st) -> Forall list_inv (vals ++ map snd (x_extras st)).
Proof.
  intro H. destruct (phase1_shape m _ _ H) as (_ & Hv & He). apply Forall_app. split; [exact Hv|]. now apply Forall_map.
Qed.

(* Expand up to the order of the nonterminals: phase 1 then phase 2 keep the language of every original nonterminal *)
Theorem expand_language_preserved setden m vals1 st :
  phase1 m = (vals1, st) -> x_fatal st = false ->
  (forall i, (i < length (m_nonterms m))%nat -> bounded (nterms m + Z.of_nat (length (m_nonterms m))) (value_at m i) = true) ->
  forall X, nterms m <= X < nterms m + Z.of_nat (length (m_nonterms m)) -> forall w,
    lfp (nterms m) setden (map nt_value (m_nonterms m)) X w <->
    lfp (nterms m) setden (phase2_table (nterms m) (vals1 ++ map snd (x_extras st))) X w.
Proof.
  intros Hp Hnf Hwf X HX w.
  rewrite (phase1_language_preserved setden m vals1 st Hp Hnf Hwf X HX w).
  apply phase2_language_preserved. now apply (phase1_table_inv m).
Qed.
Lemma map_rearrange_list {A B} (g : A -> B) perm (l : list A) d :
  map g (rearrange_list perm l d) = rearrange_list perm (map g l) (g d).
Proof. unfold rearrange_list. rewrite map_map, map_length. apply map_ext. intro p. symmetry. apply map_nth. Qed.

Section Rename.
  Variable T : Z.
  Variable setden : Z -> Z -> Prop.

  Lemma den_rename (f : Z -> Z) rho :
    (forall s, s < T -> f s = s) -> (forall s, T <= s -> T <= f s) ->
    forall e w, den T rho setden (rename_expr f e) w <-> den T (fun s => rho (f s)) setden e w.
  Proof.
    intros Hlo Hhi. induction e using expr_ind2; intro w; cbn [rename_expr den]; auto; try tauto.
    - rewrite (IHe w). tauto.
    - rewrite map_map. apply lang_any_ext, Forall2_map_same, H.
    - rewrite map_map. apply lang_cat_ext, Forall2_map_same, H.
    - destruct (Z.ltb_spec s T) as [Hs|Hs].
      + rewrite (Hlo s Hs). now destruct (Z.ltb_spec s T); [|lia].
      + specialize (Hhi s Hs). now destruct (Z.ltb_spec (f s) T); [lia|].
    - apply (list_lang_ext f0); [exact IHe|]. destruct s as [x|]; [apply (H x eq_refl) | reflexivity].
  Qed.

  Variable vals : list expr.
  Variable perm : list nat.
  Let n := length vals.
  Hypothesis Hperm : perm_ok perm n = true.
  Hypothesis Hbound : Forall (fun a => bounded (T + Z.of_nat n) a = true) vals.

  Definition fwd : Z -> Z := perm_sym T perm.
  Definition bwd (s : Z) : Z := if s <? T then s else T + Z.of_nat (index_of (Z.to_nat (s - T)) perm O).

  Definition renamed : list expr := rearrange_list perm (map (rename_expr fwd) vals) EEmpty.

  Let HP : Permutation perm (seq 0 n) := proj1 (perm_ok_iff perm n) Hperm.

  Lemma perm_length : length perm = n.
  Proof. now rewrite (Permutation_length HP), seq_length. Qed.

  Lemma perm_range i : (i < n)%nat -> (nth i perm O < n)%nat.
  Proof. intro Hi. rewrite <- perm_length in Hi. apply (nth_In perm O), (Permutation_in _ HP), in_seq in Hi. lia. Qed.

  Lemma perm_index i : (i < n)%nat -> index_of (nth i perm O) perm O = i.
  Proof.
    intro Hi. apply index_of_nth; [|now rewrite perm_length].
    eapply Permutation_NoDup; [apply Permutation_sym; exact HP | apply seq_NoDup].
  Qed.

  Lemma perm_onto p : (p < n)%nat -> exists i, (i < n)%nat /\ nth i perm O = p.
  Proof.
    intro Hp. assert (Hin : In p perm) by (apply (Permutation_in _ (Permutation_sym HP)), in_seq; lia).
    apply (In_nth _ _ O) in Hin as (i & Hi & He). rewrite perm_length in Hi. eauto.
  Qed.

  Lemma renamed_length : length renamed = n.
  Proof. unfold renamed, rearrange_list. now rewrite map_length, seq_length, map_length. Qed.

  Lemma renamed_at i : (i < n)%nat -> nth (nth i perm O) renamed (EChoice []) = rename_expr fwd (nth i vals (EChoice [])).
  Proof.
    intro Hi. unfold renamed, rearrange_list. rewrite map_length, map_seq_nth, perm_index by auto using perm_range.
    rewrite (nth_indep _ EEmpty (rename_expr fwd (EChoice []))) by (now rewrite map_length). apply map_nth.
  Qed.

  Lemma fwd_low s : s < T -> fwd s = s.
  Proof. intro H. unfold fwd, perm_sym. now destruct (Z.ltb_spec s T); [|lia]. Qed.
  Lemma fwd_high s : T <= s -> T <= fwd s.
  Proof. intro H. unfold fwd, perm_sym. destruct (s <? T); lia. Qed.
  Lemma fwd_at i : fwd (T + Z.of_nat i) = T + Z.of_nat (nth i perm O).
  Proof. unfold fwd, perm_sym. destruct (Z.ltb_spec (T + Z.of_nat i) T); [lia|]. do 3 f_equal. lia. Qed.
  Lemma bwd_fwd s : s < T + Z.of_nat n -> bwd (fwd s) = s.
  Proof.
    intro Hs. destruct (Z_lt_ge_dec s T) as [Hlt|Hge].
    - rewrite (fwd_low s Hlt). unfold bwd. now destruct (Z.ltb_spec s T); [|lia].
    - replace s with (T + Z.of_nat (Z.to_nat (s - T))) by lia. rewrite fwd_at. unfold bwd.
      destruct (Z.ltb_spec (T + Z.of_nat (nth (Z.to_nat (s - T)) perm O)) T); [lia|].
      replace (Z.to_nat (T + Z.of_nat (nth (Z.to_nat (s - T)) perm O) - T)) with (nth (Z.to_nat (s - T)) perm O) by lia.
      now rewrite perm_index by lia.
  Qed.

  Theorem rearrange_language_preserved : forall X, T <= X < T + Z.of_nat n -> forall w,
    lfp T setden vals X w <-> lfp T setden renamed (fwd X) w.
  Proof.
    intros X HX w. split.
    - (* every pre-fixpoint of the renamed table, read through fwd, is a pre-fixpoint of the table *)
      intros Hl rho' Hp'. apply (Hl (fun s => rho' (fwd s))). apply prefixpoint_at.
      intros i Hi u Hd. rewrite fwd_at. apply Hp'; [apply in_sys_at; rewrite renamed_length; now apply perm_range|].
      rewrite value_of_at, (renamed_at i Hi). now apply (den_rename fwd rho' fwd_low fwd_high).
    - intros Hl rho Hp.
      assert (Hp' : prefixpoint T setden renamed (fun s => rho (bwd s))).
      { apply prefixpoint_at. intros p Hpn u Hd. rewrite renamed_length in Hpn.
        destruct (perm_onto p Hpn) as (i & Hi & <-).
        rewrite (renamed_at i Hi) in Hd. apply (den_rename fwd (fun s => rho (bwd s)) fwd_low fwd_high) in Hd.
        rewrite <- fwd_at, (bwd_fwd (T + Z.of_nat i)) by lia. apply Hp; [now apply in_sys_at|]. rewrite value_of_at.
        apply (den_local T setden (T + Z.of_nat n) (fun s => rho (bwd (fwd s))) rho); [| |exact Hd].
        - intros Z0 Hz u0. now rewrite bwd_fwd.
        - rewrite Forall_forall in Hbound. now apply Hbound, nth_In. }
      pose proof (Hl _ Hp') as H. cbn beta in H. now rewrite bwd_fwd in H by lia.
  Qed.
End Rename.
Lemma list_inv_rename f v : list_inv v -> list_inv (rename_expr f v).
Proof. destruct v; cbn; auto. intros H Ho. now rewrite (H Ho). Qed.

Lemma expand_values m vals1 st : phase1 m = (vals1, st) -> length vals1 = length (m_nonterms m) ->
  map snd (res_nonterms (expand m)) =
  phase2_table (nterms m) (renamed (nterms m) (vals1 ++ map snd (x_extras st)) (x_perm st)).
Proof.
  intros Hp Hl. unfold expand. rewrite Hp. cbn [res_nonterms]. unfold phase2_table, renamed, fwd.
  set (f := perm_sym (nterms m) (x_perm st)). set (all := List.combine (map nt_name (m_nonterms m)) vals1 ++ x_extras st).
  assert (Hall : map snd all = vals1 ++ map snd (x_extras st))
    by (unfold all; now rewrite map_app, map_snd_combine by (now rewrite map_length)).
  pose proof (map_rearrange_list (rename_expr f) (x_perm st) (map snd all) EEmpty) as R1.
  pose proof (map_rearrange_list snd (x_perm st) all ([], EEmpty)) as R2. cbn [rename_expr snd] in R1, R2.
  rewrite <- Hall, <- R1, <- R2. generalize (rearrange_list (x_perm st) all ([], EEmpty)). intro M.
  rewrite !map_length. generalize O.
  induction M as [|[nm v] M IH]; intro s; cbn [length seq List.combine map snd]; [reflexivity|]. f_equal. apply IH.
Qed.

(* the whole of Expand; the side conditions are one boolean, evaluated on every generated model *)
Theorem expand_correct_checked setden m :
  expand_checks m = true ->
  forall X, nterms m <= X < nterms m + Z.of_nat (length (m_nonterms m)) -> forall w,
    lfp (nterms m) setden (map nt_value (m_nonterms m)) X w <->
    lfp (nterms m) setden (map snd (res_nonterms (expand m))) (perm_sym (nterms m) (x_perm (snd (phase1 m))) X) w.
Proof.
  unfold expand_checks. destruct (phase1 m) as [vals1 st] eqn:Hp. intros Hc X HX w. cbn [snd].
  apply andb_true_iff in Hc as [Hc Hb]. apply andb_true_iff in Hc as [Hc Hperm]. apply andb_true_iff in Hc as [Hnf Hwf].
  apply negb_true_iff in Hnf. rewrite forallb_forall in Hwf. apply forallb_Forall in Hb.
  destruct (phase1_shape m _ _ Hp) as (Hl1 & _).
  set (B := vals1 ++ map snd (x_extras st)) in *.
  rewrite (expand_values m vals1 st Hp Hl1). fold B.
  rewrite (phase1_language_preserved setden m vals1 st Hp Hnf) by (auto; intros i Hi; apply Hwf, nth_In, Hi). fold B.
  rewrite (rearrange_language_preserved (nterms m) setden B (x_perm st) Hperm Hb X) by (unfold B; rewrite app_length; lia).
  apply phase2_language_preserved.
  unfold renamed, rearrange_list. apply Forall_map, Forall_forall. intros p _.
  destruct (nth_in_or_default (index_of p (x_perm st) O) (map (rename_expr (fwd (nterms m) (x_perm st))) B) EEmpty) as [Hin | ->]; [|exact I].
  apply in_map_iff in Hin as (v0 & <- & Hv0). apply list_inv_rename.
  pose proof (phase1_table_inv m _ _ Hp) as HB. rewrite Forall_forall in HB. now apply HB.
Qed.
