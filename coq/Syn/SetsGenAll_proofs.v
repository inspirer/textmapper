(* C15: soundness of the checks SetsGen.sets_gen_ok and SetsGenAll.sets_gen_all_ok: at the node of a key (op, s) every
   stable (= least) solution of the generated equations is exactly any_in / first_in / last_in / precede_in /
   follow_in, and the node of a closed set expression is the union / intersection / complement of these sets.
   The node of a nonterminal is the union of the key nodes of the symbols of its right-hand sides that count: all of
   them for any, the visible prefix for first, that of the reversed side for last. *)
From Coq Require Import List ZArith Bool Lia.
From TM Require Import Util.IntSet Util.IntSet_proofs Util.Closure Util.ClosureSem
  Util.Closure_proofs
  Lib.ListX Gram.Cfg Gram.Cfg_proofs Syn.Expr Syn.Sets Syn.SetsSpec Syn.SetsSpec_proofs Syn.Sets_closure Syn.SetsGen Syn.SetsGenAll.
Import ListNotations.
Local Open Scope Z_scope.

Lemma find_key_in op s : forall keys v, find_key op s keys = Some v -> In (op, s, v) keys.
Proof.
  induction keys as [|[[o x] w] keys IH]; intros v H; cbn [find_key] in H; [discriminate|].
  destruct ((o =? op) && (x =? s)) eqn:E.
  - injection H as <-. apply andb_true_iff in E as [E1 E2]. apply Z.eqb_eq in E1, E2. subst. now left.
  - right. auto.
Qed.

Lemma list_eqb_nat_true : forall a b, list_eqb Nat.eqb a b = true -> a = b.
Proof.
  induction a as [|x a IH]; intros [|y b] H; cbn [list_eqb] in H; try discriminate; auto.
  apply andb_true_iff in H as [H1 H2]. apply Nat.eqb_eq in H1. subst. f_equal. auto.
Qed.

Lemma concat_opt_spec {A} : forall (l : list (option (list A))) E, concat_opt l = Some E ->
  (forall w, In w E -> exists a, In (Some a) l /\ In w a) /\
  (forall x, In x l -> exists a, x = Some a /\ incl a E).
Proof.
  induction l as [|x l IH]; intros E H; cbn [concat_opt] in H.
  - injection H as <-. split; [intros w [] | intros x []].
  - destruct x as [a|]; [|discriminate]. destruct (concat_opt l) as [b|]; [|discriminate]. injection H as <-.
    destruct (IH b eq_refl) as [I1 I2]. split.
    + intros w Hw. apply in_app_or in Hw as [Hw|Hw].
      * exists a. split; [now left | exact Hw].
      * destruct (I1 w Hw) as (c & Hc & Hi). exists c. split; [now right | exact Hi].
    + intros x [<-|Hx].
      * exists a. split; [reflexivity | apply incl_appl, incl_refl].
      * destruct (I2 x Hx) as (c & -> & Hi). exists c. split; [reflexivity | apply incl_appr, Hi].
Qed.

Lemma all_keys_spec keys op : forall syms E, all_keys keys op syms = Some E ->
  (forall w, In w E -> exists y, In y syms /\ find_key op y keys = Some w) /\
  (forall y, In y syms -> exists w, find_key op y keys = Some w /\ In w E).
Proof.
  induction syms as [|x rest IH]; intros E H; cbn [all_keys] in H.
  - injection H as <-. split; [intros w [] | intros y []].
  - destruct (find_key op x keys) as [w0|] eqn:Ek; [|discriminate].
    destruct (all_keys keys op rest) as [E'|]; [|discriminate]. injection H as <-.
    destruct (IH E' eq_refl) as [I1 I2]. split.
    + intros w [<-|Hw]; [exists x; split; [now left | exact Ek]|].
      destruct (I1 w Hw) as (y & Hy & Hf). exists y. split; [now right | exact Hf].
    + intros y [<-|Hy]; [exists w0; split; [exact Ek | now left]|].
      destruct (I2 y Hy) as (w & Hf & Hw). exists w. split; [exact Hf | now right].
Qed.

(* a first-like scan asks for the keys of the visible prefix *)
Lemma scan_keys_vis keys nl op : forall syms, scan_keys keys nl op syms = all_keys keys op (vis nl syms).
Proof.
  induction syms as [|y rest IH]; cbn [scan_keys vis all_keys]; [reflexivity|].
  destruct (find_key op y keys); [|reflexivity]. destruct (mem y nl); [|reflexivity].
  rewrite IH. now destruct (all_keys _ _ _).
Qed.

Lemma expected_edges_vis keys nl op : forall rhss,
  expected_edges keys nl op rhss = concat_opt (map (all_keys keys op) (map (vis nl) rhss)).
Proof. induction rhss as [|rhs rest IH]; cbn [expected_edges map concat_opt]; [reflexivity|]. now rewrite scan_keys_vis, IH. Qed.

Definition union_at (nodes : list cnode) (v : nat) (c : list Z) (E : list nat) : Prop :=
  (v < length nodes)%nat /\ n_op (nd nodes v) = OpUnion /\ inverse (n_val (nd nodes v)) = false /\
  elems (n_val (nd nodes v)) = c /\ n_edges (nd nodes v) = E.

Lemma union_node_spec nodes v c : union_node nodes v c = true -> union_at nodes v c (n_edges (nd nodes v)).
Proof.
  unfold union_node. fold (nd nodes v). intro H.
  apply andb_true_iff in H as [H Hel]. apply andb_true_iff in H as [H Hinv]. apply andb_true_iff in H as [Hv Hu].
  apply Nat.ltb_lt in Hv. apply negb_true_iff in Hinv. apply zl_eqb_eq in Hel.
  repeat split; auto. destruct (n_op (nd nodes v)); try discriminate; reflexivity.
Qed.

Lemma no_edges nodes v : match n_edges (nd nodes v) with [] => true | _ => false end = true -> n_edges (nd nodes v) = [].
Proof. now destruct (n_edges (nd nodes v)). Qed.

Definition rhss_of (R : list prule) (s : Z) : list (list Z) := map snd (filter (fun r => fst r =? s) R).

Lemma rhss_of_in R s rhs : In rhs (rhss_of R s) <-> In (s, rhs) R.
Proof.
  unfold rhss_of. rewrite in_map_iff. split.
  - intros ([x r] & <- & Hf). apply filter_In in Hf as [Hin He]. cbn in He. apply Z.eqb_eq in He. cbn in *. now subst.
  - intro Hin. exists (s, rhs). split; [reflexivity|]. apply filter_In. split; [exact Hin | cbn; apply Z.eqb_refl].
Qed.

Lemma rhss_of_defs (f : list Z -> list Z) rules s :
  map (fun r => f (o_rhs r)) (defs_of rules s) = rhss_of (map (fun r => (o_lhs r, f (o_rhs r))) rules) s.
Proof.
  unfold rhss_of, defs_of. induction rules as [|r rules IH]; cbn [filter map fst]; [reflexivity|].
  destruct (o_lhs r =? s); cbn [map snd]; now rewrite IH.
Qed.

Section Keys.
  Variable T : Z.
  Variable R : list prule.
  Variable nodes : list cnode.
  Variable keys : list (Z * Z * nat).
  Variable op : Z.
  Variable V : list Z -> list Z.      (* the symbols of a right-hand side whose sets flow into the left-hand side *)
  Variable D : Z -> Z -> Prop.        (* the declarative set: the least relation closed under D_term and D_rule *)

  Hypothesis HR : forall r, In r R -> T <= fst r.
  Hypothesis D_term : forall a, 0 <= a < T -> D a a.
  Hypothesis D_rule : forall X rhs y a, In (X, rhs) R -> In y (V rhs) -> D y a -> D X a.
  Hypothesis D_ind : forall Q : Z -> Z -> Prop, (forall a, 0 <= a < T -> Q a a) ->
    (forall X rhs y a, In (X, rhs) R -> In y (V rhs) -> Q y a -> Q X a) -> forall s a, D s a -> Q s a.
  (* a terminal is the singleton {s}; a nonterminal is the union of exactly the prescribed key nodes *)
  Hypothesis Hkey : forall s v, find_key op s keys = Some v ->
    (0 <= s < T /\ union_at nodes v [s] []) \/
    (T <= s /\ exists E, union_at nodes v [] E /\ concat_opt (map (all_keys keys op) (map V (rhss_of R s))) = Some E).

  Variable sol : valuation.

  Lemma keys_sound : forall v a, lfp nodes sol v a -> forall s, find_key op s keys = Some v -> D s a.
  Proof.
    induction 1 as [v x Hv Ho Hd | v w x Hv Ho Hw Hl IH | v x Hv Ho Hall IH | v w x Hv Ho He Hn]; intros s Hk;
      destruct (Hkey s v Hk) as [(Hs & _ & Hu & Hinv & Hel & Hed) | (Hs & E & (_ & Hu & Hinv & Hel & Hed) & Hex)];
      try congruence.
    - unfold den in Hd. rewrite Hinv, Hel in Hd. destruct Hd as [<-|[]]. now apply D_term.
    - unfold den in Hd. rewrite Hinv, Hel in Hd. destruct Hd.
    - rewrite Hed in Hw. destruct Hw.
    - rewrite Hed in Hw. destruct (concat_opt_spec _ _ Hex) as [I1 _]. destruct (I1 w Hw) as (Er & Hr & Hi).
      rewrite map_map in Hr. apply in_map_iff in Hr as (rhs & Hsc & Hr). apply rhss_of_in in Hr.
      destruct (all_keys_spec _ _ _ _ Hsc) as [S1 _]. destruct (S1 w Hi) as (y & Hy & Hf).
      exact (D_rule s rhs y x Hr Hy (IH y Hf)).
  Qed.

  Lemma keys_complete : forall s a, D s a -> forall v, find_key op s keys = Some v -> lfp nodes sol v a.
  Proof.
    apply (D_ind (fun s a => forall v, find_key op s keys = Some v -> lfp nodes sol v a)).
    - intros a Ha v Hk. destruct (Hkey a v Hk) as [(_ & Hv & Hu & Hinv & Hel & _) | (Hs & _)]; [|lia].
      apply lfp_const; auto. unfold den. rewrite Hinv, Hel. now left.
    - intros X rhs y a Hin Hy IH v Hk.
      destruct (Hkey X v Hk) as [(Hs & _) | (_ & E & (Hv & Hu & _ & _ & Hed) & Hex)]; [specialize (HR _ Hin); cbn in HR; lia|].
      destruct (concat_opt_spec _ _ Hex) as [_ I2].
      destruct (I2 (all_keys keys op (V rhs))) as (Er & Hsc & Hincl); [apply in_map, in_map; now apply rhss_of_in|].
      destruct (all_keys_spec _ _ _ _ Hsc) as [_ S2]. destruct (S2 y Hy) as (w & Hfw & Hw).
      apply (lfp_union nodes sol v w a Hv Hu); [rewrite Hed; now apply Hincl | now apply IH].
  Qed.

  Theorem keys_exact : stable_solution nodes sol -> forall s v, find_key op s keys = Some v ->
    (v < length nodes)%nat /\ forall a, sol v a <-> D s a.
  Proof.
    intros Hs s v Hk.
    assert (Hv : (v < length nodes)%nat) by (destruct (Hkey s v Hk) as [(_ & Hv & _) | (_ & E & (Hv & _) & _)]; exact Hv).
    split; [exact Hv|]. intro a. rewrite (Hs v a Hv).
    split; [intro H; eapply keys_sound; eauto | intro H; eapply keys_complete; eauto].
  Qed.
End Keys.

Section Decl.
  Variable T : Z.
  Variable nl : list Z.
  Variable R : list prule.
  Hypothesis Hnl : forall X rhs y, In (X, rhs) R -> In y rhs -> (mem y nl = true <-> nullable_in R y).

  Lemma vis_R X rhs y : In (X, rhs) R ->
    (In y (vis nl rhs) <-> exists pre post, rhs = pre ++ y :: post /\ all_nullable R pre).
  Proof. intro Hin. apply vis_decl. intros s Hs. exact (Hnl X rhs s Hin Hs). Qed.

  Lemma first_vis_rule X rhs y a : In (X, rhs) R -> In y (vis nl rhs) -> first_in T R y a -> first_in T R X a.
  Proof. intros Hin Hy H. apply (vis_R X rhs y Hin) in Hy as (pre & post & -> & Hp). exact (fi_rule T R X pre y post a Hin Hp H). Qed.

  Lemma first_vis_ind (Q : Z -> Z -> Prop) : (forall a, 0 <= a < T -> Q a a) ->
    (forall X rhs y a, In (X, rhs) R -> In y (vis nl rhs) -> Q y a -> Q X a) -> forall s a, first_in T R s a -> Q s a.
  Proof.
    intros Ht Hr. induction 1 as [a Ha | X pre y post a Hin Hp _ IH]; [auto|].
    apply (Hr X (pre ++ y :: post) y a Hin); [|exact IH]. apply (vis_R X _ y Hin). eauto.
  Qed.

  Lemma any_rule X rhs y a : In (X, rhs) R -> In y rhs -> any_in T R y a -> any_in T R X a.
  Proof. intros Hin Hy H. apply in_split in Hy as (pre & post & ->). exact (an_rule T R X pre y post a Hin H). Qed.

  Lemma any_ind (Q : Z -> Z -> Prop) : (forall a, 0 <= a < T -> Q a a) ->
    (forall X rhs y a, In (X, rhs) R -> In y rhs -> Q y a -> Q X a) -> forall s a, any_in T R s a -> Q s a.
  Proof.
    intros Ht Hr. induction 1 as [a Ha | X pre y post a Hin _ IH]; [auto|].
    apply (Hr X (pre ++ y :: post) y a Hin); [apply in_elt | exact IH].
  Qed.
End Decl.

Lemma ctx_edges_spec keys nl fiop fop c E : ctx_edges keys nl fiop fop c = Some E ->
  exists E0, all_keys keys fiop (vis nl (snd c)) = Some E0 /\
    ((all_null nl (snd c) = false /\ E = E0) \/
     (all_null nl (snd c) = true /\ exists w, find_key fop (fst c) keys = Some w /\ E = E0 ++ [w])).
Proof.
  unfold ctx_edges. rewrite scan_keys_vis. destruct (all_keys _ _ _) as [E0|]; [|discriminate]. intro H.
  exists E0. split; [reflexivity|]. destruct (all_null nl (snd c)); [right | left; now injection H].
  split; [reflexivity|]. destruct (find_key _ _ _) as [w|]; [|discriminate]. exists w. now injection H.
Qed.

Section Fol.
  Variable T : Z.
  Variable nl : list Z.
  Variable R : list prule.
  Variable nodes : list cnode.
  Variable keys : list (Z * Z * nat).
  Variables fiop fop : Z.
  Variable ctx : Z -> list (Z * list Z).
  Variable sol : valuation.

  Hypothesis Hctx : forall s X post, In (X, post) (ctx s) <-> exists pre, In (X, pre ++ s :: post) R.
  Hypothesis Hnl : forall X rhs y, In (X, rhs) R -> In y rhs -> (mem y nl = true <-> nullable_in R y).
  Hypothesis Hs : stable_solution nodes sol.
  Hypothesis Hfi : forall y w, find_key fiop y keys = Some w ->
    (w < length nodes)%nat /\ forall a, sol w a <-> first_in T R y a.
  Hypothesis Hkey : forall s v, find_key fop s keys = Some v ->
    exists E, union_at nodes v [] E /\ concat_opt (map (ctx_edges keys nl fiop fop) (ctx s)) = Some E.

  Lemma first_lfp y w : find_key fiop y keys = Some w -> forall a, lfp nodes sol w a <-> first_in T R y a.
  Proof. intros H a. destruct (Hfi y w H) as [Hw Hy]. now rewrite <- (Hs w a Hw). Qed.

  (* nl is the declarative nullable set on the symbols after an occurrence *)
  Lemma nl_after X pre s post : In (X, pre ++ s :: post) R ->
    forall y, In y post -> (mem y nl = true <-> nullable_in R y).
  Proof. intros Hin y Hy. apply (Hnl X _ y Hin). apply in_or_app. right. now right. Qed.

  Lemma all_null_after X pre s post : In (X, pre ++ s :: post) R -> (all_null nl post = true <-> all_nullable R post).
  Proof.
    intro Hin. unfold all_null, all_nullable. rewrite forallb_forall.
    split; intros H y Hy; apply (nl_after X pre s post Hin y Hy); auto.
  Qed.

  Lemma fol_sound : forall v a, lfp nodes sol v a -> forall s, find_key fop s keys = Some v -> follow_in T R s a.
  Proof.
    induction 1 as [v x Hv Ho Hd | v w x Hv Ho Hw Hl IH | v x Hv Ho Hall IH | v w x Hv Ho He Hn]; intros s Hk;
      destruct (Hkey s v Hk) as (E & (_ & Hu & Hinv & Hel & Hed) & Hex); try congruence.
    - unfold den in Hd. rewrite Hinv, Hel in Hd. destruct Hd.
    - rewrite Hed in Hw. destruct (concat_opt_spec _ _ Hex) as [I1 _]. destruct (I1 w Hw) as (Ec & Hc & Hi).
      apply in_map_iff in Hc as ([X post] & Hce & Hc). apply Hctx in Hc as [pre Hin].
      apply ctx_edges_spec in Hce as (E0 & Esc & Hce). cbn [fst snd] in *.
      assert (Hscan : In w E0 -> follow_in T R s x).
      { intro Hw0. destruct (all_keys_spec _ _ _ _ Esc) as [S1 _]. destruct (S1 w Hw0) as (y & Hy & Hf).
        apply (vis_decl R) in Hy as (mid & post' & -> & Hmid); [|exact (nl_after X pre s _ Hin)].
        apply (fo_next T R X pre s mid y post' x Hin Hmid). now apply (first_lfp y w Hf). }
      destruct Hce as [[_ ->] | (En & w0 & Ek & ->)]; [now apply Hscan|].
      apply in_app_or in Hi as [Hi|[<-|[]]]; [now apply Hscan|].
      apply (fo_end T R X pre s post x Hin); [now apply (all_null_after X pre s post Hin) | now apply IH].
  Qed.

  Lemma fol_complete : forall s a, follow_in T R s a -> forall v, find_key fop s keys = Some v -> lfp nodes sol v a.
  Proof.
    induction 1 as [X pre s mid y post a Hin Hmid Hf | X pre s post a Hin Hpost Hfo IH]; intros v Hk;
      destruct (Hkey _ v Hk) as (E & (Hv & Hu & _ & _ & Hed) & Hex); destruct (concat_opt_spec _ _ Hex) as [_ I2].
    - destruct (I2 (ctx_edges keys nl fiop fop (X, mid ++ y :: post))) as (Ec & Hce & Hincl); [apply in_map, Hctx; now exists pre|].
      apply ctx_edges_spec in Hce as (E0 & Esc & Hce). cbn [fst snd] in *.
      destruct (all_keys_spec _ _ _ _ Esc) as [_ S2]. destruct (S2 y) as (w & Hfw & Hw).
      { apply (vis_decl R); [exact (nl_after X pre s _ Hin) | eauto]. }
      apply (lfp_union nodes sol v w a Hv Hu); [|now apply (first_lfp y w Hfw)]. rewrite Hed. apply Hincl.
      destruct Hce as [[_ ->] | (_ & w0 & _ & ->)]; [exact Hw | apply in_or_app; now left].
    - destruct (I2 (ctx_edges keys nl fiop fop (X, post))) as (Ec & Hce & Hincl); [apply in_map, Hctx; now exists pre|].
      apply ctx_edges_spec in Hce as (E0 & _ & [[En _] | (_ & w0 & Ek & ->)]); cbn [fst snd] in *.
      + apply (all_null_after X pre s post Hin) in Hpost. congruence.
      + apply (lfp_union nodes sol v w0 a Hv Hu); [rewrite Hed; apply Hincl, in_or_app; right; now left | now apply IH].
  Qed.

  Theorem fol_exact s v : find_key fop s keys = Some v -> forall a, sol v a <-> follow_in T R s a.
  Proof.
    intros Hk a. destruct (Hkey s v Hk) as (E & (Hv & _) & _). rewrite (Hs v a Hv).
    split; [intro H; eapply fol_sound; eauto | intro H; eapply fol_complete; eauto].
  Qed.
End Fol.

Section Tree.
  Variable T : Z.
  Variable R : list prule.
  Variable nodes : list cnode.
  Variable keys : list (Z * Z * nat).
  Variable sol : valuation.
  Hypothesis Hwf : nodes_wf nodes.
  Hypothesis Hs : stable_solution nodes sol.

  (* the equation of a node without a constant *)
  Lemma op_node_eqn o r ws : op_node nodes o r = Some ws -> forall a,
    sol r a <-> match o with
                | OpUnion => exists w, In w ws /\ sol w a
                | OpIntersection => forall w, In w ws -> sol w a
                | OpComplement => exists w, ws = [w] /\ ~ sol w a
                end.
  Proof.
    unfold op_node. fold (nd nodes r). destruct (_ && _) eqn:E; [|discriminate]. intro H. injection H as <-. intro a.
    apply andb_true_iff in E as [E Hel]. apply andb_true_iff in E as [E Hinv]. apply andb_true_iff in E as [Hv Ho].
    apply Nat.ltb_lt in Hv. apply negb_true_iff in Hinv.
    pose proof (stable_is_solution nodes sol Hwf Hs r a Hv) as He. unfold eqn_holds in He.
    destruct (n_op (nd nodes r)), o; try discriminate; try exact He.
    rewrite He. unfold den. rewrite Hinv. destruct (elems (n_val (nd nodes r))); [|discriminate].
    split; [intros [[]|H1]; exact H1 | now right].
  Qed.

  Lemma proxy_sol p r : is_proxy nodes p = Some r -> forall a, sol p a <-> sol r a.
  Proof.
    intros H a. assert (Ho : op_node nodes OpUnion p = Some [r]).
    { unfold is_proxy in H. destruct (union_node nodes p []) eqn:Eu; [|discriminate].
      apply union_node_spec in Eu as (Hv & Hu & Hinv & Hel & _). apply Nat.ltb_lt in Hv.
      unfold op_node. fold (nd nodes p) in *. rewrite Hv, Hu, Hinv, Hel. cbn [cop_eqb negb andb].
      destruct (n_edges (nd nodes p)) as [|w [|? ?]]; try discriminate. now injection H as <-. }
    rewrite (op_node_eqn _ _ _ Ho a). split; [intros (w & [<-|[]] & H1); exact H1 | intro H1; exists r; split; [now left | exact H1]].
  Qed.

  Lemma leaf_sem op s p : tree_ok nodes keys (TSym op s) p = true ->
    exists v, 0 <= op <= 4 /\ find_key op s keys = Some v /\ forall a, sol p a <-> sol v a.
  Proof.
    cbn [tree_ok]. destruct (is_proxy nodes p) as [r|] eqn:Ep; [|discriminate]. intro Hok.
    apply andb_true_iff in Hok as [Hop Hk]. apply andb_true_iff in Hop as [H0 H4]. apply Z.leb_le in H0, H4.
    destruct (find_key op s keys) as [v|]; [|discriminate]. apply Nat.eqb_eq in Hk. subst v.
    exists r. split; [lia|]. split; [reflexivity | exact (proxy_sol p r Ep)].
  Qed.

  Hypothesis Hleaf : forall op s v, 0 <= op <= 4 -> find_key op s keys = Some v -> forall a, sol v a <-> op_in T R op s a.

  Theorem tree_sem : forall t p, tree_ok nodes keys t p = true -> forall a, sol p a <-> set_den T R t a.
  Proof.
    induction t using tset_ind2; intros p Hok a.
    { destruct (leaf_sem op s p Hok) as (v & Hop & Ek & ->). exact (Hleaf op s v Hop Ek a). }
    all: cbn [tree_ok] in Hok; destruct (is_proxy nodes p) as [r|] eqn:Ep; try discriminate;
      rewrite (proxy_sol p r Ep a); cbn [set_den].
    - destruct (op_node nodes OpUnion r) as [ws|] eqn:Eo; [|discriminate]. rewrite (op_node_eqn _ r ws Eo a). clear Eo Ep.
      revert ws Hok. induction H as [|x l Hx Hl IH]; intros [|w ws] Hok; try discriminate.
      + split; [intros (w & [] & _) | intros []].
      + apply andb_true_iff in Hok as [H1 H2]. specialize (IH ws H2). rewrite <- IH, <- (Hx w H1 a). split.
        * intros (w' & [<-|Hw] & Hsw); [now left | right; now exists w'].
        * intros [Hsw | (w' & Hw & Hsw)]; [exists w; split; [now left | exact Hsw] | exists w'; split; [now right | exact Hsw]].
    - destruct (op_node nodes OpIntersection r) as [ws|] eqn:Eo; [|discriminate]. rewrite (op_node_eqn _ r ws Eo a). clear Eo Ep.
      revert ws Hok. induction H as [|x l Hx Hl IH]; intros [|w ws] Hok; try discriminate.
      + split; [intros _; exact I | intros _ w []].
      + apply andb_true_iff in Hok as [H1 H2]. specialize (IH ws H2). rewrite <- IH, <- (Hx w H1 a). split.
        * intro Hall. split; [apply Hall; now left | intros w' Hw; apply Hall; now right].
        * intros [Hsw Hall] w' [<-|Hw]; [exact Hsw | now apply Hall].
    - destruct (op_node nodes OpComplement r) as [[|v [|? ?]]|] eqn:Eo; try discriminate.
      rewrite (op_node_eqn _ r [v] Eo a), <- (IHt v Hok a).
      split; [intros (w & Hw & Hn); now injection Hw as <- | intro Hn; now exists v].
  Qed.
End Tree.

Lemma split_len {A} (d : A) (pre : list A) s post :
  nth (length pre) (pre ++ s :: post) d = s /\ firstn (length pre) (pre ++ s :: post) = pre /\
  skipn (S (length pre)) (pre ++ s :: post) = post /\ (length pre < length (pre ++ s :: post))%nat.
Proof.
  induction pre as [|x pre IH]; cbn [length app nth firstn skipn].
  - repeat split. lia.
  - destruct IH as (H1 & H2 & H3 & H4). repeat split; auto. now f_equal. lia.
Qed.

Lemma usages_spec rules s r pos :
  In (r, pos) (usages rules s) <-> In r rules /\ (pos < length (o_rhs r))%nat /\ nth pos (o_rhs r) (-1) = s.
Proof.
  unfold usages. rewrite in_flat_map. split.
  - intros (r' & Hr & Hm). apply in_map_iff in Hm as (p & He & Hp). injection He as -> ->.
    apply filter_In in Hp as [Hp He]. apply in_seq in Hp. apply Z.eqb_eq in He. repeat split; auto. lia.
  - intros (Hr & Hp & He). exists r. split; [exact Hr|]. apply in_map. apply filter_In. split; [apply in_seq; lia | now apply Z.eqb_eq].
Qed.

Lemma ctxs_follow rules s X post :
  In (X, post) (ctxs 4 rules s) <-> exists pre, In (X, pre ++ s :: post) (prules_of rules).
Proof.
  unfold ctxs. cbn [Z.eqb Pos.eqb]. rewrite in_map_iff. split.
  - intros ([r pos] & He & Hu). injection He as <- <-. apply usages_spec in Hu as (Hr & Hp & Hn).
    exists (firstn pos (o_rhs r)). unfold prules_of. apply in_map_iff. exists r. split; [|exact Hr].
    f_equal. rewrite <- (firstn_skipn pos (o_rhs r)) at 1.
    now rewrite (nth_error_skipn_cons _ _ _ (nth_error_nth' _ (-1) Hp)), Hn.
  - intros (pre & Hin). unfold prules_of in Hin. apply in_map_iff in Hin as (r & He & Hr). injection He as <- Hrhs.
    destruct (split_len (-1) pre s post) as (H1 & H2 & H3 & H4).
    exists (r, length pre). split; [now rewrite Hrhs, H3|]. apply usages_spec. rewrite Hrhs. auto.
Qed.

Lemma ctxs_precede rules s X post :
  In (X, post) (ctxs 3 rules s) <-> exists pre, In (X, pre ++ s :: post) (rev_rules (prules_of rules)).
Proof.
  unfold ctxs. cbn [Z.eqb Pos.eqb]. rewrite in_map_iff. split.
  - intros ([r pos] & He & Hu). injection He as <- <-. apply usages_spec in Hu as (Hr & Hp & Hn).
    exists (rev (skipn (S pos) (o_rhs r))). apply in_rev_rules. rewrite rev_flip.
    unfold prules_of. apply in_map_iff. exists r. split; [|exact Hr].
    f_equal. rewrite <- (firstn_skipn pos (o_rhs r)) at 1.
    now rewrite (nth_error_skipn_cons _ _ _ (nth_error_nth' _ (-1) Hp)), Hn.
  - intros (pre & Hin). apply in_rev_rules in Hin. rewrite rev_app_distr in Hin. cbn [rev] in Hin. rewrite <- app_assoc in Hin.
    cbn [app] in Hin. unfold prules_of in Hin. apply in_map_iff in Hin as (r & He & Hr). injection He as <- Hrhs.
    destruct (split_len (-1) (rev post) s (rev pre)) as (H1 & H2 & H3 & H4).
    exists (r, length (rev post)). split; [now rewrite Hrhs, H2, rev_involutive|]. apply usages_spec. rewrite Hrhs. auto.
Qed.

Section Lift.
  Variable T : Z.
  Variable nl : list Z.
  Variable rules : list orule.
  Variable nodes : list cnode.
  Variable keys : list (Z * Z * nat).
  Hypothesis Hok : gen_keys_ok T nl rules nodes keys = true.
  Let P := prules_of rules.

  Lemma ok_parts : (forall r, In r P -> T <= fst r) /\
    (forall X rhs y, In (X, rhs) P -> In y rhs -> (mem y nl = true <-> nullable_in P y)) /\
    (forall k, In k keys -> key_ok T nl rules nodes keys k = true).
  Proof.
    unfold gen_keys_ok in Hok. apply andb_true_iff in Hok as [H12 H3]. apply andb_true_iff in H12 as [H1 H2].
    rewrite forallb_forall in H1, H3. split; [|split; [|exact H3]].
    - intros [X rhs] Hin. apply in_map_iff in Hin as (r & He & Hr). injection He as <- _.
      specialize (H1 r Hr). apply andb_true_iff in H1 as [_ H1]. now apply Z.leb_le.
    - unfold nl_ok in H2. destruct (spec_nullable (prules_of rules)) as [nl'|] eqn:En; [|discriminate].
      pose proof (spec_nullable_exact _ _ En) as Hex. intros X rhs y Hin Hy. rewrite forallb_forall in H2.
      apply in_map_iff in Hin as (r & He & Hr). injection He as _ <-.
      specialize (H2 r Hr). rewrite forallb_forall in H2. specialize (H2 y Hy). apply eqb_prop in H2. rewrite H2. apply Hex.
  Qed.

  Lemma P_lhs : forall r, In r P -> T <= fst r.
  Proof. exact (proj1 ok_parts). Qed.

  Lemma P_nl : forall X rhs y, In (X, rhs) P -> In y rhs -> (mem y nl = true <-> nullable_in P y).
  Proof. exact (proj1 (proj2 ok_parts)). Qed.

  Lemma Prev_lhs : forall r, In r (rev_rules P) -> T <= fst r.
  Proof. intros [X rhs] H. apply in_rev_rules in H. exact (P_lhs _ H). Qed.

  Lemma Prev_nl : forall X rhs y, In (X, rhs) (rev_rules P) -> In y rhs -> (mem y nl = true <-> nullable_in (rev_rules P) y).
  Proof.
    intros X rhs y Hin Hy. apply in_rev_rules in Hin. rewrite nullable_rev. apply (P_nl X (rev rhs) y Hin). now apply in_rev in Hy.
  Qed.

  Lemma key_hyp op (Hop : op = 1 \/ op = 2) s v : find_key op s keys = Some v ->
    (0 <= s < T /\ union_at nodes v [s] []) \/
    (T <= s /\ exists E, union_at nodes v [] E /\
       concat_opt (map (all_keys keys op) (map (vis nl) (rhss_of (map (fun r => (o_lhs r, orient op (o_rhs r))) rules) s))) = Some E).
  Proof.
    intro Hk. destruct ok_parts as (_ & _ & H3). specialize (H3 _ (find_key_in _ _ _ _ Hk)). unfold key_ok in H3.
    replace ((op =? 1) || (op =? 2)) with true in H3 by (destruct Hop as [-> | ->]; reflexivity).
    fold (nd nodes v) in H3.
    apply andb_true_iff in H3 as [H3 Hcase]. apply andb_true_iff in H3 as [H3 Hinv]. apply andb_true_iff in H3 as [Hv Hu].
    apply Nat.ltb_lt in Hv. apply negb_true_iff in Hinv.
    assert (Hu' : n_op (nd nodes v) = OpUnion) by (destruct (n_op (nd nodes v)); try discriminate; reflexivity).
    destruct (s <? T) eqn:Es.
    - left. apply Z.ltb_lt in Es. apply andb_true_iff in Hcase as [Hc He]. apply andb_true_iff in Hc as [H0 Hel].
      apply Z.leb_le in H0. apply zl_eqb_eq in Hel. apply no_edges in He. repeat split; auto.
    - right. apply Z.ltb_ge in Es. apply andb_true_iff in Hcase as [Hel Hex]. split; [exact Es|].
      rewrite (rhss_of_defs (orient op)), expected_edges_vis in Hex. destruct (concat_opt _) as [E|]; [|discriminate].
      apply list_eqb_nat_true in Hex. exists E. repeat split; auto. now destruct (elems (n_val (nd nodes v))).
  Qed.

  Variable sol : valuation.
  Hypothesis Hs : stable_solution nodes sol.

  Theorem gen_first_exact s v : find_key 1 s keys = Some v ->
    (v < length nodes)%nat /\ forall a, sol v a <-> first_in T P s a.
  Proof.
    apply (keys_exact T P nodes keys 1 (vis nl) (first_in T P) P_lhs (fi_term T P)
             (first_vis_rule T nl P P_nl) (first_vis_ind T nl P P_nl) (key_hyp 1 (or_introl eq_refl)) sol Hs).
  Qed.

  (* the node of (last, s) holds first_in of the reversed grammar, that is last_in *)
  Theorem gen_last_rev s v : find_key 2 s keys = Some v ->
    (v < length nodes)%nat /\ forall a, sol v a <-> first_in T (rev_rules P) s a.
  Proof.
    assert (E : map (fun r => (o_lhs r, orient 2 (o_rhs r))) rules = rev_rules P)
      by (unfold P, prules_of, rev_rules; now rewrite map_map).
    pose proof (key_hyp 2 (or_intror eq_refl)) as Hkey. rewrite E in Hkey.
    apply (keys_exact T (rev_rules P) nodes keys 2 (vis nl) (first_in T (rev_rules P)) Prev_lhs (fi_term T _)
             (first_vis_rule T nl _ Prev_nl) (first_vis_ind T nl _ Prev_nl) Hkey sol Hs).
  Qed.

  Theorem gen_last_exact s v : find_key 2 s keys = Some v -> forall a, sol v a <-> last_in T P s a.
  Proof. intros Hk a. rewrite <- first_rev. now apply gen_last_rev. Qed.

  Lemma gen_first_last_exact op s v : op = 1 \/ op = 2 -> find_key op s keys = Some v -> forall a, sol v a <-> op_in T P op s a.
  Proof. intros [-> | ->] Hk; [now apply gen_first_exact | now apply gen_last_exact]. Qed.
End Lift.

Section LiftAll.
  Variable T : Z.
  Variable nl : list Z.
  Variable rules : list orule.
  Variable nodes : list cnode.
  Variable keys : list (Z * Z * nat).
  Hypothesis Hok : gen_all_keys_ok T nl rules nodes keys = true.
  Let P := prules_of rules.

  Lemma all_parts : gen_keys_ok T nl rules nodes keys = true /\
    (forall k, In k keys -> any_key_ok T rules nodes keys k = true) /\
    (forall k, In k keys -> fol_key_ok nl rules nodes keys k = true).
  Proof.
    unfold gen_all_keys_ok in Hok. apply andb_true_iff in Hok as [H12 H3]. apply andb_true_iff in H12 as [H1 H2].
    rewrite forallb_forall in H2, H3. auto.
  Qed.

  Let Hg : gen_keys_ok T nl rules nodes keys = true := proj1 all_parts.

  Lemma any_key_hyp s v : find_key 0 s keys = Some v ->
    (0 <= s < T /\ union_at nodes v [s] []) \/
    (T <= s /\ exists E, union_at nodes v [] E /\
       concat_opt (map (all_keys keys 0) (map (fun rhs => rhs) (rhss_of P s))) = Some E).
  Proof.
    intro Hk. pose proof all_parts as (_ & H2 & _). specialize (H2 _ (find_key_in _ _ _ _ Hk)). unfold any_key_ok in H2.
    cbn [Z.eqb] in H2. fold (nd nodes v) in H2. destruct (s <? T) eqn:Es.
    - left. apply Z.ltb_lt in Es. apply andb_true_iff in H2 as [H2 He]. apply andb_true_iff in H2 as [H0 Hu]. apply Z.leb_le in H0.
      apply no_edges in He. apply union_node_spec in Hu. rewrite He in Hu. auto.
    - right. apply Z.ltb_ge in Es. apply andb_true_iff in H2 as [Hu He]. split; [exact Es|].
      rewrite (rhss_of_defs (fun rhs => rhs)) in He. fold (prules_of rules) in He. fold P in He. rewrite map_id.
      destruct (concat_opt _) as [E|]; [|discriminate]. apply list_eqb_nat_true in He. exists E.
      apply union_node_spec in Hu. rewrite He in Hu. auto.
  Qed.

  Lemma fol_key_hyp op (Hop : op = 3 \/ op = 4) s v : find_key op s keys = Some v ->
    exists E, union_at nodes v [] E /\
      concat_opt (map (ctx_edges keys nl (if op =? 3 then 2 else 1) op) (ctxs op rules s)) = Some E.
  Proof.
    intro Hk. pose proof all_parts as (_ & _ & H3). specialize (H3 _ (find_key_in _ _ _ _ Hk)). unfold fol_key_ok in H3.
    replace ((op =? 3) || (op =? 4)) with true in H3 by (destruct Hop as [-> | ->]; reflexivity).
    fold (nd nodes v) in H3. apply andb_true_iff in H3 as [Hu He].
    destruct (concat_opt _) as [E|]; [|discriminate]. apply list_eqb_nat_true in He. exists E.
    apply union_node_spec in Hu. rewrite He in Hu. auto.
  Qed.

  Variable sol : valuation.
  Hypothesis Hs : stable_solution nodes sol.

  Theorem gen_any_exact s v : find_key 0 s keys = Some v -> forall a, sol v a <-> any_in T P s a.
  Proof.
    apply (keys_exact T P nodes keys 0 (fun rhs => rhs) (any_in T P) (P_lhs T nl rules nodes keys Hg) (an_term T P)
             (any_rule T P) (any_ind T P) any_key_hyp sol Hs).
  Qed.

  Theorem gen_follow_exact s v : find_key 4 s keys = Some v -> forall a, sol v a <-> follow_in T P s a.
  Proof.
    apply (fol_exact T nl P nodes keys 1 4 (ctxs 4 rules) sol (ctxs_follow rules) (P_nl T nl rules nodes keys Hg) Hs
             (gen_first_exact T nl rules nodes keys Hg sol Hs) (fol_key_hyp 4 (or_intror eq_refl))).
  Qed.

  Theorem gen_precede_exact s v : find_key 3 s keys = Some v -> forall a, sol v a <-> precede_in T P s a.
  Proof.
    intros Hk a. rewrite <- follow_rev. revert s v Hk a.
    apply (fol_exact T nl (rev_rules P) nodes keys 2 3 (ctxs 3 rules) sol (ctxs_precede rules)
             (Prev_nl T nl rules nodes keys Hg) Hs (gen_last_rev T nl rules nodes keys Hg sol Hs) (fol_key_hyp 3 (or_introl eq_refl))).
  Qed.

  Theorem gen_leaf_exact op s v : 0 <= op <= 4 -> find_key op s keys = Some v -> forall a, sol v a <-> op_in T P op s a.
  Proof.
    intros Hop Hk a. unfold op_in.
    assert (Hc : op = 0 \/ op = 1 \/ op = 2 \/ op = 3 \/ op = 4) by lia.
    destruct Hc as [-> | [-> | [-> | [-> | ->]]]]; cbn [Z.eqb Pos.eqb].
    - now apply gen_any_exact.
    - exact (proj2 (gen_first_exact T nl rules nodes keys Hg sol Hs s v Hk) a).
    - exact (gen_last_exact T nl rules nodes keys Hg sol Hs s v Hk a).
    - now apply gen_precede_exact.
    - now apply gen_follow_exact.
  Qed.
End LiftAll.

(* Finite / co-finite: which closed expressions stay inside [0, T). *)
Fixpoint cofin (t : tset) : bool :=
  match t with
  | TSym _ _ => false
  | TUnion l => existsb cofin l
  | TInter l => forallb cofin l
  | TCompl _ x => negb (cofin x)
  | TNamed _ => false
  end.

Lemma cofin_spec T R : forall t,
  (cofin t = false -> forall a, set_den T R t a -> 0 <= a < T) /\
  (cofin t = true -> forall a, ~ 0 <= a < T -> set_den T R t a).
Proof.
  induction t using tset_ind2; cbn [cofin set_den].
  - split; [intros _ a; apply op_in_range | discriminate].
  - induction H as [|x l [Hx0 Hx1] Hl [IH0 IH1]]; cbn [existsb]; [split; [intros _ a [] | discriminate]|]. split.
    + intro Hc. apply orb_false_iff in Hc as [Hc1 Hc2]. intros a [Ha|Ha]; [now apply (Hx0 Hc1) | now apply (IH0 Hc2)].
    + intro Hc. apply orb_true_iff in Hc as [Hc|Hc]; intros a Ha; [left; now apply Hx1 | right; now apply IH1].
  - induction H as [|x l [Hx0 Hx1] Hl [IH0 IH1]]; cbn [forallb]; [split; [discriminate | intros _ a _; exact I]|]. split.
    + intro Hc. apply andb_false_iff in Hc as [Hc|Hc]; intros a [Ha1 Ha2]; [now apply (Hx0 Hc) | now apply (IH0 Hc)].
    + intro Hc. apply andb_true_iff in Hc as [Hc1 Hc2]. intros a Ha. split; [now apply Hx1 | now apply IH1].
  - destruct IHt as [I0 I1]. split.
    + intro Hc. apply negb_false_iff in Hc. intros a Hn. destruct (Z_le_dec 0 a); [destruct (Z_lt_dec a T); [lia|]|];
        exfalso; apply Hn, (I1 Hc); lia.
    + intro Hc. apply negb_true_iff in Hc. intros a Ha Hd. apply Ha. now apply (I0 Hc).
  - split; [intros _ a [] | discriminate].
Qed.

Lemma fresh_out T (l : list Z) : exists b, ~ 0 <= b < T /\ ~ In b l.
Proof.
  assert (Hm : exists m, forall x, In x l -> x < m).
  { induction l as [|y l [m Hm]]; [exists 0; intros x [] |]. exists (Z.max m (y + 1)). intros x [<-|Hx]; [lia|].
    specialize (Hm x Hx). lia. }
  destruct Hm as [m Hm]. exists (Z.max m T). split; [lia|]. intro Hin. specialize (Hm _ Hin). lia.
Qed.

Lemma combine_nth_in {A B} (d : B) : forall (l : list A) (r : list B) i t, nth_error l i = Some t -> (i < length r)%nat ->
  In (t, nth i r d) (List.combine l r).
Proof.
  induction l as [|x l IH]; intros r i t Hn Hi; [destruct i; discriminate|].
  destruct r as [|y r]; [cbn in Hi; lia|]. destruct i as [|i]; cbn in *.
  - injection Hn as <-. now left.
  - right. apply IH; [exact Hn | lia].
Qed.

(* the generated system is well formed, the result is its stable solution, every top-level set passed its check *)
Lemma resolve_view T vals sets inputs ts (check : tset -> nat -> bool) result st : sets <> [] ->
  sets_certb T vals sets inputs = true -> resolve_sets T vals sets inputs = SetsOk ts ->
  resolve_est T vals sets inputs = (result, st) ->
  Nat.eqb (length result) (length sets) && forallb (fun '(t, p) => check t p) (List.combine sets result) = true ->
  exists vals_of, nodes_wf (e_nodes st) /\ stable_solution (e_nodes st) (fun v x => den (vals_of v) x) /\
    forall i t, nth_error sets i = Some t ->
      check t (nth i result O) = true /\ forall a, In a (nth i ts []) <-> in_terms T (vals_of (nth i result O)) a.
Proof.
  intros Hne Hc Hr Ee Hg.
  destruct (resolve_sets_ok_least T vals sets inputs ts Hne Hc Hr) as (vals_of & Hst & _ & _ & _ & Hts).
  unfold sets_certb in Hc. apply closure_certb_sound in Hc as [Hwf _]. rewrite Ee in *. cbn [fst snd] in *.
  apply andb_true_iff in Hg as [Hlen Htop]. apply Nat.eqb_eq in Hlen. rewrite forallb_forall in Htop.
  exists vals_of. split; [exact Hwf|]. split; [exact Hst|]. intros i t Hi.
  assert (Hlt : (i < length result)%nat) by (rewrite Hlen; apply nth_error_Some; congruence).
  split; [exact (Htop _ (combine_nth_in O sets result i _ Hi Hlt)) | intro a; now apply Hts].
Qed.

Theorem sets_exact_first_last T vals sets inputs ts : sets <> [] ->
  sets_certb T vals sets inputs = true -> sets_gen_ok T vals sets inputs = true ->
  resolve_sets T vals sets inputs = SetsOk ts ->
  forall i op s, nth_error sets i = Some (TSym op s) -> op = 1 \/ op = 2 ->
  forall a, In a (nth i ts []) <-> set_den T (prules_of (rules_of T vals sets inputs)) (TSym op s) a.
Proof.
  intros Hne Hc Hg Hr i op s Hi Hop a.
  unfold sets_gen_ok in Hg. destruct (resolve_est T vals sets inputs) as [result st] eqn:Ee.
  rewrite <- andb_assoc in Hg. apply andb_true_iff in Hg as [Hk Hg].
  destruct (resolve_view T vals sets inputs ts _ result st Hne Hc Hr Ee Hg) as (vals_of & Hwf & Hst & Hts).
  destruct (Hts i _ Hi) as [Htop Hin]. rewrite Hin. clear Hts Hin. set (p := nth i result O) in *.
  set (sol := fun v x => den (vals_of v) x) in *.
  (* the check of a top-level `first s` / `last s` is the tree check at a leaf *)
  assert (Ht : tree_ok (e_nodes st) (e_keys st) (TSym op s) p = true).
  { cbn [top_ok tree_ok] in *. replace ((op =? 1) || (op =? 2)) with true in Htop by (destruct Hop as [-> | ->]; reflexivity).
    apply andb_true_iff in Htop as [Htop Hfk]. apply andb_true_iff in Htop as [Htop Hel].
    unfold is_proxy, union_node. rewrite Htop. destruct (elems _); [|discriminate]. cbn [zl_eqb andb].
    destruct (find_key op s (e_keys st)) as [v|]; [|discriminate].
    destruct (n_edges _) as [|w [|? ?]]; try discriminate. rewrite Hfk. now destruct Hop as [-> | ->]. }
  destruct (leaf_sem (e_nodes st) (e_keys st) sol Hwf Hst op s p Ht) as (v & _ & Ek & Hp).
  unfold in_terms. change (den (vals_of p) a) with (sol p a).
  rewrite Hp, (gen_first_last_exact T _ _ _ _ Hk sol Hst op s v Hop Ek a). cbn [set_den].
  split; [tauto|]. intro H. split; [exact H|]. intros _. eapply op_in_range; eauto.
Qed.

Theorem sets_exact_all T vals sets inputs ts : sets <> [] ->
  sets_certb T vals sets inputs = true -> sets_gen_all_ok T vals sets inputs = true ->
  resolve_sets T vals sets inputs = SetsOk ts ->
  forall i t, nth_error sets i = Some t -> tree_scope t = true ->
  forall a, In a (nth i ts []) <-> 0 <= a < T /\ set_den T (prules_of (rules_of T vals sets inputs)) t a.
Proof.
  intros Hne Hc Hg Hr i t Hi Hsc a.
  unfold sets_gen_all_ok in Hg. destruct (resolve_est T vals sets inputs) as [result st] eqn:Ee.
  rewrite <- andb_assoc in Hg. apply andb_true_iff in Hg as [Hk Hg].
  destruct (resolve_view T vals sets inputs ts _ result st Hne Hc Hr Ee Hg) as (vals_of & Hwf & Hst & Hts).
  destruct (Hts i _ Hi) as [Htop Hin]. rewrite Hin, Hsc in *. clear Hts Hin. set (p := nth i result O) in *.
  set (sol := fun v x => den (vals_of v) x) in *. set (P := prules_of (rules_of T vals sets inputs)).
  pose proof (tree_sem T P (e_nodes st) (e_keys st) sol Hwf Hst
                (gen_leaf_exact T _ _ _ _ Hk sol Hst) t p Htop) as Htree.
  unfold in_terms. change (den (vals_of p) a) with (sol p a). rewrite (Htree a).
  split; [|intros [Hra Hd]; split; [exact Hd | intros _; exact Hra]].
  intros [Hd Hra]. split; [|exact Hd]. destruct (inverse (vals_of p)) eqn:Einv; [now apply Hra|].
  destruct (cofin_spec T P t) as [C0 C1]. destruct (cofin t) eqn:Ecf; [|now apply (C0 eq_refl a)].
  exfalso. destruct (fresh_out T (elems (vals_of p))) as (b & Hb & Hnb). apply Hnb.
  pose proof (proj2 (Htree b) (C1 eq_refl b Hb)) as Hsb. unfold sol, den in Hsb. now rewrite Einv in Hsb.
Qed.

Corollary sets_exact_kind T vals sets inputs ts : sets <> [] ->
  sets_certb T vals sets inputs = true -> sets_gen_all_ok T vals sets inputs = true ->
  resolve_sets T vals sets inputs = SetsOk ts ->
  forall i op s, nth_error sets i = Some (TSym op s) -> 0 <= op <= 4 ->
  forall a, In a (nth i ts []) <-> set_den T (prules_of (rules_of T vals sets inputs)) (TSym op s) a.
Proof.
  intros Hne Hc Hg Hr i op s Hi Hop a.
  assert (Hsc : tree_scope (TSym op s) = true) by (cbn [tree_scope]; apply andb_true_iff; split; apply Z.leb_le; lia).
  rewrite (sets_exact_all T vals sets inputs ts Hne Hc Hg Hr i _ Hi Hsc a). split; [tauto|].
  intro H. split; [|exact H]. cbn [set_den] in H. eapply op_in_range; eauto.
Qed.

(* the check of all kinds contains the check of the key nodes *)
Lemma sets_gen_all_ok_keys T vals sets inputs : sets_gen_all_ok T vals sets inputs = true ->
  gen_all_keys_ok T (nullable_syms T vals) (rules_of T vals sets inputs)
    (e_nodes (snd (resolve_est T vals sets inputs))) (e_keys (snd (resolve_est T vals sets inputs))) = true.
Proof.
  unfold sets_gen_all_ok. destruct (resolve_est T vals sets inputs) as [result st]. cbn [snd]. intro H.
  apply andb_true_iff in H as [H _]. now apply andb_true_iff in H as [H _].
Qed.
