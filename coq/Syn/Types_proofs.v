(* Syn/Types.v and Syn/TypesSym.v: what the generated accessors return, when they panic, and the soundness of the two
   validators of inferred fields (enumeration for list-free bodies, counting for lists of any length). *)
From Coq Require Import List ZArith Bool Lia.
From TM Require Import Syn.Types Syn.TypesSym.
Import ListNotations.
Local Open Scope nat_scope.

Lemma all_from_in : forall kids sel from idx j,
  In j (all_from kids sel from idx) <->
  idx <= j /\ from <= j /\ exists t, nth_error kids (j - idx) = Some t /\ sel_has sel t = true.
Proof.
  induction kids as [|t r IH]; intros sel from idx j; cbn [all_from].
  - split; [intros [] | intros (_ & _ & t & H & _)]. now destruct (j - idx).
  - rewrite in_app_iff, IH. split.
    + intros [H | (H1 & H2 & t' & H3 & H4)].
      * destruct ((from <=? idx) && sel_has sel t) eqn:E; [|destruct H]. destruct H as [<-|[]].
        apply andb_true_iff in E as [E1 E2]. apply Nat.leb_le in E1.
        split; [lia|]. split; [lia|]. exists t. rewrite Nat.sub_diag. now split.
      * split; [lia|]. split; [lia|]. exists t'. split; [|exact H4]. now replace (j - idx) with (S (j - S idx)) by lia.
    + intros (H1 & H2 & t' & H3 & H4). destruct (Nat.eq_dec j idx) as [->|N].
      * left. rewrite Nat.sub_diag in H3. injection H3 as <-. rewrite H4, (proj2 (Nat.leb_le _ _) H2). now left.
      * right. split; [lia|]. split; [lia|]. exists t'. split; [|exact H4]. now replace (j - idx) with (S (j - S idx)) in H3 by lia.
Qed.

Lemma find_from_hd : forall kids sel from idx, find_from kids sel from idx = hd_error (all_from kids sel from idx).
Proof.
  induction kids as [|t r IH]; intros sel from idx; cbn [find_from all_from]; [reflexivity|].
  destruct ((from <=? idx) && sel_has sel t); [reflexivity | apply IH].
Qed.

Lemma find_from_spec : forall kids sel from idx j,
  find_from kids sel from idx = Some j ->
  idx <= j /\ from <= j /\ exists t, nth_error kids (j - idx) = Some t /\ sel_has sel t = true.
Proof.
  intros kids sel from idx j H. apply all_from_in. rewrite find_from_hd in H.
  destruct (all_from kids sel from idx); [discriminate | injection H as <-; now left].
Qed.

Lemma step_one_spec : forall kids c sel j,
  step_one kids c sel = CKid j ->
  (match c with CKid i => i < j | _ => True end) /\ exists t, nth_error kids j = Some t /\ sel_has sel t = true.
Proof.
  intros kids c sel j H. destruct c as [| |i]; cbn [step_one] in H; [|discriminate|].
  - destruct (find_from kids sel 0 0) as [k|] eqn:E; [|discriminate]. injection H as <-.
    destruct (find_from_spec _ _ _ _ _ E) as (_ & _ & t & H3 & H4). rewrite Nat.sub_0_r in H3. split; [exact I|]. now exists t.
  - destruct (find_from kids sel (S i) 0) as [k|] eqn:E; [|discriminate]. injection H as <-.
    destruct (find_from_spec _ _ _ _ _ E) as (_ & H2 & t & H3 & H4). rewrite Nat.sub_0_r in H3. split; [lia|]. now exists t.
Qed.

Lemma step_all_spec : forall kids c sel j,
  In j (step_all kids c sel) ->
  (match c with CKid i => i < j | CNil => False | CParent => True end) /\
  exists t, nth_error kids j = Some t /\ sel_has sel t = true.
Proof.
  intros kids c sel j H. destruct c as [| |i]; cbn [step_all] in H; [|contradiction|].
  - destruct (proj1 (all_from_in _ _ _ _ _) H) as (_ & _ & t & H3 & H4). rewrite Nat.sub_0_r in H3. split; [exact I|]. now exists t.
  - destruct (proj1 (all_from_in _ _ _ _ _) H) as (_ & H2 & t & H3 & H4). rewrite Nat.sub_0_r in H3. split; [lia|]. now exists t.
Qed.

(* Every accessor has one shape: the type assertion is tried on some nodes ts, each nil or a child the selector
   accepts, and then a result r is returned that consists of such children. *)
Lemma accessor_shape : forall cats fs i kids f, nth_error fs i = Some f ->
  exists ts r, accessor cats fs i kids = (if forallb (assert_ok cats (f_assert f)) ts then r else RPanic) /\ r <> RPanic /\
    (forall t, In t ts -> t = None \/ exists ty, t = Some ty /\ sel_has (f_sel f) ty = true) /\
    (forall j, In j (returned r) -> exists t, nth_error kids j = Some t /\ sel_has (f_sel f) t = true).
Proof.
  intros cats fs i kids f Hf. unfold accessor. rewrite Hf. cbv zeta. set (c := walk kids CParent _). destruct (f_list f).
  - exists (map (nth_error kids) (step_all kids c (f_sel f))), (RMany (step_all kids c (f_sel f))).
    split; [|split; [discriminate|split]].
    + replace (forallb _ (map _ _)) with (forallb (fun j => assert_ok cats (f_assert f) (nth_error kids j)) (step_all kids c (f_sel f)));
        [reflexivity|]. induction (step_all kids c (f_sel f)) as [|x l IH]; cbn [map forallb]; [reflexivity | now rewrite IH].
    + intros t Ht. apply in_map_iff in Ht as (j & <- & Hj). apply step_all_spec in Hj as (_ & ty & Hj & Hs). rewrite Hj. eauto.
    + intros j Hj. exact (proj2 (step_all_spec _ _ _ _ Hj)).
  - destruct (step_one kids c (f_sel f)) as [| |k] eqn:E.
    1,2: exists [None], (ROne false (-1)); cbn [forallb]; rewrite andb_true_r;
      (split; [reflexivity|split; [discriminate|split; [intros t [<-|[]]; now left | intros j []]]]).
    apply step_one_spec in E as (_ & ty & Hk & Hs). exists [nth_error kids k], (ROne true (Z.of_nat k)). cbn [forallb].
    rewrite andb_true_r. split; [reflexivity|]. split; [discriminate|]. split.
    + intros t [<-|[]]. rewrite Hk. eauto.
    + intros j [<-|[]]. rewrite Nat2Z.id. eauto.
Qed.

(* accessor_types: whatever an accessor returns is a child of the node whose type the declared selector accepts *)
Theorem accessor_types : forall cats fs i kids f j,
  nth_error fs i = Some f -> In j (returned (accessor cats fs i kids)) ->
  exists t, nth_error kids j = Some t /\ sel_has (f_sel f) t = true.
Proof.
  intros cats fs i kids f j Hf Hin. destruct (accessor_shape cats fs i kids f Hf) as (ts & r & E & _ & _ & Hr).
  rewrite E in Hin. destruct (forallb _ ts); [exact (Hr j Hin) | destruct Hin].
Qed.

Inductive produces : cexpr -> list N -> Prop :=
| P_empty : produces CEmpty []
| P_node : forall t, produces (CNode t) [t]
| P_seq : forall a b x y, produces a x -> produces b y -> produces (CSeq a b) (x ++ y)
| P_left : forall a b x, produces a x -> produces (CChoice a b) x
| P_right : forall a b x, produces b x -> produces (CChoice a b) x
| P_none : forall a, produces (COpt a) []
| P_some : forall a x, produces a x -> produces (COpt a) x
| P_nil : forall a, produces (CList a false) []
| P_one : forall a ne x, produces a x -> produces (CList a ne) x
| P_more : forall a ne x y, produces a x -> produces (CList a ne) y -> produces (CList a ne) (x ++ y).

Lemma child_seqs_complete : forall e s rep,
  produces e s -> list_free e = true -> In s (child_seqs rep e).
Proof.
  intros e s rep H. induction H; intro LF; cbn [list_free] in LF; cbn [child_seqs]; try discriminate.
  - now left.
  - now left.
  - apply andb_true_iff in LF. destruct LF as [L1 L2]. apply in_flat_map. exists x. split; [now apply IHproduces1|].
    apply in_map_iff. exists y. split; [reflexivity | now apply IHproduces2].
  - apply andb_true_iff in LF. destruct LF as [L1 L2]. apply in_or_app. left. now apply IHproduces.
  - apply andb_true_iff in LF. destruct LF as [L1 L2]. apply in_or_app. right. now apply IHproduces.
  - now left.
  - right. now apply IHproduces.
Qed.

(* what the generated code guarantees for a field asserting a category: the category exists, lists every node type
   of the field's selector, and NilNode implements it (all but the synthetic TokenSet, which no field can name) *)
Definition assert_covers (cats : list category) (f : field) : Prop :=
  (0 < f_assert f)%Z ->
  exists c, nth_error cats (Z.to_nat (f_assert f - 1)) = Some c /\ c_nil c = true /\
            forall t, sel_has (f_sel f) t = true -> sel_has (c_types c) t = true.

Lemma assert_ok_covered : forall cats f t,
  assert_covers cats f ->
  (t = None \/ exists ty, t = Some ty /\ sel_has (f_sel f) ty = true) ->
  assert_ok cats (f_assert f) t = true.
Proof.
  intros cats f t HC Ht. unfold assert_ok. destruct (f_assert f <=? 0)%Z eqn:L; [reflexivity|].
  apply Z.leb_gt in L. destruct (HC L) as (c & Hc & Hn & Hs). rewrite Hc.
  destruct Ht as [->|(ty & -> & Hty)]; [exact Hn | now apply Hs].
Qed.

Theorem accessor_never_panics : forall cats fs i kids f,
  nth_error fs i = Some f -> assert_covers cats f -> accessor cats fs i kids <> RPanic.
Proof.
  intros cats fs i kids f Hf HC. destruct (accessor_shape cats fs i kids f Hf) as (ts & r & -> & Hr & Hts & _).
  rewrite (proj2 (forallb_forall _ _)); [exact Hr|]. intros t Ht. apply assert_ok_covered; auto.
Qed.

Definition count (sel : list N) (kids : list N) : nat := length (filter (sel_has sel) kids).

Lemma count_app : forall sel a b, count sel (a ++ b) = count sel a + count sel b.
Proof. intros. unfold count. rewrite filter_app, app_length. reflexivity. Qed.

Lemma sat_add_le : forall a b, sat_add a b <= a + b.
Proof. intros. unfold sat_add. destruct (2 <=? a + b) eqn:E; [apply Nat.leb_le in E|]; lia. Qed.

Lemma sat_add_small : forall a b, sat_add a b <= 1 -> sat_add a b = a + b.
Proof. intros a b. unfold sat_add. destruct (2 <=? a + b) eqn:E; lia. Qed.

Lemma cnt_min_sound : forall e kids, produces e kids -> forall sel, cnt_min sel e <= count sel kids.
Proof.
  intros e kids P. induction P; intro sel; cbn [cnt_min]; try lia.
  - unfold count. cbn [filter]. destruct (sel_has sel t); cbn; lia.
  - rewrite count_app. specialize (IHP1 sel). specialize (IHP2 sel). pose proof (sat_add_le (cnt_min sel a) (cnt_min sel b)). lia.
  - specialize (IHP sel). lia.
  - specialize (IHP sel). lia.
  - specialize (IHP sel). destruct ne; lia.
  - rewrite count_app. specialize (IHP1 sel). specialize (IHP2 sel). cbn [cnt_min] in IHP2. destruct ne; lia.
Qed.

Lemma cnt_max_sound : forall e kids, produces e kids -> forall sel, cnt_max sel e <= 1 -> count sel kids <= cnt_max sel e.
Proof.
  intros e kids P. induction P; intros sel H; cbn [cnt_max] in *; try (unfold count; cbn; lia).
  - unfold count. cbn [filter]. destruct (sel_has sel t); cbn; lia.
  - rewrite count_app. pose proof (sat_add_small _ _ H) as E. rewrite E in *. specialize (IHP1 sel). specialize (IHP2 sel). lia.
  - specialize (IHP sel). lia.
  - specialize (IHP sel). lia.
  - apply IHP. exact H.
  - destruct (cnt_max sel a =? 0) eqn:E; [|lia]. apply Nat.eqb_eq in E. specialize (IHP sel). lia.
  - destruct (cnt_max sel a =? 0) eqn:E; [|lia]. apply Nat.eqb_eq in E. rewrite count_app.
    specialize (IHP1 sel). specialize (IHP2 sel). cbn [cnt_max] in IHP2. rewrite E in IHP2. cbn in IHP2. lia.
Qed.

Lemma cnodes_sound : forall e kids, produces e kids -> forall t, In t kids -> In t (cnodes e).
Proof.
  intros e kids P. induction P; intros t' H; cbn [cnodes] in *; try contradiction; auto.
  - apply in_app_or in H. apply in_or_app. destruct H; [left|right]; auto.
  - apply in_or_app. left. auto.
  - apply in_or_app. right. auto.
  - apply in_app_or in H. destruct H; auto.
Qed.

Lemma all_from_length : forall kids sel idx, length (all_from kids sel 0 idx) = count sel kids.
Proof.
  induction kids as [|t r IH]; intros sel idx; unfold count; cbn [all_from filter Nat.leb andb]; [reflexivity|].
  rewrite app_length, IH. unfold count. now destruct (sel_has sel t).
Qed.

Lemma all_from_0_in : forall kids sel j t,
  nth_error kids j = Some t -> sel_has sel t = true -> In j (all_from kids sel 0 0).
Proof. intros kids sel j t Hj Hs. apply all_from_in. rewrite Nat.sub_0_r. split; [lia|]. split; [lia|]. now exists t. Qed.

Lemma find_from_0_some : forall kids sel, 1 <= count sel kids -> exists j, find_from kids sel 0 0 = Some j.
Proof.
  intros kids sel H. rewrite find_from_hd. rewrite <- (all_from_length kids sel 0) in H.
  destruct (all_from kids sel 0 0) as [|j l]; [cbn in H; lia | now exists j].
Qed.

Lemma find_from_0_unique : forall kids sel j t,
  nth_error kids j = Some t -> sel_has sel t = true -> count sel kids <= 1 -> find_from kids sel 0 0 = Some j.
Proof.
  intros kids sel j t Hj Hs Hc. rewrite find_from_hd. rewrite <- (all_from_length kids sel 0) in Hc.
  pose proof (all_from_0_in kids sel j t Hj Hs) as Hin.
  destruct (all_from kids sel 0 0) as [|k [|? ?]]; [destruct Hin | destruct Hin as [->|[]]; reflexivity | cbn in Hc; lia].
Qed.

Lemma accessor_parent : forall cats fs i kids f,
  nth_error fs i = Some f -> f_after f = (-1)%Z -> assert_covers cats f ->
  accessor cats fs i kids =
    if f_list f then RMany (all_from kids (f_sel f) 0 0)
    else match find_from kids (f_sel f) 0 0 with Some j => ROne true (Z.of_nat j) | None => ROne false (-1) end.
Proof.
  intros cats fs i kids f Hf Ha Hc. unfold accessor. rewrite Hf, Ha. cbn [decode Z.ltb Z.compare walk]. destruct (f_list f).
  - cbn [step_all]. replace (forallb _ _) with true; [reflexivity|]. symmetry. apply forallb_forall. intros j Hj.
    apply all_from_in in Hj as (_ & _ & t & Hj & Hs). rewrite Nat.sub_0_r in Hj.
    apply assert_ok_covered; [exact Hc | right; now exists t].
  - cbn [step_one]. destruct (find_from kids (f_sel f) 0 0) as [j|] eqn:E.
    + apply find_from_spec in E as (_ & _ & t & Hj & Hs). rewrite Nat.sub_0_r in Hj.
      rewrite assert_ok_covered; [reflexivity | exact Hc | right; now exists t].
    + now rewrite assert_ok_covered by auto.
Qed.

Lemma assert_covers_b_sound : forall cats f, assert_covers_b cats f = true -> assert_covers cats f.
Proof.
  intros cats f H L. unfold assert_covers_b in H. destruct (f_assert f <=? 0)%Z eqn:E; [apply Z.leb_le in E; lia|].
  destruct (nth_error cats (Z.to_nat (f_assert f - 1))) as [c|]; [|discriminate]. exists c. split; [reflexivity|].
  apply andb_true_iff in H. destruct H as [H1 H2]. split; [exact H1|]. intros t Ht. rewrite forallb_forall in H2.
  unfold sel_has in Ht. apply existsb_exists in Ht. destruct Ht as (x & Hx & Ex). apply N.eqb_eq in Ex. subst x. now apply H2.
Qed.

Lemma combine_map_seq : forall {A B} (g : nat -> B) (l : list A) a x r,
  In (x, r) (combine l (map g (seq a (length l)))) -> exists i, nth_error l i = Some x /\ r = g (a + i).
Proof.
  intros A B g. induction l as [|y l IH]; intros a x r H; [contradiction|].
  cbn [length seq map combine] in H. destruct H as [H|H].
  - injection H as -> <-. exists 0. split; [reflexivity | f_equal; lia].
  - destruct (IH _ _ _ H) as (i & Hi & ->). exists (S i). split; [exact Hi | f_equal; lia].
Qed.

Theorem check_sym_sound : forall cats fs inj e,
  check_sym cats fs inj e = true -> forall kids, produces e kids -> node_ok cats fs inj kids = true.
Proof.
  (* the count of children matching a selector is additive over concatenation, so cnt_min / cnt_max bound it on
     every produced sequence (the list case by induction on the repetitions); a field fetched from the parent then
     finds its child exactly when the count is 1, and all of them when it is a list *)
  intros cats fs inj e H kids P. unfold check_sym in H.
  apply andb_true_iff in H. destruct H as [H H3]. apply andb_true_iff in H. destruct H as [H1 H2].
  rewrite forallb_forall in H1, H2, H3.
  assert (A : forall i f, nth_error fs i = Some f ->
            accessor cats fs i kids =
              if f_list f then RMany (all_from kids (f_sel f) 0 0)
              else match find_from kids (f_sel f) 0 0 with Some j => ROne true (Z.of_nat j) | None => ROne false (-1) end).
  { intros i f Hf. specialize (H1 f (nth_error_In _ _ Hf)). apply andb_true_iff in H1. destruct H1 as [Ha Hb].
    apply Z.eqb_eq in Ha. apply accessor_parent; [exact Hf | exact Ha | now apply assert_covers_b_sound]. }
  unfold node_ok, accessors. repeat (apply andb_true_iff; split); apply forallb_forall.
  - intros r Hr. apply in_map_iff in Hr. destruct Hr as (i & <- & Hi).
    apply in_seq in Hi. destruct (nth_error fs i) as [f|] eqn:Hf; [|apply nth_error_None in Hf; lia].
    rewrite (A i f Hf). destruct (f_list f); [|destruct (find_from _ _ _ _)]; reflexivity.
  - intros [f r] Hfr. apply combine_map_seq in Hfr. destruct Hfr as (i & Hf & ->). cbn [Nat.add].
    destruct (f_required f && negb (f_list f)) eqn:RQ; [|reflexivity].
    specialize (H2 f (nth_error_In _ _ Hf)). rewrite RQ in H2. apply andb_true_iff in H2. destruct H2 as [H2 _]. apply Nat.leb_le in H2.
    apply andb_true_iff in RQ. destruct RQ as [_ Nl]. apply negb_true_iff in Nl. rewrite (A i f Hf), Nl.
    pose proof (cnt_min_sound e kids P (f_sel f)) as CM.
    destruct (find_from_0_some kids (f_sel f)) as (j & Hj); [lia|]. now rewrite Hj.
  - intros [f r] Hfr. apply combine_map_seq in Hfr. destruct Hfr as (i & Hf & ->). cbn [Nat.add]. apply forallb_forall. intros j Hj.
    destruct (accessor_types cats fs i kids f j Hf Hj) as (t & Ht & Hs). rewrite Ht. exact Hs.
  - intros j Hj. destruct (nth_error kids j) as [t|] eqn:Ht; [|reflexivity].
    destruct (N.eqb t inj) eqn:EI; [reflexivity|]. cbn [orb].
    specialize (H3 t (cnodes_sound e kids P t (nth_error_In _ _ Ht))). rewrite EI in H3. cbn [orb] in H3.
    apply existsb_exists in H3. destruct H3 as (f & Hfin & Hs). destruct (In_nth_error _ _ Hfin) as (i & Hf).
    apply existsb_exists. exists (accessor cats fs i kids). split.
    { apply in_map_iff. exists i. split; [reflexivity|]. apply in_seq.
      assert (i < length fs) by (apply nth_error_Some; congruence). lia. }
    apply existsb_exists. exists j. split; [|apply Nat.eqb_refl]. rewrite (A i f Hf).
    destruct (f_list f) eqn:Hl; cbn [returned]; [exact (all_from_0_in kids (f_sel f) j t Ht Hs)|].
    specialize (H2 f Hfin). rewrite Hl in H2. apply andb_true_iff in H2. destruct H2 as [_ H2]. apply Nat.leb_le in H2.
    pose proof (cnt_max_sound e kids P (f_sel f) H2) as CM.
    rewrite (find_from_0_unique kids (f_sel f) j t Ht Hs) by lia. left. apply Nat2Z.id.
Qed.
