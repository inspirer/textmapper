(* C14: [inst_checks_core] follows from the static [TemplatesWf.wf_templates]: no Fatal (parameters bound, enough
   fuel), instances pairwise different (find before allocate), references of the result in range. *)
From Coq Require Import List ZArith Bool Lia Permutation.
From TM Require Import Lib.ListX Util.Ident Syn.Expr Syn.Expand Syn.ExtLang Syn.Expand_proofs Syn.Expand_global Syn.SortPerm Syn.Templates
  Syn.Templates_proofs Syn.Templates_global Syn.TemplatesWf.
Import ListNotations.
Local Open Scope Z_scope.

Definition boolv (v : bytes) : Prop := v = s_true \/ v = s_false.

Lemma bool_val_boolv v : bool_val v = true -> boolv v.
Proof. unfold bool_val, boolv. intro H. apply orb_true_iff in H as [H|H]; apply bytes_eqb_spec in H; auto. Qed.

Lemma bytes_eqb_refl v : bytes_eqb v v = true.
Proof. now apply bytes_eqb_spec. Qed.

Notation boolvs := (Forall (fun pv : Z * bytes => boolv (snd pv))) (only parsing).
Lemma valuations_iff : forall ps v, In v (valuations ps) <-> map fst v = ps /\ boolvs v.
Proof.
  induction ps as [|p r IH]; intro v; cbn [valuations].
  - split; [intros [<-|[]]; split; [reflexivity | constructor] | intros [Hm _]; destruct v; [now left | discriminate]].
  - rewrite in_flat_map. split.
    + intros (v' & Hv' & Hin). apply IH in Hv' as [Hm Hb].
      destruct Hin as [<-|[<-|[]]]; (split; [cbn; now rewrite Hm | constructor; [cbn; unfold boolv; auto | exact Hb]]).
    + intros [Hm Hb]. destruct v as [|[q b] v']; [discriminate|]. cbn in Hm. injection Hm as -> Hm. inversion Hb as [|? ? Hb1 Hb2]; subst.
      exists v'. split; [now apply IH|]. cbn in Hb1. destruct Hb1 as [->| ->]; cbn; auto.
Qed.

Section Wf.
  Variable T : Z.
  Variable nts : list nonterm.
  Let n := length nts.
  Notation params_at i := (nt_params (nth i nts nt_dummy)).

  Lemma all_pairs_iff nt v : In (nt, v) (all_pairs nts) <-> exists i, (i < n)%nat /\ nt = Z.of_nat i /\ In v (valuations (params_at i)).
  Proof.
    unfold all_pairs. rewrite in_flat_map. split.
    - intros ([i x] & Hc & Hm). apply (in_combine_seq nts nt_dummy) in Hc as [Hi ->].
      apply in_map_iff in Hm as (v' & He & Hv'). injection He as <- <-. eauto.
    - intros (i & Hi & -> & Hv). exists (i, nth i nts nt_dummy). split; [now apply (in_combine_seq nts nt_dummy)|].
      apply in_map_iff. eauto.
  Qed.

  Definition all_insts : list inst := map (fun '(nt, v) => mkInst nt v) (all_pairs nts).

  Definition tinv (st : ist) : Prop := NoDup (is_list st) /\ incl (is_list st) all_insts.

  Lemma tinv_length st : tinv st -> (length (is_list st) <= length (all_pairs nts))%nat.
  Proof. intros [Hnd Hi]. pose proof (NoDup_incl_length Hnd Hi) as H. unfold all_insts in H. now rewrite map_length in H. Qed.

  Lemma all_insts_iff cur : In cur all_insts <-> exists i, (i < n)%nat /\ i_nt cur = Z.of_nat i /\
    map fst (i_sig cur) = params_at i /\ boolvs (i_sig cur).
  Proof.
    unfold all_insts. rewrite in_map_iff. split.
    - intros ([nt v] & <- & Hp). apply all_pairs_iff in Hp as (i & Hi & -> & Hv). apply valuations_iff in Hv. cbn. eauto.
    - intros (i & Hi & Hnt & Hv). exists (i_nt cur, i_sig cur). split; [now destruct cur|].
      apply all_pairs_iff. exists i. repeat split; auto. now apply valuations_iff.
  Qed.
  Definition env_ok (P : list Z) (e : env) : Prop :=
    (forall p, In p P -> exists v, env_get e p = Some v) /\ Forall (fun pv => boolv (snd pv)) e.

  Lemma env_get_in e p v : env_get e p = Some v -> In (p, v) e.
  Proof.
    induction e as [|[q w] e IH]; cbn [env_get]; [discriminate|]. destruct (Z.eqb_spec q p) as [->|N].
    - intro H. injection H as ->. now left.
    - intro H. right. auto.
  Qed.

  Lemma env_get_some e p : In p (map fst e) -> exists v, env_get e p = Some v.
  Proof.
    induction e as [|[q w] e IH]; cbn [map env_get fst]; [intros []|]. destruct (Z.eqb_spec q p) as [->|N]; [eauto|].
    intros [H|H]; [congruence | auto].
  Qed.

  Lemma inst_env_perm i : Permutation (inst_env i) (i_sig i).
  Proof. apply (insert_sort_perm (fun x y => fst x <? fst y)); reflexivity. Qed.

  Lemma inst_env_ok cur i : map fst (i_sig cur) = params_at i -> boolvs (i_sig cur) -> env_ok (params_at i) (inst_env cur).
  Proof.
    intros Hm Hb. pose proof (inst_env_perm cur) as HP. split.
    - intros p Hp. apply env_get_some. rewrite <- Hm in Hp.
      eapply Permutation_in; [apply Permutation_map, Permutation_sym, HP | exact Hp].
    - eapply Permutation_Forall; [apply Permutation_sym; exact HP | exact Hb].
  Qed.

  Lemma mem_z_in p l : mem_z p l = true -> In p l.
  Proof. unfold mem_z. intro H. apply existsb_exists in H as (x & Hx & He). apply Z.eqb_eq in He. now subst. Qed.

  Lemma pred_scoped_bound P e : env_ok P e -> forall p, pred_scoped P p = true -> pred_bound e p = true.
  Proof.
    intros [He _]. induction p using pred_ind2; cbn [pred_scoped pred_bound]; intro Hs; auto.
    - rewrite forallb_forall in *. rewrite Forall_forall in H. auto.
    - rewrite forallb_forall in *. rewrite Forall_forall in H. auto.
    - destruct (He i (mem_z_in _ _ Hs)) as [v0 ->]. reflexivity.
  Qed.
  Definition arg_res (ctx : option env) (a : arg) : Prop := exists v, resolve_arg ctx a = Some (a_param a, v) /\ boolv v.

  Lemma arg_ok_res P e a : env_ok P e -> arg_ok P a = true -> arg_res (Some e) a.
  Proof.
    intros [He Hb] Ha. unfold arg_ok in Ha. unfold arg_res, resolve_arg. destruct (a_value a) as [|x0 v0] eqn:Ev.
    - destruct (He _ (mem_z_in _ _ Ha)) as [w Hw]. rewrite Hw. exists w. split; [reflexivity|].
      apply env_get_in in Hw. rewrite Forall_forall in Hb. exact (Hb _ Hw).
    - exists (x0 :: v0). split; [reflexivity | now apply bool_val_boolv].
  Qed.

  (* arguments that all resolve to booleans: no Fatal, one binding per argument, in order *)
  Lemma resolved_res ctx args : Forall (arg_res ctx) args ->
    existsb (unresolved ctx) args = false /\ map fst (resolved ctx args) = map a_param args /\ boolvs (resolved ctx args).
  Proof.
    unfold resolved, unresolved. induction 1 as [|a args (v & Hv & Hb) _ (IH1 & IH2 & IH3)]; cbn [existsb flat_map map]; [repeat split; constructor|].
    rewrite Hv, IH1. cbn [app map fst]. rewrite IH2. repeat split. constructor; auto.
  Qed.

  (* a step keeps the invariant and the Fatal flag *)
  Definition srel (st st' : ist) : Prop := tinv st' /\ is_fatal st' = is_fatal st.

  Lemma srel_refl st : tinv st -> srel st st. Proof. unfold srel. auto. Qed.
  Lemma srel_trans a b c : srel a b -> srel b c -> srel a c.
  Proof. intros (A1 & A2) (B1 & B2). split; [exact B1 | congruence]. Qed.

  Lemma resolve_instance_wf st ctx nt args k st' :
    tinv st -> 0 <= nt < Z.of_nat n -> map a_param args = params_at (Z.to_nat nt) -> Forall (arg_res ctx) args ->
    resolve_instance st ctx nt args = (k, st') -> srel st st' /\ (k < length (is_list st'))%nat.
  Proof.
    intros [Hnd Hincl] Hnt Hm Hr H. destruct (resolve_instance_spec _ _ _ _ _ _ H) as (Hk & Hf & Hl).
    destruct (resolved_res ctx args Hr) as (Hu & Hms & Hb). rewrite Hu, orb_false_r in Hf.
    split; [|apply nth_error_Some; congruence]. unfold srel, tinv. destruct Hl as [-> | [Hnew ->]]; [repeat split; auto|].
    repeat split; auto; [now apply NoDup_snoc|]. intros x Hx. apply in_app_or in Hx as [Hx|[<-|[]]]; [now apply Hincl|]. apply all_insts_iff. exists (Z.to_nat nt).
    cbn [i_nt i_sig]. rewrite Hms. repeat split; auto; lia.
  Qed.
End Wf.

Lemma list_eqb_Z_true : forall a b, list_eqb Z.eqb a b = true -> a = b.
Proof.
  induction a as [|x a IH]; intros [|y b] H; cbn [list_eqb] in H; try discriminate; auto.
  apply andb_true_iff in H as [H1 H2]. apply Z.eqb_eq in H1. subst. f_equal. auto.
Qed.
Section DoExpr.
  Variable T : Z.
  Variable nts : list nonterm.
  Variable P : list Z.
  Variable e : env.
  Hypothesis He : env_ok P e.
  Notation len st := (Z.of_nat (length (is_list st))).
  Notation wf := (wf_texpr T nts P).

  Definition rgood (st st' : ist) (x' : expr) : Prop := srel nts st st' /\ bounded (T + len st') x' = true.
  Definition Q (x : expr) : Prop := forall st x' st', wf x = true -> tinv nts st -> do_expr T (Some e) st x = (x', st') -> rgood st st' x'.

  Lemma check_no_fatal p : pred_scoped P p = true -> snd (check_pred (Some e) p) = false.
  Proof. intro Hp. exact (check_pred_no_fatal e p (pred_scoped_bound P e He p Hp)). Qed.

  Lemma srel_ifatal st : tinv nts st -> srel nts st (set_ifatal st false).
  Proof. intros Hi. unfold srel, tinv, set_ifatal. cbn [is_list is_fatal]. now rewrite orb_false_r. Qed.

  (* references in range stay in range: the list of instances only grows *)
  Lemma bounded_grows st st' x : tgrows st st' -> bounded (T + len st) x = true -> bounded (T + len st') x = true.
  Proof. intros Hg. apply bounded_mono. apply ext_length in Hg. lia. Qed.

  Lemma subs_loop_wf kc ks : forall l, Forall Q l -> forallb wf l = true ->
    forall st r st', tinv nts st -> loop T (Some e) kc ks l st = (r, st') ->
    srel nts st st' /\ Forall (bnd (T + len st')) r.
  Proof.
    induction 1 as [|s l Hs _ IH]; cbn [forallb]; intros Hw st r st' Hi Hgo; [injection Hgo as <- <-; split; [now apply srel_refl | constructor]|].
    apply andb_true_iff in Hw as [Hws Hwl]. rewrite subs_loop_cons in Hgo.
    destruct (do_expr T (Some e) st s) as [conv st1] eqn:E1. destruct (Hs _ _ _ Hws Hi E1) as (Hr1 & Hb1).
    destruct (loop T (Some e) kc ks l st1) as [r2 st2] eqn:E2. destruct (IH Hwl _ _ _ (proj1 Hr1) E2) as (Hr2 & Hf2).
    assert (st2 = st') by (destruct (_ || _); now injection Hgo). subst st2. split; [eapply srel_trans; eauto|].
    destruct (_ || _); injection Hgo as <-; [exact Hf2|]. constructor; [|exact Hf2].
    exact (bounded_grows _ _ _ (subs_loop_grows _ _ _ _ _ _ _ _ E2) Hb1).
  Qed.

  Lemma wrap_Q (mk : expr -> expr) x :
    (forall B y, bounded B y = true -> bounded B (mk y) = true) -> Q x ->
    forall st x' st', wf x = true -> tinv nts st -> (let '(c, st) := do_expr T (Some e) st x in (mk c, st)) = (x', st') -> rgood st st' x'.
  Proof.
    intros Hm Qx st x' st' Hw Hi H. destruct (do_expr T (Some e) st x) as [c st1] eqn:E1. injection H as <- <-.
    destruct (Qx _ _ _ Hw Hi E1) as (Hr & Hb). split; auto.
  Qed.

  Theorem do_expr_wf : forall x, Q x.
  Proof.
    induction x using expr_ind2; intros st x' st' Hw Hi Hx; cbn [do_expr wf_texpr] in Hx, Hw;
      try (injection Hx as <- <-; split; [now apply srel_refl | reflexivity]);
      try (apply (wrap_Q _ x) in Hx; auto; fail).
    - destruct (do_expr T (Some e) st x) as [c st1] eqn:E1.
      destruct (IHx _ _ _ Hw Hi E1) as (Hr & Hb). destruct (is_empty_e c); injection Hx as <- <-; split; auto.
    - destruct l as [|a l]; [injection Hx as <- <-; split; [now apply srel_refl | reflexivity]|].
      destruct (loop T (Some e) true false (a :: l) st) as [r st1] eqn:E1.
      destruct (subs_loop_wf true false _ H Hw _ _ _ Hi E1) as (Hr & Hf).
      destruct r as [|y [|z r]]; injection Hx as <- <-; (split; [exact Hr|]);
        [reflexivity | now inversion Hf | cbn [bounded]; now apply forallb_Forall].
    - destruct l as [|a l]; [injection Hx as <- <-; split; [now apply srel_refl | reflexivity]|].
      destruct (loop T (Some e) false true (a :: l) st) as [r st1] eqn:E1.
      destruct (subs_loop_wf false true _ H Hw _ _ _ Hi E1) as (Hr & Hf). injection Hx as <- <-.
      split; [exact Hr|]. cbn [bounded]. now apply forallb_Forall.
    - unfold ref_ok in Hw. destruct (Z.leb_spec T s) as [Es|Es].
      + apply andb_true_iff in Hw as [Hw Hargs]. apply andb_true_iff in Hw as [Hlt Heq].
        apply Z.ltb_lt in Hlt. apply list_eqb_Z_true in Heq.
        destruct (resolve_instance st (Some e) (s - T) a) as [k st1] eqn:E1. injection Hx as <- <-.
        assert (Hres : Forall (arg_res (Some e)) a).
        { apply Forall_forall. intros x Hx. rewrite forallb_forall in Hargs. eapply arg_ok_res; eauto. }
        destruct (resolve_instance_wf nts st (Some e) (s - T) a k st1 Hi) as (Hr & Hk); auto; [lia|].
        split; [exact Hr|]. cbn [bounded]. apply Z.ltb_lt. lia.
      + injection Hx as <- <-. split; [now apply srel_refl|]. cbn [bounded]. apply Z.ltb_lt. lia.
    - destruct l as [|a l]; [injection Hx as <- <-; split; [now apply srel_refl | reflexivity]|].
      destruct (loop T (Some e) false false (a :: l) st) as [r st1] eqn:E1.
      destruct (subs_loop_wf false false _ H Hw _ _ _ Hi E1) as (Hr & Hf). injection Hx as <- <-.
      split; [exact Hr | reflexivity].
    - apply andb_true_iff in Hw as [Hwe Hws].
      destruct (do_expr T (Some e) st x) as [c st1] eqn:E1.
      destruct (IHx _ _ _ Hwe Hi E1) as (Hr1 & Hb1). destruct s as [sp|].
      + destruct (do_expr T (Some e) st1 sp) as [d st2] eqn:E2. injection Hx as <- <-.
        destruct (H sp eq_refl _ _ _ Hws (proj1 Hr1) E2) as (Hr2 & Hb2).
        split; [eapply srel_trans; eauto|]. cbn [bounded]. rewrite Hb2, andb_true_r.
        exact (bounded_grows _ _ _ (do_expr_grows _ _ _ _ _ _ E2) Hb1).
      + injection Hx as <- <-. split; [exact Hr1|]. cbn [bounded]. now rewrite Hb1.
    - apply andb_true_iff in Hw as [Hps Hwin]. pose proof (check_no_fatal p Hps) as Hfl.
      destruct (check_pred (Some e) p) as [b fl]. cbn [snd] in Hfl. subst fl.
      pose proof (srel_ifatal st Hi) as Hsf. destruct b.
      + destruct (IHx _ _ _ Hwin (proj1 Hsf) Hx) as (Hr & Hb). split; [eapply srel_trans; eauto | exact Hb].
      + injection Hx as <- <-. split; [exact Hsf | reflexivity].
  Qed.
End DoExpr.
Section TsetInd.
  Variable P : tset -> Prop.
  Hypothesis Hsym : forall op s, P (TSym op s).
  Hypothesis Hunion : forall l, Forall P l -> P (TUnion l).
  Hypothesis Hinter : forall l, Forall P l -> P (TInter l).
  Hypothesis Hcompl : forall i t, P t -> P (TCompl i t).
  Hypothesis Hnamed : forall i, P (TNamed i).
  Fixpoint tset_ind3 (t : tset) : P t :=
    let fix all (l : list tset) : Forall P l :=
      match l with [] => Forall_nil P | x :: r => Forall_cons x (tset_ind3 x) (all r) end in
    match t with
    | TSym op s => Hsym op s
    | TUnion l => Hunion l (all l)
    | TInter l => Hinter l (all l)
    | TCompl i x => Hcompl i x (tset_ind3 x)
    | TNamed i => Hnamed i
    end.
End TsetInd.

Section Whole.
  Variable T : Z.
  Variable nts : list nonterm.
  Let n := length nts.
  Notation len st := (Z.of_nat (length (is_list st))).
  Notation params_at i := (nt_params (nth i nts nt_dummy)).

  Lemma plain_nt_res st ctx nt k st' : tinv nts st -> plain_nt nts nt = true ->
    resolve_instance st ctx nt [] = (k, st') -> srel nts st st'.
  Proof.
    intros Hi Hp H. unfold plain_nt in Hp. apply andb_true_iff in Hp as [Hp Hnil]. apply andb_true_iff in Hp as [H0 H1].
    apply Z.leb_le in H0. apply Z.ltb_lt in H1.
    destruct (nt_params (nth (Z.to_nat nt) nts nt_dummy)) eqn:Ep; [|discriminate].
    apply (resolve_instance_wf nts st ctx nt [] k st' Hi (conj H0 H1)); [now rewrite Ep | constructor | exact H].
  Qed.

  Definition do_sets : list tset -> ist -> list tset * ist :=
    fix go l st := match l with [] => ([], st) | x :: rest => let '(y, st) := do_set T st x in let '(r, st) := go rest st in (y :: r, st) end.

  Lemma do_set_wf : forall t st y st', tset_ok T nts t = true -> tinv nts st -> do_set T st t = (y, st') -> srel nts st st'.
  Proof.
    assert (G : forall l, Forall (fun t => forall st y st', tset_ok T nts t = true -> tinv nts st -> do_set T st t = (y, st') -> srel nts st st') l ->
              forallb (tset_ok T nts) l = true -> forall st r st', tinv nts st -> do_sets l st = (r, st') -> srel nts st st').
    { induction 1 as [|x l Hx _ IH]; cbn [forallb]; intros Hok st r st' Hi Hgo; cbn [do_sets] in Hgo; [injection Hgo as <- <-; now apply srel_refl|].
      apply andb_true_iff in Hok as [Ho1 Ho2]. destruct (do_set T st x) as [y st1] eqn:E1. destruct (do_sets l st1) as [r2 st2] eqn:E2.
      injection Hgo as <- <-. pose proof (Hx _ _ _ Ho1 Hi E1) as Hr1. eapply srel_trans; [exact Hr1|]. eapply IH; [exact Ho2 | apply Hr1 | exact E2]. }
    induction t using tset_ind3; intros st y st' Hok Hi Hx; cbn [do_set tset_ok] in Hx, Hok;
      try (fold do_sets in Hx; destruct (do_sets l st) as [r st1] eqn:E1; injection Hx as <- <-; eapply G; eauto).
    - destruct (T <=? s); [|injection Hx as <- <-; now apply srel_refl].
      destruct (resolve_instance st None (s - T) []) as [k st1] eqn:E1. injection Hx as <- <-. eapply plain_nt_res; eauto.
    - destruct (do_set T st t) as [y0 st1] eqn:E1. injection Hx as <- <-. eapply IHt; eauto.
    - injection Hx as <- <-. now apply srel_refl.
  Qed.

  Lemma fold_srel {A B} (f : B -> ist -> A -> B * ist) (ok : A -> bool) :
    (forall acc st a acc' st', ok a = true -> tinv nts st -> f acc st a = (acc', st') -> srel nts st st') ->
    forall l acc st acc' st', tinv nts st -> forallb ok l = true ->
      fold_left (fun '(acc, st) a => f acc st a) l (acc, st) = (acc', st') -> srel nts st st'.
  Proof.
    intro Hf. induction l as [|a l IH]; cbn [forallb fold_left]; intros acc st acc' st' Hi Hok H; [injection H as <- <-; now apply srel_refl|].
    apply andb_true_iff in Hok as [Ho1 Ho2]. destruct (f acc st a) as [acc1 st1] eqn:E1.
    pose proof (Hf _ _ _ _ _ Ho1 Hi E1) as Hr1. eapply srel_trans; [exact Hr1|]. eapply IH; [apply Hr1 | exact Ho2 | exact H].
  Qed.

  Hypothesis Hbodies : forall i, (i < n)%nat -> wf_texpr T nts (params_at i) (nt_value (nth i nts nt_dummy)) = true.

  Lemma inst_loop_wf : forall fuel i st vals0 vals st',
    tinv nts st -> is_fatal st = false -> (i <= length (is_list st))%nat -> length vals0 = i ->
    Forall (bnd (T + len st)) vals0 -> (length (all_pairs nts) - i < fuel)%nat ->
    inst_loop fuel T nts i st vals0 = (vals, st') ->
    tinv nts st' /\ is_fatal st' = false /\ length vals = length (is_list st') /\ Forall (bnd (T + len st')) vals.
  Proof.
    induction fuel as [|f IH]; intros i st vals0 vals st' Hi Hnf Hle Hl0 Hb0 Hfuel H; [lia|]. cbn [inst_loop] in H.
    destruct (nth_error (is_list st) i) as [cur|] eqn:En.
    - assert (Hlt : (i < length (is_list st))%nat) by (apply nth_error_Some; congruence).
      pose proof (tinv_length nts st Hi) as HL.
      destruct (proj1 (all_insts_iff nts cur) (proj2 Hi cur (nth_error_In _ _ En))) as (i0 & Hi0 & Hnt & Hm & Hb).
      rewrite Hnt, Nat2Z.id in H. fold nt_dummy in H.
      destruct (do_expr T (Some (inst_env cur)) st (nt_value (nth i0 nts nt_dummy))) as [c st1] eqn:Ed.
      destruct (do_expr_wf T nts (params_at i0) (inst_env cur) (inst_env_ok nts cur i0 Hm Hb) _ _ _ _ (Hbodies i0 Hi0) Hi Ed)
        as ((Hi1 & Hf1) & Hbc). pose proof (ext_length _ _ _ _ _ (do_expr_grows _ _ _ _ _ _ Ed)) as Hle1.
      apply (IH (S i) st1 (vals0 ++ [c]) vals st'); auto; try lia; try congruence.
      + rewrite app_length. cbn [length]. lia.
      + apply Forall_app. split; [eapply Forall_bounded_mono; [|exact Hb0]; lia | constructor; [exact Hbc | constructor]].
    - injection H as <- <-. apply nth_error_None in En. repeat split; try apply Hi; auto. lia.
  Qed.
End Whole.

Lemma inst_start_wf fuel m : wf_templates fuel m = true ->
  tinv (m_nonterms m) (inst_start m) /\ is_fatal (inst_start m) = false.
Proof.
  intro Hwf. unfold wf_templates in Hwf. apply andb_true_iff in Hwf as [Hwf _]. apply andb_true_iff in Hwf as [Hwf Hsets].
  apply andb_true_iff in Hwf as [_ Hinputs].
  unfold inst_start.
  destruct (fold_left _ (m_inputs m) ([], mkI [] false)) as [inputs st1] eqn:E1.
  destruct (fold_left _ (m_sets m) ([], st1)) as [sets st2] eqn:E2. cbn [snd].
  assert (H0 : tinv (m_nonterms m) (mkI [] false)) by (split; [constructor | intros x []]).
  assert (S1 : srel (m_nonterms m) (mkI [] false) st1).
  { eapply (fold_srel (m_nonterms m) _ (fun i => plain_nt (m_nonterms m) (in_nt i))); cycle 1; [exact H0 | exact Hinputs | exact E1 |].
    intros acc st i acc' st' Hok Hi H. cbn beta in H. destruct (resolve_instance st None (in_nt i) []) as [k st0] eqn:E. injection H as <- <-.
    eapply plain_nt_res; eauto. }
  assert (S2 : srel (m_nonterms m) st1 st2).
  { eapply (fold_srel (m_nonterms m) _ (tset_ok (nterms m) (m_nonterms m))); cycle 1; [exact (proj1 S1) | exact Hsets | exact E2 |].
    intros acc st s acc' st' Hok Hi H. cbn beta in H. destruct (do_set (nterms m) st s) as [y st0] eqn:E. injection H as <- <-.
    eapply do_set_wf; eauto. }
  destruct S1 as (Hi1 & Hf1). destruct S2 as (Hi2 & Hf2).
  split; [exact Hi2|]. rewrite Hf2, Hf1. reflexivity.
Qed.

Theorem wf_templates_checks fuel m : wf_templates fuel m = true -> inst_checks_core fuel m = true.
Proof.
  intro Hwf. unfold inst_checks_core. destruct (m_params m) as [|p0 ps]; [reflexivity|].
  destruct (inst_start_wf fuel m Hwf) as [Hi0 Hf0].
  unfold wf_templates in Hwf. apply andb_true_iff in Hwf as [Hwf Hfuel]. apply andb_true_iff in Hwf as [Hwf _].
  apply andb_true_iff in Hwf as [Hbod _]. apply Nat.ltb_lt in Hfuel.
  destruct (inst_loop fuel (nterms m) (m_nonterms m) O (inst_start m) []) as [vals st'] eqn:Hl.
  assert (Hbodies : forall i, (i < length (m_nonterms m))%nat ->
            wf_texpr (nterms m) (m_nonterms m) (nt_params (nth i (m_nonterms m) nt_dummy)) (nt_value (nth i (m_nonterms m) nt_dummy)) = true).
  { intros i Hi. rewrite forallb_forall in Hbod. apply Hbod. now apply nth_In. }
  destruct (inst_loop_wf (nterms m) (m_nonterms m) Hbodies fuel O (inst_start m) [] vals st' Hi0 Hf0) as (Hi & Hf & Hlen & Hb);
    [lia | reflexivity | constructor | lia | exact Hl|].
  rewrite Hf, (proj2 (inst_nodupb_iff _) (proj1 Hi)). cbn [negb andb]. rewrite Hlen. now apply forallb_Forall.
Qed.

Theorem instantiate_correct_wf setden fuel m :
  m_params m <> [] -> wf_templates fuel m = true ->
  let st := snd (inst_loop fuel (nterms m) (m_nonterms m) O (inst_start m) []) in
  forall k cur, nth_error (is_list st) k = Some cur -> forall w,
    tlfp (nterms m) setden (m_nonterms m) (nterms m + i_nt cur) (i_sig cur) w <->
    lfp (nterms m) setden (map val3 (tr_nonterms (instantiate fuel m)))
        (nterms m + Z.of_nat (nth k (inst_perm m (is_list st)) O)) w.
Proof.
  intros Hp Hwf. apply instantiate_correct_core; [exact Hp | now apply wf_templates_checks].
Qed.
