(* Model of syntax/expand.go: Expand (both phases), expandRule, expandExpr, extractNonterm, sortTail,
   concat / multiConcat / collapseEmpty, and Model.Rearrange; with ExpandOptions = DefaultExpandOptions
   (no type callbacks, so no list/optional commands are synthesised) and untyped symbols.
   Executable definitions only. *)
From Coq Require Import List ZArith Bool Arith.
From TM Require Import Util.Ident Syn.Expr.
Import ListNotations.
Local Open Scope Z_scope.

(* ---- concat / multiConcat / collapseEmpty ---- *)
Definition seq_parts (e : expr) : list expr :=
  match e with ESeq l => l | EEmpty => [] | _ => [e] end.

Definition mk_seq (subs : list expr) : expr :=
  match subs with [] => EEmpty | [x] => x | _ => ESeq subs end.

Definition concat_list (l : list expr) : expr := mk_seq (flat_map seq_parts l).
Definition concat2 (a b : expr) : expr := concat_list [a; b].

Definition multi_concat (a b : list expr) : list expr :=
  flat_map (fun x => map (fun y => concat2 x y) b) a.

Definition is_empty_e (e : expr) : bool := match e with EEmpty => true | _ => false end.

Fixpoint drop_later_empties (l : list expr) (seen : bool) : list expr :=
  match l with
  | [] => []
  | r :: rest =>
      if is_empty_e r then (if seen then drop_later_empties rest true else r :: drop_later_empties rest true)
      else r :: drop_later_empties rest seen
  end.

Definition collapse_empty (l : list expr) : list expr :=
  if (Nat.leb (length (filter is_empty_e l)) 1) then l else drop_later_empties l false.

(* ---- expander state ---- *)
Record xst := mkX {
  x_extras : list (bytes * expr);   (* extracted nonterminals, appended after the original ones *)
  x_perm : list nat;
  x_extra : nat;
  x_start : nat;
  x_base : nat;
  x_fatal : bool                    (* log.Fatal("... only simple separators ...") reached *)
}.

Record xctx := mkCtx {
  c_terms : list bytes;
  c_names : list bytes;             (* names of the original nonterminals *)
  c_sets : list tset;
  c_curr : nat
}.

Definition n_orig (c : xctx) : nat := length (c_names c).

Definition nt_name_at (c : xctx) (st : xst) (i : Z) : bytes :=
  let k := Z.to_nat i in
  if Nat.ltb k (n_orig c) then nth k (c_names c) []
  else fst (nth (k - n_orig c) (x_extras st) ([], EEmpty)).

Definition cT (c : xctx) : Z := Z.of_nat (length (c_terms c)).

(* e.m lookup: only extracted nonterminals are registered *)
Fixpoint find_extra (name : bytes) (l : list (bytes * expr)) (k : nat) : option (nat * expr) :=
  match l with
  | [] => None
  | (n, v) :: rest => if bytes_eqb n name then Some (k, v) else find_extra name rest (S k)
  end.

Definition name_taken (name : bytes) (l : list (bytes * expr)) : bool :=
  match find_extra name l 0 with Some _ => true | None => false end.

Fixpoint fresh_name (fuel : nat) (base : bytes) (index : Z) (l : list (bytes * expr)) : bytes :=
  match fuel with
  | O => base ++ itoa index
  | S f => let n := base ++ itoa index in if name_taken n l then fresh_name f base (index + 1) l else n
  end.

(* extractNonterm *)
Definition extract (c : xctx) (st : xst) (e : expr) : expr * xst :=
  let name := prov_name (c_terms c) (nt_name_at c st) (c_sets c) e in
  let reuse := match find_extra name (x_extras st) 0 with
               | Some (k, v) => if expr_eqb e v then Some k else None
               | None => None
               end in
  match reuse with
  | Some k => (ERef (cT c + Z.of_nat (n_orig c + k)) [], st)
  | None =>
      let name :=
        if is_nil name || name_taken name (x_extras st) then
          let base := if is_nil name then nth (c_curr c) (c_names c) [] ++ [36] else name in
          fresh_name (S (length (x_extras st))) base 1 (x_extras st)
        else name in
      let idx := (n_orig c + length (x_extras st))%nat in
      let extra := S (x_extra st) in
      (ERef (cT c + Z.of_nat idx) [],
       mkX (x_extras st ++ [(name, e)]) (x_perm st ++ [(c_curr c + extra)%nat]) extra (x_start st) (x_base st) (x_fatal st))
  end.

Definition set_fatal (st : xst) : xst :=
  mkX (x_extras st) (x_perm st) (x_extra st) (x_start st) (x_base st) true.

(* expandExpr *)
Fixpoint expand_expr (c : xctx) (st : xst) (e : expr) {struct e} : list expr * xst :=
  match e with
  | EEmpty => ([e], st)
  | EOpt s => let '(r, st) := expand_expr c st s in (r ++ [EEmpty], st)
  | ESeq subs =>
      (fix go (subs : list expr) (acc : list expr) (st : xst) {struct subs} : list expr * xst :=
         match subs with
         | [] => (acc, st)
         | s :: rest => let '(r, st) := expand_expr c st s in go rest (multi_concat acc r) st
         end) subs [EEmpty] st
  | EChoice subs =>
      (fix go (subs : list expr) (st : xst) {struct subs} : list expr * xst :=
         match subs with
         | [] => ([], st)
         | s :: rest => let '(r, st) := expand_expr c st s in
                        let '(r2, st) := go rest st in (r ++ r2, st)
         end) subs st
  | EArrow n f s => let '(r, st) := expand_expr c st s in (map (EArrow n f) r, st)
  | EAssign n s =>
      let '(r, st) := expand_expr c st s in
      (map (fun v => if is_empty_e v then v else EAssign n v) r, st)
  | EAppend n s =>
      let '(r, st) := expand_expr c st s in
      (map (fun v => if is_empty_e v then v else EAppend n v) r, st)
  | ESet _ | ELookahead _ => let '(r, st) := extract c st e in ([r], st)
  | EList fl elem sep =>
      let '(el, st) := expand_expr c st elem in
      let el1 := match el with [x] => x | _ => EChoice el end in
      let '(sep', fl', st) :=
        match sep with
        | None => (None, fl, st)
        | Some s =>
            let '(sp, st) := expand_expr c st s in
            let st := match sp with [_] => st | _ => set_fatal st end in
            (Some (hd EEmpty sp), Z.lor fl 1, st)
        end in
      let '(ret, st) := extract c st (EList fl' el1 sep') in
      if negb (Z.odd fl) && Z.odd fl' then
        let '(ret, st) := extract c st (EOpt ret) in ([ret], st)
      else ([ret], st)
  | _ => ([e], st)
  end.

(* expandRule *)
Definition expand_rule (c : xctx) (st : xst) (rule : expr) : list expr * xst :=
  match rule with
  | EPrec sym s => let '(r, st) := expand_expr c st s in (map (EPrec sym) r, st)
  | _ => expand_expr c st rule
  end.

(* ---- sortTail ---- *)
Fixpoint insert_by_name (names : nat -> bytes) (x : nat) (l : list nat) : list nat :=
  match l with
  | [] => [x]
  | y :: t => if bytes_ltb (names x) (names y) then x :: l else y :: insert_by_name names x t
  end.
Definition sort_by_name (names : nat -> bytes) (l : list nat) : list nat :=
  fold_left (fun acc x => insert_by_name names x acc) l [].

Fixpoint upd_nat (l : list nat) (i : nat) (v : nat) : list nat :=
  match l, i with
  | [], _ => []
  | _ :: t, O => v :: t
  | x :: t, S k => x :: upd_nat t k v
  end.

Definition sort_tail (c : xctx) (st : xst) : xst :=
  let start := x_start st in
  let base := x_base st in
  let size := (x_extra st - base)%nat in
  let st' := mkX (x_extras st) (x_perm st) (x_extra st) (S (c_curr c)) (x_extra st) (x_fatal st) in
  if Nat.eqb size 0 then st' else
  let total := (n_orig c + length (x_extras st))%nat in
  let local := seq start (S (c_curr c) - start) ++ seq (total - size) size in
  let sorted := sort_by_name (fun i => nt_name_at c st (Z.of_nat i)) local in
  let perm := fst (fold_left (fun '(perm, k) nt => (upd_nat perm nt (start + base + k)%nat, S k)) sorted (x_perm st, O)) in
  mkX (x_extras st) perm (x_extra st) (S (c_curr c)) (x_extra st) (x_fatal st).

(* ---- phase 1: the loop over the original nonterminals ---- *)
Definition expand_nonterm (c : xctx) (st : xst) (v : expr) : expr * xst :=
  match v with
  | EChoice rules =>
      let '(out, st) := fold_left (fun '(out, st) rule =>
                           let '(r, st) := expand_rule c st rule in (out ++ r, st)) rules ([], st) in
      (EChoice (collapse_empty out), st)
  | ESet _ | ELookahead _ => (v, st)
  | _ => let '(r, st) := expand_rule c st v in (EChoice (collapse_empty r), st)
  end.

Definition group_at (nts : list nonterm) (i : nat) : Z := nt_group (nth i nts (mkNt [] [] EEmpty 0)).

Definition phase1 (m : model) : list expr * xst :=
  let nts := m_nonterms m in
  let n := length nts in
  let names := map nt_name nts in
  fold_left (fun '(vals, st) i =>
      let c := mkCtx (m_terms m) names (m_sets m) i in
      let st := mkX (x_extras st) (upd_nat (x_perm st) i (i + x_extra st)%nat) (x_extra st) (x_start st) (x_base st) (x_fatal st) in
      let '(v, st) := expand_nonterm c st (nt_value (nth i nts (mkNt [] [] EEmpty 0))) in
      let delay := (0 <? group_at nts i) && Nat.ltb (S i) n && (group_at nts i =? group_at nts (S i)) in
      (vals ++ [v], if delay then st else sort_tail c st))
    (seq 0 n) ([], mkX [] (repeat O n) O O O false).

(* ---- Rearrange ---- *)
Definition perm_sym (T : Z) (perm : list nat) (s : Z) : Z :=
  if s <? T then s else T + Z.of_nat (nth (Z.to_nat (s - T)) perm O).

Fixpoint rename_expr (f : Z -> Z) (e : expr) : expr :=
  match e with
  | EEmpty | ESet _ | EMarker _ | ECmd _ => e
  | EOpt s => EOpt (rename_expr f s)
  | EChoice l => EChoice (map (rename_expr f) l)
  | ESeq l => ESeq (map (rename_expr f) l)
  | ERef s a => ERef (f s) a
  | EAssign n s => EAssign n (rename_expr f s)
  | EAppend n s => EAppend n (rename_expr f s)
  | EArrow n fl s => EArrow n fl (rename_expr f s)
  | ELookahead l => ELookahead (map (rename_expr f) l)
  | ELaNot s => ELaNot (rename_expr f s)
  | EList fl el sep => EList fl (rename_expr f el) (option_map (rename_expr f) sep)
  | ECond p s => ECond p (rename_expr f s)
  | EPrec sym s => EPrec sym (rename_expr f s)
  end.

Fixpoint rename_tset (f : Z -> Z) (t : tset) : tset :=
  match t with
  | TSym op s => TSym op (f s)
  | TUnion l => TUnion (map (rename_tset f) l)
  | TInter l => TInter (map (rename_tset f) l)
  | TCompl i s => TCompl i (rename_tset f s)
  | TNamed i => t
  end.

Fixpoint index_of (x : nat) (l : list nat) (k : nat) : nat :=
  match l with [] => k | y :: t => if Nat.eqb x y then k else index_of x t (S k) end.

(* out[perm[i]] = nonterms[i] *)
Definition rearrange_list {A} (perm : list nat) (l : list A) (d : A) : list A :=
  map (fun p => nth (index_of p perm O) l d) (seq 0 (length l)).

(* ---- phase 2: top expressions of the extracted nonterminals ---- *)
Definition expand_top (T : Z) (self : nat) (v : expr) : expr :=
  match v with
  | EOpt s => EChoice [s; EEmpty]
  | EList fl elem sep =>
      let rr := Z.testbit fl 1 in
      let non_empty := Z.odd fl in
      let list_ref := ERef (T + Z.of_nat self) [] in
      let rec := match sep with
                 | None => ESeq [list_ref]
                 | Some s => if rr then concat_list [s; ESeq [list_ref]] else concat_list [ESeq [list_ref]; s]
                 end in
      match elem with
      | ERef _ _ =>
          EChoice [ (if rr then concat_list [elem; rec] else concat_list [rec; elem]);
                    (if non_empty then concat_list [elem] else concat_list [EEmpty]) ]
      | EChoice alts =>
          EChoice ((if rr then multi_concat alts [rec] else multi_concat [rec] alts) ++
                   (if non_empty then alts else [EEmpty]))
      | _ =>
          EChoice [ (if rr then concat_list [elem; rec] else concat_list [rec; elem]);
                    (if non_empty then elem else EEmpty) ]
      end
  | _ => v
  end.

(* phase 2 stops with an internal error on an Optional whose operand is not a reference *)
Definition top_error (v : expr) : bool :=
  match v with EOpt (ERef _ _) => false | EOpt _ => true | _ => false end.

Record xresult := mkRes {
  res_nonterms : list (bytes * expr);
  res_inputs : list input;
  res_sets : list tset;
  res_fatal : bool;
  res_error : bool
}.

Definition expand (m : model) : xresult :=
  let '(vals, st) := phase1 m in
  let T := nterms m in
  let all := combine (map nt_name (m_nonterms m)) vals ++ x_extras st in
  let perm := x_perm st in
  let f := perm_sym T perm in
  let moved := rearrange_list perm all ([], EEmpty) in
  let renamed := map (fun '(n, v) => (n, rename_expr f v)) moved in
  let err := existsb (fun '(_, v) => top_error v) renamed in
  let final := map (fun '(self, (n, v)) => (n, expand_top T self v)) (combine (seq 0 (length renamed)) renamed) in
  mkRes final
        (map (fun i => mkInput (Z.of_nat (nth (Z.to_nat (in_nt i)) perm O)) (in_noeoi i)) (m_inputs m))
        (map (rename_tset f) (m_sets m))
        (x_fatal st) err.

(* ---------- run-time checkable side conditions of the correctness theorem (Expand_global.v) ---------- *)
Fixpoint nodupb (l : list nat) : bool :=
  match l with [] => true | x :: r => negb (existsb (Nat.eqb x) r) && nodupb r end.

(* the permutation built by sortTail is a permutation of [0, n) *)
Definition perm_ok (perm : list nat) (n : nat) : bool :=
  Nat.eqb (length perm) n && forallb (fun p => Nat.ltb p n) perm && nodupb perm.

Definition expand_checks (m : model) : bool :=
  let '(vals, st) := phase1 m in
  let B := vals ++ map snd (x_extras st) in
  negb (x_fatal st) &&
  forallb (fun nt => bounded (nterms m + Z.of_nat (length (m_nonterms m))) (nt_value nt)) (m_nonterms m) &&
  perm_ok (x_perm st) (length B) &&
  forallb (bounded (nterms m + Z.of_nat (length B))) B.
