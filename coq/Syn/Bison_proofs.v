(* Proofs about Syn/Bison.v: RulesByNonterm is a partition that keeps the order; the words of an exported
   rule are the right-hand side symbols. *)
From Coq Require Import List ZArith Bool.
From TM Require Import Lib.ListX Util.Ident Syn.Expr Syn.Expand_proofs Syn.Sets Syn.Bison.
Import ListNotations.
Local Open Scope Z_scope.

Section Group.
  Context {A : Type}.

  Fixpoint glookup (x : Z) (groups : list (Z * list A)) : list A :=
    match groups with [] => [] | (y, rs) :: rest => if y =? x then rs else glookup x rest end.

  Definition has_key (x : Z) (groups : list (Z * list A)) : bool := existsb (fun g => fst g =? x) groups.

  Lemma glookup_add x lhs (r : A) groups :
    glookup x (add_to_group lhs r groups) = if x =? lhs then glookup x groups ++ [r] else glookup x groups.
  Proof.
    induction groups as [|[y rs] rest IH]; cbn [add_to_group glookup].
    - rewrite (Z.eqb_sym lhs x). destruct (x =? lhs); reflexivity.
    - destruct (Z.eqb_spec y lhs) as [->|N]; cbn [glookup].
      + destruct (Z.eqb_spec lhs x) as [->|N2]; [now rewrite Z.eqb_refl | destruct (Z.eqb_spec x lhs); [congruence | reflexivity]].
      + destruct (Z.eqb_spec y x) as [->|N2]; [destruct (Z.eqb_spec x lhs); [congruence | reflexivity] | exact IH].
  Qed.

  Lemma keys_add lhs (r : A) groups :
    map fst (add_to_group lhs r groups) = if has_key lhs groups then map fst groups else map fst groups ++ [lhs].
  Proof.
    induction groups as [|[y rs] rest IH]; cbn [add_to_group map has_key existsb fst]; [reflexivity|].
    destruct (Z.eqb_spec y lhs) as [->|N]; cbn [map fst orb]; [reflexivity|].
    unfold has_key in IH. rewrite IH. destruct (existsb _ rest); reflexivity.
  Qed.

  (* left-hand sides in order of first appearance *)
  Definition first_occurrences (l : list Z) : list Z :=
    fold_left (fun acc x => if existsb (Z.eqb x) acc then acc else acc ++ [x]) l [].

  Lemma has_key_keys x (groups : list (Z * list A)) : has_key x groups = existsb (Z.eqb x) (map fst groups).
  Proof.
    unfold has_key. induction groups as [|[y rs] rest IH]; cbn; [reflexivity|]. rewrite IH, (Z.eqb_sym y x). reflexivity.
  Qed.

  Theorem rules_by_nonterm_lookup (rules : list (Z * A)) x :
    glookup x (rules_by_nonterm rules) = map snd (filter (fun r => fst r =? x) rules).
  Proof.
    unfold rules_by_nonterm.
    assert (G : forall g0, glookup x (fold_left (fun groups '(lhs, r) => add_to_group lhs r groups) rules g0) =
                           glookup x g0 ++ map snd (filter (fun r => fst r =? x) rules)).
    { induction rules as [|[lhs r] rest IH]; intro g0; cbn [fold_left filter map].
      - now rewrite app_nil_r.
      - rewrite IH, glookup_add. cbn [fst]. rewrite (Z.eqb_sym lhs x). destruct (x =? lhs); cbn [map snd]; [now rewrite <- app_assoc | reflexivity]. }
    rewrite G. reflexivity.
  Qed.

  Theorem rules_by_nonterm_keys (rules : list (Z * A)) :
    map fst (rules_by_nonterm rules) = first_occurrences (map fst rules).
  Proof.
    unfold rules_by_nonterm, first_occurrences.
    assert (G : forall (g0 : list (Z * list A)),
              map fst (fold_left (fun groups '(lhs, r) => add_to_group lhs r groups) rules g0) =
              fold_left (fun acc x => if existsb (Z.eqb x) acc then acc else acc ++ [x]) (map fst rules) (map fst g0)).
    { induction rules as [|[lhs r] rest IH]; intro g0; cbn [fold_left map fst]; [reflexivity|].
      rewrite IH, keys_add, has_key_keys. destruct (existsb _ (map fst g0)); reflexivity. }
    exact (G []).
  Qed.

  Lemma first_occurrences_nodup l : NoDup (first_occurrences l).
  Proof.
    unfold first_occurrences. apply fold_left_inv; [constructor|]. intros acc x _ Hn. destruct (existsb (Z.eqb x) acc) eqn:E; [exact Hn|].
    apply NoDup_snoc; [exact Hn|]. intro Hin. rewrite (proj2 (existsb_exists _ _)) in E; [discriminate|].
    exists x. split; [exact Hin | apply Z.eqb_refl].
  Qed.

  Corollary rules_by_nonterm_complete (rules : list (Z * A)) lhs r :
    In (lhs, r) rules -> In r (glookup lhs (rules_by_nonterm rules)).
  Proof.
    intro H. rewrite rules_by_nonterm_lookup. apply in_map_iff. exists (lhs, r). split; auto.
    apply filter_In. split; auto. cbn. apply Z.eqb_refl.
  Qed.
End Group.

Theorem expr_words_symbols : forall e, word_syms (expr_words e) = accept e.
Proof.
  induction e using expr_ind2; cbn [expr_words accept word_syms flat_map]; auto.
  - induction H as [|x l Hx Hl IH]; cbn [flat_map]; auto.
    unfold word_syms in *. rewrite flat_map_app, Hx, IH. reflexivity.
  - unfold word_syms in *. rewrite flat_map_app, IHe. cbn. now rewrite app_nil_r.
Qed.

Definition spaceless (w : bytes) : Prop := w <> [] /\ ~ In 32 w.

Lemma join_cons2 sep a b r : join sep (a :: b :: r) = a ++ sep ++ join sep (b :: r).
Proof. reflexivity. Qed.

Lemma join_app sep ws1 ws2 : ws1 <> [] -> ws2 <> [] -> join sep (ws1 ++ ws2) = join sep ws1 ++ sep ++ join sep ws2.
Proof.
  induction ws1 as [|a ws1 IH]; intros H1 H2; [congruence|]. destruct ws1 as [|b ws1].
  - cbn [app]. destruct ws2 as [|c ws2]; [congruence|]. reflexivity.
  - cbn [app]. rewrite join_cons2. rewrite join_cons2. change (b :: ws1 ++ ws2) with ((b :: ws1) ++ ws2).
    rewrite IH by (auto; discriminate). now rewrite <- !app_assoc.
Qed.

Lemma bytes_eqb_iff a b : bytes_eqb a b = true <-> a = b.
Proof.
  revert b. induction a as [|x a IH]; intros [|y b]; cbn [bytes_eqb]; try (split; discriminate); [tauto|].
  rewrite andb_true_iff, Z.eqb_eq, IH. split; [intros [-> ->]; reflexivity | intro E; injection E; auto].
Qed.

Fixpoint split_go (s : bytes) (cur : bytes) : list bytes :=
  match s with
  | [] => if is_nil cur then [] else [cur]
  | c :: r => if c =? 32 then (if is_nil cur then split_go r [] else cur :: split_go r [])
              else split_go r (cur ++ [c])
  end.
Definition read_back (s : bytes) : list bytes := split_go s [].

Lemma split_go_word w : ~ In 32 w -> forall rest cur, split_go (w ++ rest) cur = split_go rest (cur ++ w).
Proof.
  induction w as [|c w IH]; intros Hw rest cur; cbn [app split_go].
  - now rewrite app_nil_r.
  - destruct (Z.eqb_spec c 32) as [->|N]; [exfalso; apply Hw; now left|].
    rewrite IH by (intro H; apply Hw; now right). now rewrite <- app_assoc.
Qed.

Theorem read_back_join ws : Forall spaceless ws -> read_back (join [32] ws) = ws.
Proof.
  unfold read_back. induction ws as [|a ws IH]; intro H; [reflexivity|].
  inversion H as [|? ? [Ha Hsp] Hws]; subst. destruct ws as [|b ws].
  - cbn [join]. rewrite <- (app_nil_r a) at 1. rewrite split_go_word by auto. cbn [app split_go].
    destruct a; [congruence | reflexivity].
  - rewrite join_cons2. rewrite split_go_word by auto. cbn [app split_go]. rewrite Z.eqb_refl.
    destruct a; [congruence|]. cbn [is_nil]. f_equal. apply IH. exact Hws.
Qed.

(* so a text determines its words *)
Lemma join_inj a b : Forall spaceless a -> Forall spaceless b -> join [32] a = join [32] b -> a = b.
Proof. intros Ha Hb E. rewrite <- (read_back_join a Ha), <- (read_back_join b Hb), E. reflexivity. Qed.

Lemma join_nil_iff ws : Forall spaceless ws -> (join [32] ws = [] <-> ws = []).
Proof. intro H. split; [apply (join_inj ws [] H (Forall_nil _)) | now intros ->]. Qed.

Section Text.
  Variable sym_name : Z -> bytes.
  Variable sym_id : Z -> bytes.

  Definition s_prec_word : bytes := [37; 112; 114; 101; 99].   (* "%prec" *)

  Definition skip_words (w : list bytes) : bool :=
    match w with [] => true | [x] => bytes_eqb x s_empty | _ => false end.

  (* the words a reader of the rule text sees *)
  Fixpoint text_words (e : expr) : list bytes :=
    match e with
    | EEmpty => [s_empty]
    | EPrec s x => text_words x ++ [s_prec_word; sym_id s]
    | EAssign _ x | EAppend _ x | EArrow _ _ x => text_words x
    | ESeq l =>
        let ws := flat_map (fun x => let w := text_words x in if skip_words w then [] else w) l in
        match ws with [] => [s_empty] | _ => ws end
    | ERef s _ => [sym_name s]
    | EMarker n => [s_mark_open ++ n ++ s_mark_close]
    | _ => []
    end.

  (* rules the exporter can print: flat bodies; %prec only on a body that prints something;
     marker names without spaces *)
  Fixpoint exportable (e : expr) : Prop :=
    match e with
    | EEmpty | ERef _ _ | ECmd _ => True
    | EMarker n => ~ In 32 n
    | EPrec _ x => exportable x /\ text_words x <> []
    | EAssign _ x | EAppend _ x | EArrow _ _ x => exportable x
    | ESeq l => (fix all (l : list expr) : Prop := match l with [] => True | x :: r => exportable x /\ all r end) l
    | _ => False
    end.

  Lemma exportable_seq l : exportable (ESeq l) <-> Forall exportable l.
  Proof.
    cbn [exportable]. induction l as [|x l IH]; [split; constructor|]. rewrite IH. split.
    - intros [H1 H2]. now constructor.
    - intro H. inversion H. auto.
  Qed.

  Lemma text_words_seq (P : bytes -> Prop) l :
    P s_empty -> (forall x, In x l -> Forall P (text_words x)) -> Forall P (text_words (ESeq l)).
  Proof.
    intros H0 H. cbn [text_words]. cbv zeta.
    assert (Hw : Forall P (flat_map (fun x => if skip_words (text_words x) then [] else text_words x) l)).
    { apply Forall_flat_map, Forall_forall. intros x Hx. destruct (skip_words _); [constructor | now apply H]. }
    destruct (flat_map _ l); [repeat constructor; exact H0 | exact Hw].
  Qed.

  Lemma s_empty_spaceless : spaceless s_empty.
  Proof. split; [discriminate|]. cbn. intros [H|[H|[H|[H|[H|[H|[]]]]]]]; discriminate. Qed.

  (* the test ExprString applies to the text of a part is a test on its words *)
  Lemma skip_words_spec w : Forall spaceless w ->
    is_nil (join [32] w) || bytes_eqb (join [32] w) s_empty = skip_words w.
  Proof.
    intro Hw. apply eq_true_iff_eq. rewrite orb_true_iff, bytes_eqb_iff. split.
    - intros [H|H].
      + destruct (join [32] w) eqn:E; [|discriminate]. apply (join_nil_iff _ Hw) in E. now subst.
      + apply (join_inj w [s_empty] Hw) in H; [subst; reflexivity|]. constructor; [apply s_empty_spaceless | constructor].
    - destruct w as [|a [|b r]]; cbn [skip_words]; [now left | | discriminate].
      intro E. apply bytes_eqb_iff in E. subst. now right.
  Qed.

  Lemma skip_words_spaceless w : Forall spaceless (if skip_words w then [] else w) -> Forall spaceless w.
  Proof.
    destruct w as [|a [|b r]]; cbn [skip_words]; auto. destruct (bytes_eqb a s_empty) eqn:E; auto.
    apply bytes_eqb_iff in E. subst. constructor; [apply s_empty_spaceless | constructor].
  Qed.

  (* one step of the loop of ExprString over a sequence, on texts that are joined words *)
  Lemma seq_step W w : Forall spaceless W -> Forall spaceless w ->
    (if is_nil (join [32] w) || bytes_eqb (join [32] w) s_empty then Some (join [32] W)
     else Some (if is_nil (join [32] W) then join [32] w else join [32] W ++ [32] ++ join [32] w))
    = Some (join [32] (W ++ if skip_words w then [] else w)).
  Proof.
    intros HW Hw. rewrite (skip_words_spec w Hw). destruct (skip_words w) eqn:E; [now rewrite app_nil_r|]. f_equal.
    destruct W as [|a W]; [reflexivity|]. rewrite join_app by (try discriminate; intros ->; discriminate).
    destruct (join [32] (a :: W)) eqn:Ej; [|reflexivity]. apply (join_nil_iff _ HW) in Ej. discriminate.
  Qed.

  Lemma fold_words (F : option bytes -> expr -> option bytes) (ws : expr -> list bytes) l :
    (forall W x, In x l -> Forall spaceless W ->
       F (Some (join [32] W)) x = Some (join [32] (W ++ ws x)) /\ Forall spaceless (ws x)) ->
    forall W, Forall spaceless W -> fold_left F l (Some (join [32] W)) = Some (join [32] (W ++ flat_map ws l)).
  Proof.
    induction l as [|x l IH]; intros H W HW; cbn [fold_left flat_map]; [now rewrite app_nil_r|].
    destruct (H W x (or_introl eq_refl) HW) as [E Hx]. rewrite E, app_assoc.
    apply IH; [intros W' y Hy; apply H; now right | apply Forall_app; split; assumption].
  Qed.

  Theorem expr_string_text : forall e, exportable e -> Forall spaceless (text_words e) ->
    expr_string sym_name sym_id e = Some (join [32] (text_words e)).
  Proof.
    induction e using expr_ind2; intros He Hs; try (exfalso; exact He); cbn [text_words expr_string] in *.
    - reflexivity.
    - apply exportable_seq in He. rewrite Forall_forall in H, He.
      set (ws := fun x => if skip_words (text_words x) then [] else text_words x) in *.
      assert (Hw : forall x, In x l -> Forall spaceless (ws x)).
      { apply Forall_forall, Forall_flat_map. destruct (flat_map ws l); [constructor | exact Hs]. }
      rewrite fold_words with (ws := ws) (W := []); [|intros W x Hx HW | constructor].
      + cbn [app]. destruct (flat_map ws l) as [|a r] eqn:E; [reflexivity|].
        destruct (join [32] (a :: r)) eqn:Ej; [|reflexivity]. apply (join_nil_iff _ Hs) in Ej. discriminate.
      + pose proof (skip_words_spaceless _ (Hw x Hx)) as Hx'. rewrite (H x Hx (He x Hx) Hx').
        split; [now apply seq_step | now apply Hw].
    - reflexivity.
    - apply IHe; auto.
    - apply IHe; auto.
    - apply IHe; auto.
    - reflexivity.
    - reflexivity.
    - destruct He as [He Hne]. apply Forall_app in Hs as [Hs _]. rewrite (IHe He Hs). f_equal.
      rewrite join_app by (auto; discriminate). cbn [join]. unfold s_prec, s_prec_word. cbn [app]. reflexivity.
  Qed.

  Hypothesis Hname : forall s, spaceless (sym_name s).
  Hypothesis Hid : forall s, spaceless (sym_id s).

  Lemma text_words_spaceless : forall e, exportable e -> Forall spaceless (text_words e).
  Proof.
    induction e using expr_ind2; intro He; try (exfalso; exact He); try (now apply IHe); cbn [text_words].
    - constructor; [apply s_empty_spaceless | constructor].
    - apply exportable_seq in He. rewrite Forall_forall in H, He.
      apply text_words_seq; [apply s_empty_spaceless | auto].
    - constructor; [apply Hname | constructor].
    - constructor; [|constructor]. split; [discriminate|].
      intro Hin. apply in_app_or in Hin as [Hin | Hin]; [cbn in Hin; intuition discriminate|].
      apply in_app_or in Hin as [Hin | Hin]; [auto | cbn in Hin; intuition discriminate].
    - constructor.
    - destruct He as [He _]. apply Forall_app. split; [auto|]. constructor; [|constructor; [apply Hid | constructor]].
      split; [discriminate|]. cbn. intuition discriminate.
  Qed.
End Text.
