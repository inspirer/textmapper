(* C15: the result of the model of ResolveSets is THE solution of the equation system it generates
   (least, stable, unique), and it reports an error exactly when a generated complement depends on itself.
   Lifts Util/Closure_proofs.v through resolve_sets. *)
From Coq Require Import List ZArith Bool.
From TM Require Import Util.IntSet Util.IntSet_proofs Util.Closure Util.ClosureSem
  Util.Closure_proofs Lib.ListX Syn.Sets.
Import ListNotations.
Local Open Scope Z_scope.

Lemma resolve_sets_eq T vals sets inputs : sets <> [] ->
  resolve_sets T vals sets inputs =
  let '(result, st) := resolve_est T vals sets inputs in
  let c := compute (e_nodes st) in
  if c_oof c then SetsOof else
  match c_err c with
  | [] => SetsOk (map (fun v => set_terminals T (val_at c v)) result)
  | errs => SetsErr (map (fun v => compl_id v (e_compl st)) errs)
  end.
Proof.
  intro H. unfold resolve_sets, resolve_est. destruct sets as [|s sets]; [congruence|].
  destruct (translate_all T (s :: sets) (mkE [] [] [] [] [])) as [result st]. reflexivity.
Qed.

(* membership in the terminal list extracted from a computed set: the denotation, cut to [0,T) when co-finite *)
Definition in_terms (T : Z) (s : intset) (a : Z) : Prop := den s a /\ (inverse s = true -> 0 <= a < T).

Lemma set_terminals_spec T s a : In a (set_terminals T s) <-> in_terms T s a.
Proof.
  unfold set_terminals, in_terms, den. destruct (inverse s).
  - rewrite filter_In, in_map_of_nat_seq, negb_true_iff, <- not_true_iff_false, existsb_eqb_in. tauto.
  - split; [intro H; split; [exact H|discriminate]|tauto].
Qed.

(* every returned set is the value of its node in the unique stable (= least) solution of the generated equations *)
Theorem resolve_sets_ok_least T vals sets inputs ts : sets <> [] ->
  sets_certb T vals sets inputs = true ->
  resolve_sets T vals sets inputs = SetsOk ts ->
  let nodes := e_nodes (snd (resolve_est T vals sets inputs)) in
  let result := fst (resolve_est T vals sets inputs) in
  exists vals_of : nat -> intset,
    stable_solution nodes (fun v x => den (vals_of v) x) /\
    (forall sol, stable_solution nodes sol -> forall v x, (v < length nodes)%nat -> (sol v x <-> den (vals_of v) x)) /\
    (forall v, ~ compl_on_cycle nodes v) /\
    ts = map (fun v => set_terminals T (vals_of v)) result /\
    forall i a, (i < length result)%nat -> (In a (nth i ts []) <-> in_terms T (vals_of (nth i result O)) a).
Proof.
  intros Hne Hc Hr nodes result. rewrite (resolve_sets_eq T vals sets inputs Hne) in Hr.
  unfold sets_certb in Hc. unfold nodes, result. destruct (resolve_est T vals sets inputs) as [res st]. cbn [fst snd] in *.
  cbv zeta in Hr. destruct (c_oof (compute (e_nodes st))) eqn:Eo; [discriminate|].
  destruct (c_err (compute (e_nodes st))) eqn:Ee; [|discriminate]. inversion Hr; subst ts. clear Hr.
  destruct (compute_ok_least (e_nodes st) Hc Eo Ee) as [Hs Hu].
  exists (val_at (compute (e_nodes st))). split; [exact Hs|]. split; [exact Hu|]. split.
  - intros v Hv. apply (compute_err_cycle (e_nodes st) Hc) in Hv. rewrite Ee in Hv. exact Hv.
  - split; [reflexivity|]. intros i a Hi.
    rewrite (nth_indep _ [] (set_terminals T (val_at (compute (e_nodes st)) O))) by (now rewrite map_length).
    rewrite (map_nth (fun v => set_terminals T (val_at (compute (e_nodes st)) v)) res O i). apply set_terminals_spec.
Qed.
