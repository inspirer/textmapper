(* A symbolic validator for inferred fields against an arrow body with lists of ANY length (Syn/Types.v's
   check_type enumerates the child sequences and therefore bounds the repetitions). It covers types whose
   accessors all fetch from the parent (FetchAfter = -1, what fixConflictingFields leaves when no two fields
   share a node type): per field, the number of children matching its selector is bounded statically
   (0, 1, "2 or more") over the body. Executable definitions only; proofs are in Types_proofs.v. *)
From Coq Require Import List NArith ZArith Bool Arith.
From TM Require Import Syn.Types.
Import ListNotations.
Local Open Scope nat_scope.

Definition sat_add (a b : nat) : nat := if 2 <=? a + b then 2 else a + b.

(* lower / upper bound (saturating at 2) of the number of children of [e] whose type is in [sel] *)
Fixpoint cnt_min (sel : list N) (e : cexpr) : nat :=
  match e with
  | CEmpty => 0
  | CNode t => if sel_has sel t then 1 else 0
  | CSeq a b => sat_add (cnt_min sel a) (cnt_min sel b)
  | CChoice a b => Nat.min (cnt_min sel a) (cnt_min sel b)
  | COpt _ => 0
  | CList a ne => if ne then cnt_min sel a else 0
  end.

Fixpoint cnt_max (sel : list N) (e : cexpr) : nat :=
  match e with
  | CEmpty => 0
  | CNode t => if sel_has sel t then 1 else 0
  | CSeq a b => sat_add (cnt_max sel a) (cnt_max sel b)
  | CChoice a b => Nat.max (cnt_max sel a) (cnt_max sel b)
  | COpt a => cnt_max sel a
  | CList a _ => if cnt_max sel a =? 0 then 0 else 2
  end.

(* node types that can occur among the children *)
Fixpoint cnodes (e : cexpr) : list N :=
  match e with
  | CEmpty => []
  | CNode t => [t]
  | CSeq a b | CChoice a b => cnodes a ++ cnodes b
  | COpt a | CList a _ => cnodes a
  end.

(* decidable form of Types_proofs.assert_covers *)
Definition assert_covers_b (cats : list category) (f : field) : bool :=
  if (f_assert f <=? 0)%Z then true
  else match nth_error cats (Z.to_nat (f_assert f - 1)) with
       | None => false
       | Some c => c_nil c && forallb (fun t => sel_has (c_types c) t) (f_sel f)
       end.

Definition check_sym (cats : list category) (fs : list field) (inj : N) (e : cexpr) : bool :=
  forallb (fun f => (f_after f =? -1)%Z && assert_covers_b cats f) fs &&
  forallb (fun f => (if f_required f && negb (f_list f) then 1 <=? cnt_min (f_sel f) e else true) &&
                    (if f_list f then true else cnt_max (f_sel f) e <=? 1)) fs &&
  forallb (fun t => N.eqb t inj || existsb (fun f => sel_has (f_sel f) t) fs) (cnodes e).

(* the validator used on the implementation's output: symbolic where it applies (then lists of any length
   are covered), otherwise the enumeration of Types.check_type with at most [rep] repetitions per list *)
Definition check_body (cats : list category) (fs : list field) (inj : N) (rep : nat) (e : cexpr) : bool :=
  check_sym cats fs inj e || (list_free e && forallb (node_ok cats fs inj) (child_seqs rep e)).

Definition check_type_any (cats : list category) (fs : list field) (inj : N) (rep : nat) (bodies : list cexpr) : bool :=
  forallb (check_body cats fs inj rep) bodies.
