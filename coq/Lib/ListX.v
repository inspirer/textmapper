(* List lemmas that the 8.16 standard library lacks and that several directories use. *)
From Coq Require Import List Arith ZArith Lia.
Import ListNotations.

Lemma In_firstn {A} (x : A) n l : In x (firstn n l) -> In x l.
Proof. intro H. rewrite <- (firstn_skipn n l). apply in_or_app. now left. Qed.

Lemma In_skipn {A} (x : A) n l : In x (skipn n l) -> In x l.
Proof. intro H. rewrite <- (firstn_skipn n l). apply in_or_app. now right. Qed.

Lemma Forall_firstn' {A} (P : A -> Prop) n l : Forall P l -> Forall P (firstn n l).
Proof. rewrite !Forall_forall. intros H x Hx. apply H. eapply In_firstn; eauto. Qed.

Lemma Forall_skipn' {A} (P : A -> Prop) n l : Forall P l -> Forall P (skipn n l).
Proof. rewrite !Forall_forall. intros H x Hx. apply H. eapply In_skipn; eauto. Qed.

Lemma skipn_skipn' {A} (x y : nat) (l : list A) : skipn x (skipn y l) = skipn (x + y) l.
Proof.
  revert l; induction y as [|y IH]; intro l.
  - now rewrite Nat.add_0_r.
  - rewrite Nat.add_succ_r. destruct l as [|a l]; [now rewrite !skipn_nil|]. cbn [skipn]. apply IH.
Qed.

Lemma nth_firstn' {A} (l : list A) : forall n i d, (i < n)%nat -> nth i (firstn n l) d = nth i l d.
Proof.
  induction l as [|x l IH]; intros n i d H; [now rewrite firstn_nil|].
  destruct n as [|n]; [lia|]. destruct i as [|i]; [reflexivity|]. cbn [firstn nth]. apply IH. lia.
Qed.

Lemma nth_skipn' {A} (l : list A) : forall n i d, nth i (skipn n l) d = nth (n + i) l d.
Proof.
  induction l as [|x l IH]; intros n i d; [rewrite skipn_nil; now destruct i, n|].
  destruct n as [|n]; [reflexivity|]. cbn [skipn plus nth]. apply IH.
Qed.

Lemma firstn_add' {A} (n m : nat) (l : list A) : firstn (n + m) l = firstn n l ++ firstn m (skipn n l).
Proof.
  revert l; induction n as [|n IH]; intro l; [reflexivity|].
  destruct l as [|x l]; [now rewrite !firstn_nil|]. cbn [plus firstn skipn app]. now rewrite IH.
Qed.

Lemma firstn_S_nth' {A} (l : list A) : forall i d, (i < length l)%nat -> firstn (S i) l = firstn i l ++ [nth i l d].
Proof.
  induction l as [|x l IH]; intros i d H; [cbn in H; lia|].
  destruct i as [|i]; [reflexivity|]. cbn [firstn nth app]. f_equal. apply IH. cbn in H. lia.
Qed.


Lemma firstn_S_nth_error {A} (l : list A) d x : nth_error l d = Some x -> firstn (S d) l = firstn d l ++ [x].
Proof.
  revert l; induction d as [|d IH]; intros [|y l] H; cbn in *; try discriminate.
  - now injection H as ->.
  - f_equal. now apply IH.
Qed.

Lemma nth_error_skipn_cons {A} (l : list A) d x : nth_error l d = Some x -> skipn d l = x :: skipn (S d) l.
Proof.
  revert l; induction d as [|d IH]; intros [|y l] H; cbn in *; try discriminate.
  - now injection H as ->.
  - now apply IH.
Qed.

Lemma skipn_nth_error_cons {A} (l : list A) d x g : skipn d l = x :: g -> nth_error l d = Some x /\ skipn (S d) l = g.
Proof.
  revert l; induction d as [|d IH]; intros [|y l] H; cbn in *; try discriminate.
  - now injection H as -> ->.
  - now apply IH.
Qed.

Lemma hd_skipn {A} d (l : list A) x : hd x (skipn d l) = nth d l x.
Proof. revert l; induction d as [|d IH]; intros [|y l]; cbn; auto. Qed.

Lemma firstn_app_len {A} (l r : list A) : firstn (length l) (l ++ r) = l.
Proof. induction l; cbn; congruence. Qed.

Lemma skipn_app_len {A} (l r : list A) : skipn (length l) (l ++ r) = r.
Proof. induction l; cbn; congruence. Qed.

Lemma split3 {A} (l : list A) s e : s <= e -> e <= length l ->
  l = firstn s l ++ firstn (e - s) (skipn s l) ++ skipn e l.
Proof.
  intros Hse Hel. rewrite <- (firstn_skipn s l) at 1. f_equal.
  rewrite <- (firstn_skipn (e - s) (skipn s l)) at 1. f_equal.
  rewrite skipn_skipn'. f_equal. lia.
Qed.

Lemma map_tl {A B} (f : A -> B) l : map f (tl l) = tl (map f l).
Proof. now destruct l. Qed.


Lemma last_In {A} (l : list A) d : l <> [] -> In (last l d) l.
Proof.
  induction l as [|x l IH]; intros H; [congruence|].
  destruct l as [|y l]; [now left|]. right. apply IH. congruence.
Qed.


Lemma app_sep_eq {A} (E : A) (a b x y : list A) : ~ In E a -> ~ In E b -> a ++ E :: x = b ++ E :: y -> a = b.
Proof.
  revert b. induction a as [|h a IH]; intros [|h' b] Ha Hb Eq; cbn in *.
  - reflexivity.
  - injection Eq as -> _. tauto.
  - injection Eq as -> _. tauto.
  - injection Eq as -> Eq. f_equal. apply IH; tauto.
Qed.


Lemma fold_left_inv {A B} (P : A -> Prop) (f : A -> B -> A) l a :
  P a -> (forall a x, In x l -> P a -> P (f a x)) -> P (fold_left f l a).
Proof. revert a; induction l as [|y l IH]; intros a Ha Hf; cbn; auto. apply IH; cbn in *; auto. Qed.

Lemma fold_left_ext_in {A B} (f g : A -> B -> A) l : (forall a x, In x l -> f a x = g a x) ->
  forall a, fold_left f l a = fold_left g l a.
Proof.
  induction l as [|x l IH]; intros H a; cbn [fold_left]; [reflexivity|].
  rewrite H by now left. apply IH. intros; apply H; now right.
Qed.

Lemma fold_left_ext {A B} (f g : A -> B -> A) l a : (forall a x, f a x = g a x) -> fold_left f l a = fold_left g l a.
Proof. intro H. apply fold_left_ext_in. auto. Qed.

Lemma filter_length_le {A} (p : A -> bool) l : length (filter p l) <= length l.
Proof. induction l as [|x l IH]; cbn; [lia|]. destruct (p x); cbn; lia. Qed.

Lemma find_app {A} (p : A -> bool) l1 l2 :
  find p (l1 ++ l2) = match find p l1 with Some x => Some x | None => find p l2 end.
Proof. induction l1 as [|x l1 IH]; cbn; [reflexivity|]. now destruct (p x). Qed.

Lemma forallb_false_ex {A} (f : A -> bool) l : forallb f l = false -> exists x, In x l /\ f x = false.
Proof.
  induction l as [|x l IH]; cbn; [discriminate|]. destruct (f x) eqn:E; cbn.
  - intros H. destruct (IH H) as (y & Hy & Hf). eauto.
  - eauto.
Qed.

Lemma existsb_false {A} (f : A -> bool) l : existsb f l = false -> forall x, In x l -> f x = false.
Proof.
  intros H x Hx. destruct (f x) eqn:E; [|reflexivity].
  assert (existsb f l = true) by (apply existsb_exists; eauto). congruence.
Qed.

Lemma map_seq_nth {A} (f : nat -> A) n i d : i < n -> nth i (map f (seq 0 n)) d = f i.
Proof.
  intro H. rewrite (nth_indep _ d (f 0)) by (rewrite map_length, seq_length; lia).
  rewrite map_nth, seq_nth by lia. reflexivity.
Qed.


Lemma NoDup_app_iff {A} (l1 l2 : list A) :
  NoDup (l1 ++ l2) <-> NoDup l1 /\ NoDup l2 /\ (forall x, In x l1 -> In x l2 -> False).
Proof.
  induction l1 as [|a l1 IH]; cbn [app].
  - split; [intros H; repeat split; [constructor|exact H|contradiction]|tauto].
  - split.
    + intros H. inversion H as [|? ? Hn Hnd]; subst. apply IH in Hnd. destruct Hnd as (H1 & H2 & H3).
      rewrite in_app_iff in Hn. repeat split; [constructor; tauto|exact H2|].
      intros x [->|Hx] Hx2; [tauto|eauto].
    + intros (H1 & H2 & H3). inversion H1 as [|? ? Hn Hnd]; subst. constructor.
      * rewrite in_app_iff. intros [?|?]; [tauto|]. eapply H3; [now left|eassumption].
      * apply IH. repeat split; auto. intros x Hx. apply H3. now right.
Qed.

Lemma NoDup_snoc {A} (l : list A) x : NoDup l -> ~ In x l -> NoDup (l ++ [x]).
Proof.
  intros Hl Hx. apply NoDup_app_iff. repeat split; [exact Hl|constructor; [tauto|constructor]|].
  intros y Hy [<-|[]]. tauto.
Qed.

Lemma NoDup_map_inj {A B} (f : A -> B) l : NoDup (map f l) -> forall x y, In x l -> In y l -> f x = f y -> x = y.
Proof.
  induction l as [|a l IH]; cbn; intros Hnd x y Hx Hy E; [contradiction|].
  inversion Hnd as [|? ? Ha Hl]; subst. destruct Hx as [->|Hx], Hy as [->|Hy]; auto.
  - exfalso. apply Ha. rewrite E. now apply in_map.
  - exfalso. apply Ha. rewrite <- E. now apply in_map.
Qed.

(* zseq, zrange and zrange0 of the models unfold to this list *)

Lemma in_map_of_nat_seq n x : In x (map Z.of_nat (seq 0 (Z.to_nat n))) <-> (0 <= x < n)%Z.
Proof.
  rewrite in_map_iff. split.
  - intros (k & <- & Hk). apply in_seq in Hk. lia.
  - intros H. exists (Z.to_nat x). split; [lia|]. apply in_seq. lia.
Qed.
