(* C20 (producer half): the events of a derivation tree are spans of sub-forests of that tree; with laminar reports
   (nested_table) two of them are nested or disjoint and a container comes after its contents; events of different
   stack entries are disjoint and ordered. Hence the events of a run of Events.xrun with fixws = true are pairwise
   compatible and inside the input (xrun_events_okp), if the final stack carries well-formed trees and end-of-input
   leaves only as entries of their own; the latter follows when EOI is only shifted into the end state (EoiLeaf). *)
From Coq Require Import List ZArith Bool Lia.
From TM Require Import Gram.PTables Gram.Run Gram.Events Gram.Events_proofs Gram.Events_strict Gram.Events_run Gram.TreeBuilder Gram.TreeBuilder_proofs.
Import ListNotations.
Local Open Scope Z_scope.

(* the reports of a rule are laminar, inner arrows first (generateTables: post-order traverse) *)
Definition rep_compat (a b : nat * nat * Z) : Prop :=
  let '(s1, e1, _) := a in let '(s2, e2, _) := b in
  (e1 <= s2 \/ e2 <= s1 \/ (s2 <= s1 /\ e1 <= e2))%nat.

Fixpoint reps_nested (l : list (nat * nat * Z)) : Prop :=
  match l with [] => True | a :: rest => Forall (rep_compat a) rest /\ reps_nested rest end.

Definition nested_table (evt : ev_table) : Prop := Forall (fun er => reps_nested (er_reports er)) evt.

Definition rep_compatb (a b : nat * nat * Z) : bool :=
  let '(s1, e1, _) := a in let '(s2, e2, _) := b in
  ((e1 <=? s2) || (e2 <=? s1) || ((s2 <=? s1) && (e1 <=? e2)))%nat.
Fixpoint reps_nestedb (l : list (nat * nat * Z)) : bool :=
  match l with [] => true | a :: rest => forallb (rep_compatb a) rest && reps_nestedb rest end.
Definition nested_tableb (evt : ev_table) : bool := forallb (fun er => reps_nestedb (er_reports er)) evt.

Lemma nested_tableb_sound evt : nested_tableb evt = true -> nested_table evt.
Proof.
  unfold nested_tableb, nested_table. rewrite forallb_forall, Forall_forall. intros H er Hin. specialize (H er Hin).
  induction (er_reports er) as [|a rest IH]; [exact I|]. simpl in H. apply andb_true_iff in H. destruct H as [H1 H2].
  split; [|apply IH; exact H2]. rewrite forallb_forall in H1. apply Forall_forall. intros b Hb. specialize (H1 b Hb).
  destruct a as [[s1 e1] t1], b as [[s2 e2] t2]. simpl in *.
  rewrite !orb_true_iff, andb_true_iff, !Nat.leb_le in H1. tauto.
Qed.

Lemma nested_table_at evt r : nested_table evt -> reps_nested (er_reports (ev_at evt r)).
Proof.
  intros H. unfold ev_at. destruct (nth_in_or_default (Z.to_nat r) evt (mkEvRule 0 [] false)) as [Hin|E]; [|rewrite E; exact I].
  unfold nested_table in H. rewrite Forall_forall in H. apply H. exact Hin.
Qed.

(* pairwise compatibility, Prop version of ok_events *)
Fixpoint okp (evs : list event) : Prop :=
  match evs with
  | [] => True
  | e :: rest => ev_off e <= ev_end e /\ Forall (fun b => compatible e b = true) rest /\ okp rest
  end.

Section Pairwise.
Context {X : Type} (P : X -> Prop) (R : X -> X -> Prop).

Fixpoint pairwise (l : list X) : Prop :=
  match l with [] => True | e :: rest => P e /\ Forall (R e) rest /\ pairwise rest end.

Lemma pairwise_app a b : pairwise (a ++ b) <-> pairwise a /\ pairwise b /\ Forall (fun x => Forall (R x) b) a.
Proof.
  induction a as [|e a IH]; simpl.
  - split; [intros H; repeat split; [exact H|constructor]|tauto].
  - rewrite IH, Forall_app. split.
    + intros (H1 & (H2 & H3) & H4 & H5 & H6). repeat split; auto.
    + intros ((H1 & H2 & H3) & H4 & H5). inversion H5; subst. repeat split; auto.
Qed.

End Pairwise.

Lemma okp_app a b : okp (a ++ b) <-> okp a /\ okp b /\ Forall (fun x => Forall (fun y => compatible x y = true) b) a.
Proof. exact (pairwise_app (fun e => ev_off e <= ev_end e) (fun e b => compatible e b = true) a b). Qed.

Lemma ok_events_from_okp evs : forall seen,
  okp evs -> Forall (fun b => Forall (fun a => compatible a b = true) seen) evs -> ok_events_from seen evs = true.
Proof.
  induction evs as [|e rest IH]; intros seen Hok Hseen; [reflexivity|].
  simpl in Hok. destruct Hok as (H1 & H2 & H3). inversion Hseen as [|? ? Hs1 Hs2]; subst.
  simpl. rewrite !andb_true_iff. repeat split.
  - apply Z.leb_le. exact H1.
  - apply forallb_forall. rewrite Forall_forall in Hs1. exact Hs1.
  - apply IH; [exact H3|]. rewrite Forall_forall in *. intros b Hb. constructor; [apply H2; exact Hb|].
    apply Hs2. exact Hb.
Qed.

Lemma okp_ok_events evs : okp evs -> ok_events evs = true.
Proof.
  intros H. apply ok_events_from_okp; [exact H|]. apply Forall_forall. intros b _. constructor.
Qed.

(* inside [lo, hi], or the empty range at the following token *)
Definition evb (lo hi aft : Z) (e : event) : Prop :=
  (lo <= ev_off e /\ ev_off e <= ev_end e /\ ev_end e <= hi) \/ (ev_off e = aft /\ ev_end e = aft).

Definition evs_in (S : range) (aft : Z) (evs : list event) : Prop := Forall (evb (fst S) (snd S) aft) evs.

(* two adjacent parts with spans (a1, a2), followed by b1, and (b1, b2), followed by aft; c2 ends their union: a2
   when the second part has no token (then b1 = b2 = aft), b2 otherwise *)
Lemma evb_parts a1 a2 b1 b2 c2 aft : a1 <= a2 <= b1 -> b1 <= b2 <= aft ->
  (b1 = aft /\ b2 = aft /\ c2 = a2) \/ c2 = b2 ->
  (forall x, evb a1 a2 b1 x -> evb a1 c2 aft x) /\
  (forall y, evb b1 b2 aft y -> evb a1 c2 aft y) /\
  (forall x y, evb a1 a2 b1 x -> evb b1 b2 aft y -> ev_end x <= ev_off y).
Proof. unfold evb. intros Ha Hb Hc. repeat split; intros; lia. Qed.

Lemma span_app_evb (a b : list range) aft : wordered (a ++ b) aft ->
  let A := span_of a (fst (span_of b aft)) in let B := span_of b aft in let C := span_of (a ++ b) aft in
  (forall x, evb (fst A) (snd A) (fst B) x -> evb (fst C) (snd C) aft x) /\
  (forall y, evb (fst B) (snd B) aft y -> evb (fst C) (snd C) aft y) /\
  (forall x y, evb (fst A) (snd A) (fst B) x -> evb (fst B) (snd B) aft y -> ev_end x <= ev_off y).
Proof.
  intros Hw. apply wordered_app in Hw. destruct Hw as [Ha Hb]. cbv zeta. rewrite span_app. cbn [fst snd].
  apply evb_parts; [exact (wordered_span _ _ Ha)|exact (wordered_span _ _ Hb)|].
  destruct b; [left; repeat split|right]; reflexivity.
Qed.

Lemma nest_app (a b : list range) aft xs ys : wordered (a ++ b) aft ->
  okp xs /\ evs_in (span_of a (fst (span_of b aft))) (fst (span_of b aft)) xs ->
  okp ys /\ evs_in (span_of b aft) aft ys ->
  okp (xs ++ ys) /\ evs_in (span_of (a ++ b) aft) aft (xs ++ ys).
Proof.
  intros Hw [Ox Ix] [Oy Iy]. destruct (span_app_evb a b aft Hw) as (C1 & C2 & C3). cbv zeta in *. unfold evs_in in *. split.
  - apply okp_app. split; [exact Ox|]. split; [exact Oy|].
    eapply Forall_impl; [|exact Ix]. intros x Hx. eapply Forall_impl; [|exact Iy]. intros y Hy.
    apply compatible_iff. left. exact (C3 x y Hx Hy).
  - apply Forall_app. split; [eapply Forall_impl; [exact C1|exact Ix]|eapply Forall_impl; [exact C2|exact Iy]].
Qed.

Lemma evb_container lo hi aft ty x : evb lo hi aft x -> hi <= aft -> compatible x (ty, lo, hi) = true.
Proof. unfold evb. intros Hx Hh. apply compatible_iff. unfold ev_off, ev_end in *. cbn [fst snd]. lia. Qed.

(* children s .. e-1 of a node: their span is what an arrow over them reports; located: an event lies with them *)
Definition part_span (ch : list tree) (aft : Z) (s e : nat) : range :=
  span_of (forest_leaves (seg ch s e)) (start_of (skipn e ch) aft).

Definition located (ch : list tree) (aft : Z) (s e : nat) (x : event) : Prop :=
  evb (fst (part_span ch aft s e)) (snd (part_span ch aft s e)) (start_of (skipn e ch) aft) x.

Lemma arrow_event_span ch aft s e ty :
  arrow_event ch aft (s, e, ty) = (ty, fst (part_span ch aft s e), snd (part_span ch aft s e)).
Proof. unfold arrow_event, part_span, seg. destruct (span_of _ _). reflexivity. Qed.

Section Parts.
Variable ch : list tree.
Variable aft : Z.
Hypothesis Hw : wordered (forest_leaves ch) aft.

Lemma part_span_ok s e : (s <= e)%nat ->
  fst (part_span ch aft s e) <= snd (part_span ch aft s e) <= start_of (skipn e ch) aft.
Proof. intros Hse. apply wordered_span, (forest_segment wordered wordered_split); assumption. Qed.

Lemma loc_adjacent i j k : (i <= j)%nat -> (j <= k)%nat ->
  (forall x, located ch aft i j x -> located ch aft i k x) /\
  (forall y, located ch aft j k y -> located ch aft i k y) /\
  (forall x y, located ch aft i j x -> located ch aft j k y -> ev_end x <= ev_off y).
Proof.
  intros Hij Hjk. pose proof (forest_segment wordered wordered_split ch aft i k ltac:(lia) Hw) as Hik.
  unfold located, part_span. rewrite (seg_app ch i j k Hij Hjk), forest_leaves_app in *.
  rewrite (skipn_seg ch j k Hjk), start_of_app. exact (span_app_evb _ _ _ Hik).
Qed.

Lemma loc_widen s' s e e' x : (s' <= s)%nat -> (s <= e)%nat -> (e <= e')%nat -> located ch aft s e x -> located ch aft s' e' x.
Proof.
  intros H1 H2 H3 Hx. apply (proj1 (proj2 (loc_adjacent s' s e' H1 ltac:(lia)))).
  apply (proj1 (loc_adjacent s e e' H2 H3)). exact Hx.
Qed.

Lemma loc_before s1 e1 s2 e2 x y : (s1 <= e1)%nat -> (e1 <= s2)%nat -> (s2 <= e2)%nat ->
  located ch aft s1 e1 x -> located ch aft s2 e2 y -> ev_end x <= ev_off y.
Proof.
  intros H1 H2 H3 Hx Hy. apply (proj2 (proj2 (loc_adjacent s1 e1 e2 H1 ltac:(lia))) x y Hx).
  apply (loc_widen e1 s2 e2 e2); auto.
Qed.

Lemma loc_arrow s e ty : (s <= e)%nat -> located ch aft s e (arrow_event ch aft (s, e, ty)).
Proof.
  intros Hse. pose proof (part_span_ok s e Hse) as H. rewrite arrow_event_span. left.
  unfold ev_off, ev_end. cbn [fst snd]. lia.
Qed.

Lemma loc_inside_arrow s e ty x : (s <= e)%nat -> located ch aft s e x -> compatible x (arrow_event ch aft (s, e, ty)) = true.
Proof.
  intros Hse Hx. rewrite arrow_event_span. apply (evb_container _ _ _ ty x Hx). apply part_span_ok. exact Hse.
Qed.

Lemma loc_compat s1 e1 s2 e2 ty x : (s1 <= e1)%nat -> (s2 <= e2)%nat ->
  (e1 <= s2 \/ e2 <= s1 \/ (s2 <= s1 /\ e1 <= e2))%nat -> located ch aft s1 e1 x ->
  compatible x (arrow_event ch aft (s2, e2, ty)) = true.
Proof.
  intros H1 H2 [Hc|[Hc|[Hc1 Hc2]]] Hx.
  - apply compatible_iff. left. apply (loc_before s1 e1 s2 e2); auto using loc_arrow.
  - apply compatible_iff. right. left. apply (loc_before s2 e2 s1 e1); auto using loc_arrow.
  - apply loc_inside_arrow; [exact H2|]. apply (loc_widen s2 s1 e1 e2); auto.
Qed.

Lemma loc_whole s e x : (s <= e)%nat -> (e <= length ch)%nat -> located ch aft s e x ->
  evb (fst (span_of (forest_leaves ch) aft)) (snd (span_of (forest_leaves ch) aft)) aft x.
Proof.
  intros Hse Hel Hx. apply (loc_widen O s e (length ch)) in Hx; [|lia|assumption|assumption].
  unfold located, part_span, seg in Hx. rewrite Nat.sub_0_r, skipn_all, firstn_all in Hx. exact Hx.
Qed.

End Parts.

Definition rep_in (n : nat) (rep : nat * nat * Z) : Prop := let '(s, e, _) := rep in (s <= e)%nat /\ (e <= n)%nat.

Lemma wf_arrows_in evt rl r ch : wf_tree evt rl (TNode r ch) ->
  Forall (rep_in (length ch)) (arrows_at (arrows_of_ev rl evt) r).
Proof.
  intros Hw. inversion Hw as [| ? ? _ Hr0 Hlen Hreps _]; subst. rewrite (arrows_at_of_ev _ _ _ Hr0). apply Forall_app. split.
  - eapply Forall_impl; [|exact Hreps]. intros [[s e] ty] (H1 & H2 & _). split; assumption.
  - destruct (er_type (ev_at evt r) =? 0); constructor; [|constructor]. simpl. lia.
Qed.

Lemma reps_nested_snoc l x : reps_nested l -> Forall (fun a => rep_compat a x) l -> reps_nested (l ++ [x]).
Proof.
  induction l as [|a l IH]; intros Hn Hx; simpl; [split; [constructor|exact I]|].
  destruct Hn as [Hn1 Hn2]. inversion Hx; subst. split; [apply Forall_app; split; [exact Hn1|constructor; [assumption|constructor]]|].
  apply IH; assumption.
Qed.

Lemma wordered_repeat E k : wordered (repeat (E, E) k) E /\ fst (span_of (repeat (E, E) k) E) = E.
Proof.
  induction k as [|k [IH1 IH2]]; [split; [exact I|reflexivity]|]. split; [|reflexivity].
  simpl. rewrite IH2. repeat split; [lia|lia|exact IH1].
Qed.

Lemma next_off_span E inp : t_off (next_tok E inp) = fst (span_of (map tok_range inp) E).
Proof. destruct inp as [|t rest]; reflexivity. Qed.

Definition is_leaf (t : tree) : Prop := match t with TLeaf _ _ _ => True | TNode _ _ => False end.

Section Nest.
Variable evt : ev_table.
Variable rl : Z -> Z.
Notation arrows := (arrows_of_ev rl evt).
Hypothesis Hnested : nested_table evt.

Definition nest_at (t : tree) : Prop :=
  wf_tree evt rl t -> forall aft, ordered (leaves t) aft ->
  okp (spec_events arrows t aft) /\ evs_in (span_of (leaves t) aft) aft (spec_events arrows t aft).

Lemma forest_nest ch : Forall nest_at ch -> Forall (wf_tree evt rl) ch ->
  forall aft, ordered (forest_leaves ch) aft ->
  (okp (fcat (spec_events arrows) aft ch) /\ evs_in (span_of (forest_leaves ch) aft) aft (fcat (spec_events arrows) aft ch)) /\
  Forall (fun x => exists i, located ch aft i (S i) x) (fcat (spec_events arrows) aft ch).
Proof.
  induction ch as [|c rest IH]; intros Hn Hw aft Ho.
  - repeat split; constructor.
  - inversion Hn as [|? ? Hnc Hnr]; subst. inversion Hw as [|? ? Hwc Hwr]; subst.
    change (forest_leaves (c :: rest)) with (leaves c ++ forest_leaves rest) in *.
    destruct (proj1 (ordered_app _ _ _) Ho) as [Hoc Hor].
    specialize (Hnc Hwc _ Hoc). destruct (IH Hnr Hwr _ Hor) as [Nr Lr]. split.
    + apply nest_app; [apply ordered_wordered; exact Ho|exact Hnc|exact Nr].
    + apply Forall_app. split.
      * eapply Forall_impl; [|exact (proj2 Hnc)]. intros x Hx. exists O.
        unfold located, part_span, seg, forest_leaves. cbn [Nat.sub skipn firstn flat_map]. rewrite app_nil_r. exact Hx.
      * eapply Forall_impl; [|exact Lr]. intros x [i Hx]. exists (S i). exact Hx.
Qed.

Theorem tree_nest t : nest_at t.
Proof.
  induction t as [s o e | r ch IH] using tree_ind2; intros Hw aft Ho.
  - simpl. split; [exact I|constructor].
  - pose proof (wf_arrows_in _ _ _ _ Hw) as Hin. inversion Hw as [| ? ? Hwch Hr0 Hlen Hreps Hlast]; subst.
    rewrite leaves_node in *. rewrite spec_events_node. rewrite (arrows_at_of_ev _ _ _ Hr0) in *.
    set (ars := er_reports (ev_at evt r) ++
                (if er_type (ev_at evt r) =? 0 then [] else [(O, Z.to_nat (rl r), er_type (ev_at evt r))])) in *.
    assert (Hne : reps_nested ars).
    { unfold ars. destruct (er_type (ev_at evt r) =? 0).
      - rewrite app_nil_r. apply nested_table_at. exact Hnested.
      - apply reps_nested_snoc; [apply nested_table_at; exact Hnested|].
        eapply Forall_impl; [|exact Hreps]. intros [[s e] ty] (H1 & H2 & _). simpl. lia. }
    clearbody ars. pose proof (ordered_wordered _ _ Ho) as Hwo.
    destruct (forest_nest ch IH Hwch aft Ho) as [[Okf Inf] Locf].
    assert (Oka : okp (map (arrow_event ch aft) ars)).
    { clear Locf. induction ars as [|[[s1 e1] t1] ars IHa]; [exact I|].
      inversion Hin as [|? ? Ha Hrest]; subst. destruct Ha as [Ha1 Ha2]. destruct Hne as [Hne1 Hne2]. cbn [map okp]. split; [|split; [|apply IHa; assumption]].
      - pose proof (part_span_ok ch aft Hwo s1 e1 Ha1) as Hs. rewrite arrow_event_span. unfold ev_off, ev_end. cbn [fst snd]. lia.
      - apply Forall_map. rewrite Forall_forall in *. intros [[s2 e2] t2] Hy.
        apply (loc_compat ch aft Hwo s1 e1); [exact Ha1|apply (Hrest _ Hy)|exact (Hne1 _ Hy)|apply loc_arrow; assumption]. }
    split.
    + apply okp_app. split; [exact Okf|]. split; [exact Oka|].
      eapply Forall_impl; [|exact Locf]. intros x [i Hx]. apply Forall_map.
      eapply Forall_impl; [|exact Hin]. intros [[s e] ty] [H1 _]. apply (loc_compat ch aft Hwo i (S i)); auto; lia.
    + unfold evs_in. apply Forall_app. split; [exact Inf|]. apply Forall_map.
      eapply Forall_impl; [|exact Hin]. intros [[s e] ty] [H1 H2]. apply (loc_whole ch aft Hwo s e); auto. apply loc_arrow; assumption.
Qed.

Lemma sok_nest E : forall st aft evs lvs, sok evt true st aft evs lvs ->
  Forall (fun e => wf_tree evt rl (x_tree e)) st ->
  Forall (fun e => is_leaf (x_tree e) \/ ~ In (E, E) (leaves (x_tree e))) st ->
  Forall (fun r => fst r < snd r \/ r = (E, E)) lvs ->
  wordered lvs aft ->
  okp evs /\ evs_in (span_of lvs aft) aft evs.
Proof.
  intros st aft evs lvs Hs. induction Hs as [b after | e rest after evs_b lvs_b evs_e Hrest IH Hrun];
    intros Hwf Hlf Hne Hw.
  - split; [exact I|constructor].
  - inversion Hwf as [|? ? Hwe Hwr]; subst. inversion Hlf as [|? ? Hle Hlr]; subst.
    apply Forall_app in Hne. destruct Hne as [Hne_b Hne_e].
    rewrite start_of_single in IH. destruct (proj1 (wordered_app _ _ _) Hw) as [Hw_b Hw_e].
    apply nest_app; [exact Hw|exact (IH Hwr Hlr Hne_b Hw_b)|].
    destruct (x_tree e) as [s o en | r ch] eqn:Et.
    + apply (f_equal snd) in Hrun. simpl in Hrun. subst evs_e. split; [exact I|constructor].
    + destruct Hle as [[]|Hle].
      assert (Ho : ordered (leaves (TNode r ch)) after).
      { apply wordered_ne; [exact Hw_e|]. rewrite Forall_forall in *. intros x Hx.
        destruct (Hne_e x Hx) as [H|H]; [exact H|]. subst x. contradiction. }
      rewrite (tree_run_strict evt rl _ Hwe _ Ho) in Hrun. apply (f_equal snd) in Hrun. simpl in Hrun. subst evs_e.
      exact (tree_nest _ Hwe _ Ho).
Qed.

End Nest.

Lemma xinv_leaves evt fixws E input0 c lvs k :
  xinv evt fixws E input0 c lvs k -> ordered (map tok_range input0) E ->
  wordered lvs (next_off E c) /\ next_off E c <= E /\
  Forall (fun r => (fst r < snd r /\ In r (map tok_range input0)) \/ r = (E, E)) (lvs ++ map tok_range (xc_input c)).
Proof.
  intros (_ & _ & Hstream & _) Hord. unfold next_off. rewrite next_off_span, Hstream.
  assert (W : wordered (map tok_range input0 ++ repeat (E, E) k) E).
  { apply wordered_app. destruct (wordered_repeat E k) as [W1 W2]. rewrite W2. split; [apply ordered_wordered; exact Hord|exact W1]. }
  rewrite <- Hstream in W. apply wordered_app in W. destruct W as [W1 W2].
  split; [exact W1|]. split; [pose proof (wordered_span _ _ W2); lia|]. apply Forall_app. split.
  - pose proof (ordered_bounds _ _ Hord) as Hb. rewrite Forall_forall in *. intros r Hr. left. split; [apply (Hb r Hr)|exact Hr].
  - apply Forall_forall. intros r Hr. right. apply repeat_spec in Hr. exact Hr.
Qed.

(* the events of a reduction are the arrows of the new node over the trees it pops *)
Lemma reduce_arrows evt rl st N evs0 lvs ln rule off endoff evs endoff' :
  sok evt true st N evs0 lvs -> (ln < length st)%nat ->
  let rhs := rev (firstn ln st) in let ch := map x_tree rhs in
  lhs_range (map range_of rhs) N = (off, endoff) ->
  apply_rule true (ev_at evt rule) (map range_of rhs) off endoff = (evs, endoff') ->
  wf_tree evt rl (TNode rule ch) -> ordered (forest_leaves ch) N ->
  evs = map (arrow_event ch N) (arrows_at (arrows_of_ev rl evt) rule) /\ exists lvs_b, lvs = lvs_b ++ forest_leaves ch.
Proof.
  intros Hs Hln rhs ch Elhs Eapp Hwf Ho.
  destruct (sok_split _ _ _ _ _ _ _ Hs Hln) as (evs_b & lvs_b & _ & _ & Elvs & Eranges). fold rhs ch in Elvs, Eranges.
  split; [|exists lvs_b; exact Elvs].
  pose proof (tree_run_strict evt rl _ Hwf N Ho) as Hrun. rewrite tree_run_node in Hrun. cbv zeta in Hrun.
  rewrite Eranges, Elhs, Eapp in Hrun. apply (f_equal snd) in Hrun. cbn [snd] in Hrun. rewrite spec_events_node in Hrun.
  inversion Hwf as [|? ? Hwch _ _ _ _]; subst. rewrite (proj2 (forest_strict evt rl ch N Hwch Ho)) in Hrun.
  exact (app_inv_head _ _ _ Hrun).
Qed.

Lemma xrun_events_okp m evt rl eoi_off fuel start end_state input o c' :
  nested_table evt ->
  Forall (fun t => t_sym t <> 0) input ->
  ordered (map tok_range input) eoi_off ->
  Forall (fun t => 0 <= t_off t) input -> 0 <= eoi_off ->
  xrun fuel m evt true start end_state eoi_off input = (o, c') ->
  Forall (fun e => wf_tree evt rl (x_tree e)) (xc_stack c') ->
  Forall (fun e => is_leaf (x_tree e) \/ ~ In (eoi_off, eoi_off) (leaves (x_tree e))) (xc_stack c') ->
  okp (xc_events c') /\ Forall (fun ev => 0 <= ev_off ev /\ ev_end ev <= eoi_off) (xc_events c').
Proof.
  intros Hnest Hnz Hord Hpos Hpos0 Hrun Hwf Hlf.
  destruct (xrun_inv _ _ _ _ _ _ _ _ _ _ _ _ (xinv_init evt true eoi_off start input Hnz) Hrun) as (lvs & k & Hinv).
  destruct (xinv_leaves _ _ _ _ _ _ _ Hinv Hord) as (W & Ha1 & L). destruct Hinv as (_ & Hs & _).
  assert (P : Forall (fun r => 0 <= fst r) (lvs ++ map tok_range (xc_input c'))).
  { eapply Forall_impl; [|exact L]. intros r [[_ Hr]| ->]; [|exact Hpos0].
    apply in_map_iff in Hr. destruct Hr as (t & <- & Ht). rewrite Forall_forall in Hpos. exact (Hpos t Ht). }
  apply Forall_app in L, P. destruct L as [L _], P as [P1 P2]. unfold next_off in *. rewrite next_off_span in *.
  pose proof (span_fst_ge 0 _ _ P2 Hpos0) as Ha0. pose proof (span_fst_ge 0 _ _ P1 Ha0) as Hl0.
  pose proof (wordered_span _ _ W) as Hl1.
  assert (N : Forall (fun r => fst r < snd r \/ r = (eoi_off, eoi_off)) lvs) by (eapply Forall_impl; [|exact L]; tauto).
  destruct (sok_nest evt rl Hnest eoi_off _ _ _ _ Hs Hwf Hlf N W) as [Ok In].
  split; [exact Ok|]. eapply Forall_impl; [|exact In]. unfold evb. intros ev Hev. lia.
Qed.

(* the end-of-input leaf is only a stack entry of its own, if EOI is only shifted into the end state *)
Definition eoi_stops (m : machine) (end_state : Z) : Prop := forall s more q, m_act m s 0 more = Shift q -> q = end_state.

Section EoiLeaf.
Variable m : machine.
Variable evt : ev_table.
Variable fixws : bool.
Variable E : Z.
Variable end_state : Z.
Hypothesis Heoi : eoi_stops m end_state.

Definition no_eoi_leaf (t : tree) : Prop := ~ In (E, E) (leaves t).

Inductive above_ok : list xentry -> Prop :=
| ab_bot b : is_leaf (x_tree b) -> above_ok [b]
| ab_cons e rest : no_eoi_leaf (x_tree e) -> above_ok rest -> above_ok (e :: rest).

Definition weak_ok (st : list xentry) : Prop := Forall (fun e => is_leaf (x_tree e) \/ no_eoi_leaf (x_tree e)) st.

Lemma above_weak st : above_ok st -> weak_ok st.
Proof. induction 1; constructor; auto; constructor. Qed.

Lemma above_skipn n : forall st, above_ok st -> (n < length st)%nat -> above_ok (skipn n st).
Proof.
  induction n as [|n IH]; intros st H Hl; [exact H|]. inversion H; subst; simpl in Hl; [lia|]. simpl. apply IH; [assumption|lia].
Qed.

Lemma above_firstn_noE n : forall st, above_ok st -> (n < length st)%nat ->
  ~ In (E, E) (forest_leaves (map x_tree (rev (firstn n st)))).
Proof.
  induction n as [|n IH]; intros st H Hl; [intros []|]. inversion H; subst; simpl in Hl; [lia|].
  simpl. rewrite map_app, forest_leaves_app. intros Hin. apply in_app_or in Hin. destruct Hin as [Hin|Hin].
  - revert Hin. apply IH; [assumption|lia].
  - unfold forest_leaves in Hin. simpl in Hin. rewrite app_nil_r in Hin. contradiction.
Qed.

Lemma xstep_eoi_leaf c c' : xc_state c <> end_state -> above_ok (xc_stack c) ->
  Forall (fun t => t_off t < t_end t) (xc_input c) ->
  xstep m evt fixws E c = XContinue c' ->
  (above_ok (xc_stack c') \/ (xc_state c' = end_state /\ weak_ok (xc_stack c'))) /\
  Forall (fun t => t_off t < t_end t) (xc_input c').
Proof.
  intros Hne Hab Htok Hstep.
  destruct (xstep_cases _ _ _ _ _ _ Hstep) as [(q & Eact & ->)|(rule & off & endoff & evs & endoff' & st & _ & El & _ & _ & ->)];
    cbv zeta in *; cbn [xc_stack xc_state xc_input].
  - destruct (t_sym (next_tok E (xc_input c)) =? 0) eqn:E0.
    + apply Z.eqb_eq in E0. rewrite E0 in Eact. split; [|exact Htok]. right. split; [exact (Heoi _ _ _ Eact)|].
      constructor; [left; exact I|apply above_weak; exact Hab].
    + destruct (xc_input c) as [|t rest]; [discriminate E0|]. inversion Htok as [|? ? Ht Hrest]; subst. split; [|exact Hrest].
      left. constructor; [|exact Hab]. unfold no_eoi_leaf. simpl. intros [H|[]]. injection H as H1 H2. lia.
  - split; [|exact Htok]. left. constructor; [|apply above_skipn; assumption].
    unfold no_eoi_leaf. cbn [x_tree]. rewrite leaves_node. apply above_firstn_noE; assumption.
Qed.

Lemma xrun_eoi_leaf fuel c o c' : above_ok (xc_stack c) ->
  Forall (fun t => t_off t < t_end t) (xc_input c) ->
  xrun_loop fuel m evt fixws E end_state c = (o, c') -> weak_ok (xc_stack c').
Proof.
  intros Hab Htok Hrun.
  set (I := fun c => (above_ok (xc_stack c) \/ (xc_state c = end_state /\ weak_ok (xc_stack c))) /\
                     Forall (fun t => t_off t < t_end t) (xc_input c)).
  assert (H : I c').
  { apply (xrun_loop_inv m evt fixws E I end_state) with (fuel := fuel) (c := c) (o := o);
      [|split; [left; exact Hab|exact Htok]|exact Hrun].
    intros c0 c1 [[Hab0|[He _]] Htok0] Hne Es; [|contradiction]. exact (xstep_eoi_leaf _ _ Hne Hab0 Htok0 Es). }
  destruct H as [[H|[_ H]] _]; [apply above_weak|]; exact H.
Qed.

End EoiLeaf.

Lemma xrun_eoi_leaf_only m evt fixws eoi_off fuel start end_state input o c' :
  eoi_stops m end_state -> ordered (map tok_range input) eoi_off ->
  xrun fuel m evt fixws start end_state eoi_off input = (o, c') ->
  Forall (fun e => is_leaf (x_tree e) \/ ~ In (eoi_off, eoi_off) (leaves (x_tree e))) (xc_stack c').
Proof.
  intros Heoi Hord Hrun. eapply (xrun_eoi_leaf m evt fixws eoi_off end_state Heoi); [| |exact Hrun].
  - constructor. exact I.
  - apply ordered_bounds, Forall_map in Hord. eapply Forall_impl; [|exact Hord]. intros t Ht. apply Ht.
Qed.
