(* C29, runtime lookaheads: cancellable parsers whose grammar has (?= ...) lookaheads (go_parser.go.tmpl:
   "lookaheadFunc", "lookaheadRule", "lookaheadMethods", the lookahead cases of "applyRule"; the hand-written loop of
   parsers/js/parser_impl.go has the same structure).  The lookahead sub-parse lookahead() is a run of the same
   table-driven loop on a copy of the input starting at the current token, without listener events; it increments the
   SAME session counter (s.shiftCounter) on every shift attempt and polls the context with the same test
   (counter & 0x1ff == 0).  A poll that finds the context done makes lookahead() return (false, ctx.Err()), which
   At<X> / lookaheadRule / applyRule hand up unchanged, and parse returns it.
   With recursiveLookaheads a lookahead rule reduced INSIDE lookahead() is resolved by lookaheadRule (nested
   lookahead sub-parses) and results are memoized in s.cache under (offset of the next token, final state).
   ls_ticks records every counter increment with the nesting depth at which it happened (0 = main loop).
   rho n = "the context is done when polled at counter value n" (arbitrary oracle).  Executable definitions only. *)
From Coq Require Import List ZArith Bool Arith.
From TM Require Import Gram.PTables Gram.Run Gram.Events Gram.Cancel.
Import ListNotations.
Local Open Scope Z_scope.

(* lalr.LookaheadRule: cases tried in order, a case holds when its lookahead answers [negb negated] *)
Record la_case := mkLaCase { lc_input : Z; lc_negated : bool; lc_target : Z }.
Record la_rule := mkLaRule { lr_cases : list la_case; lr_default : Z }.

Record la_tables := mkLaTables {
  lt_rule : Z -> option la_rule;     (* Tables.Lookaheads by rule index (rules numbered after the ordinary ones) *)
  lt_final : Z -> Z;                 (* Tables.FinalStates by input; the start state of an input is its index *)
  lt_recursive : bool;               (* option recursiveLookaheads *)
  lt_depth : nat                     (* Tables.UsedLADepth: how many terminals after the next one an LALR(k) row may
                                        inspect (0 for LALR(1) tables); only these are handed to m_act *)
}.

(* the session: shift counter, memoization cache (offset, final state) -> answer, and the tick log *)
Record lstate := mkLS { ls_counter : Z; ls_cache : list (Z * Z * bool); ls_ticks : list Z }.

Definition tick (depth : Z) (s : lstate) : lstate :=
  mkLS (ls_counter s + 1) (ls_cache s) (depth :: ls_ticks s).

Fixpoint cache_find (off final : Z) (c : list (Z * Z * bool)) : option bool :=
  match c with
  | [] => None
  | (o, e, b) :: rest => if (o =? off) && (e =? final) then Some b else cache_find off final rest
  end.

Definition cache_add (off final : Z) (b : bool) (s : lstate) : lstate :=
  mkLS (ls_counter s) ((off, final, b) :: ls_cache s) (ls_ticks s).

(* result of a lookahead sub-parse: its answer, or the whole parse is aborted (context error; crash / fuel) *)
Inductive lres := LBool (b : bool) | LAbort (o : coutcome).
(* result of a chain of lookahead cases: the target symbol, or abort *)
Inductive cres := CSym (sym : Z) | CAbort (o : coutcome).

(* the chain "if ok, err = AtA(..); ok {..} else if err != nil {return} else if ok, err = AtB(..); !ok {..} else {..}" *)
Fixpoint eval_cases (lk : Z -> Z -> lstate -> lres * lstate) (final : Z -> Z) (cases : list la_case) (default : Z)
    (s : lstate) : cres * lstate :=
  match cases with
  | [] => (CSym default, s)
  | c :: rest =>
      match lk (lc_input c) (final (lc_input c)) s with
      | (LBool b, s') =>
          if xorb b (lc_negated c) then (CSym (lc_target c), s') else eval_cases lk final rest default s'
      | (LAbort o, s') => (CAbort o, s')
      end
  end.

(* memoization wrapper of lookahead() (only with recursiveLookaheads); a cancelled sub-parse is not memoized *)
Definition look_memo (recursive : bool) (key final : Z) (run : lstate -> lres * lstate) (s : lstate) : lres * lstate :=
  if recursive then
    match cache_find key final (ls_cache s) with
    | Some b => (LBool b, s)
    | None =>
        match run s with
        | (LBool b, s') => (LBool b, cache_add key final b s')
        | r => r
        end
    end
  else run s.

Section Loop.
Variable m : machine.
Variable lt : la_tables.
Variable attempts : Z -> Z -> bool.
Variable eoi_off : Z.
Variable rho : Z -> bool.

(* for state != end { ... } of lookahead(); the stack holds states only, top first *)
Fixpoint look_loop (fuel : nat) (depth end_state : Z) (stack : list Z) (state : Z) (input : list tok) (s : lstate)
    {struct fuel} : lres * lstate :=
  match fuel with
  | O => (LAbort (Plain OutOfFuel), s)
  | S f =>
      if state =? end_state then (LBool true, s)
      else
        let nx := next_tok eoi_off input in
        let att := attempts state (t_sym nx) in
        let s1 := if att then tick depth s else s in
        if att && polls (ls_counter s1) && rho (ls_counter s1) then (LAbort CtxErr, s1)
        else
          match m_act m state (t_sym nx) (map t_sym (firstn (lt_depth lt) (tl input))) with
          | Reduce rule =>
              let ln := Z.to_nat (m_rule_len m rule) in
              if (length stack <=? ln)%nat then (LAbort (Plain (Crash 2)), s1)
              else
                let rest := skipn ln stack in
                let below := hd (-1) rest in
                let go (sym : Z) (s2 : lstate) :=
                  let st := m_goto m below sym in
                  if st =? -1 then (LBool false, s2)
                  else look_loop f depth end_state (st :: rest) st input s2 in
                match (if lt_recursive lt then lt_rule lt rule else None) with
                | Some lr =>
                    match eval_cases
                            (fun start en s' =>
                               look_memo true (t_off nx) en
                                         (fun s'' => look_loop f (depth + 1) en [start] start input s'') s')
                            (lt_final lt) (lr_cases lr) (lr_default lr) s1 with
                    | (CSym sym, s2) => go sym s2
                    | (CAbort o, s2) => (LAbort o, s2)
                    end
                | None => go (m_rule_sym m rule) s1
                end
          | Shift st =>
              look_loop f depth end_state (st :: stack) st (if t_sym nx =? 0 then input else tl input) s1
          | _ => (LBool false, s1)
          end
  end.

(* At<X>(ctx, lexer, p.next, s) called from applyRule: depth 1 *)
Definition look_top (lfuel : nat) (input : list tok) (start en : Z) (s : lstate) : lres * lstate :=
  look_memo (lt_recursive lt) (t_off (next_tok eoi_off input)) en
            (fun s' => look_loop lfuel 1 en [start] start input s') s.

Record lconfig := mkLC { lc_s : lstate; lc_x : xconfig }.
Inductive lstep_result := LContinue (c : lconfig) | LStop (o : coutcome) (s : lstate).

(* applyRule of a lookahead rule: lhs.sym.symbol = target *)
Definition with_sym (rule sym : Z) : machine :=
  mkMachine (m_act m) (m_goto m) (m_rule_len m) (fun r => if r =? rule then sym else m_rule_sym m r).

Definition lstep (lfuel : nat) (evt : ev_table) (fixws : bool) (c : lconfig) : lstep_result :=
  let x := lc_x c in
  let nx := next_tok eoi_off (xc_input x) in
  let att := attempts (xc_state x) (t_sym nx) in
  let s1 := if att then tick 0 (lc_s c) else lc_s c in
  if att && polls (ls_counter s1) && rho (ls_counter s1) then LStop CtxErr s1
  else
    let plain (m' : machine) (s2 : lstate) :=
      match xstep m' evt fixws eoi_off x with
      | XContinue x' => LContinue (mkLC s2 x')
      | XStop o => LStop (Plain o) s2
      end in
    match m_act m (xc_state x) (t_sym nx) (map t_sym (firstn (lt_depth lt) (tl (xc_input x)))) with
    | Reduce rule =>
        match lt_rule lt rule with
        | Some lr =>
            match eval_cases (look_top lfuel (xc_input x)) (lt_final lt) (lr_cases lr) (lr_default lr) s1 with
            | (CSym sym, s2) => plain (with_sym rule sym) s2
            | (CAbort o, s2) => LStop o s2
            end
        | None => plain m s1
        end
    | _ => plain m s1
    end.

(* returns the outcome, the configuration at which the loop stopped (before the step that stopped it) and the
   session at that moment (its counter and ticks include the shift attempts of an aborted lookahead) *)
Fixpoint lrun_loop (fuel lfuel : nat) (evt : ev_table) (fixws : bool) (end_state : Z) (c : lconfig)
    : coutcome * lconfig * lstate :=
  match fuel with
  | O => (Plain OutOfFuel, c, lc_s c)
  | S f =>
      if xc_state (lc_x c) =? end_state then (Plain Accept, c, lc_s c)
      else match lstep lfuel evt fixws c with
           | LContinue c' => lrun_loop f lfuel evt fixws end_state c'
           | LStop o s => (o, c, s)
           end
  end.

Definition lrun (fuel lfuel : nat) (evt : ev_table) (fixws : bool) (start end_state : Z) (input : list tok)
    : coutcome * lconfig * lstate :=
  lrun_loop fuel lfuel evt fixws end_state
            (mkLC (mkLS 0 [] []) (mkXC [mkX 0 0 0 start (TLeaf 0 0 0)] start input [])).

End Loop.

(* the oracle of a context that is never cancelled *)
Definition never : Z -> bool := fun _ => false.

(* nesting depths at which the polls happened (most recent first): the ticks whose number is a multiple of 512;
   n = number of the head tick (the counter, by the fourth conjunct of Cancel_proofs.la_cancel_bounded, C29_lookaheads_cancel_bounded) *)
Fixpoint poll_depths_from (n : Z) (ticks : list Z) : list Z :=
  match ticks with
  | [] => []
  | d :: rest => if polls n then d :: poll_depths_from (n - 1) rest else poll_depths_from (n - 1) rest
  end.
Definition poll_depths (s : lstate) : list Z := poll_depths_from (ls_counter s) (ls_ticks s).
