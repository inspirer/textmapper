(* C03: lr1_valid (closure rule split in a FIRST(beta) part and an inherited part) against the textbook
   lr1_valid_tb: included; equal when every symbol used in a rule is nullable or has a FIRST; not what the
   reference (and textmapper) computes on a grammar with a non-productive nonterminal. *)
From Coq Require Import List ZArith Lia.
From TM Require Import Lib.ListX Gram.Cfg Gram.Cfg_proofs Gram.LalrRef Gram.LalrSpec Gram.LalrSpec_proofs Gram.LalrCert Gram.LalrClosure_proofs.
Import ListNotations.
Local Open Scope Z_scope.

Lemma tb_included g i gamma it x : lr1_valid_tb g i gamma it x -> lr1_valid g i gamma it x.
Proof.
  induction 1 as [nt eoi r x Hi Hinp Hr Hx|gamma it x B r b H IH Es Et Hr Hb|gamma it x X H IH Es].
  - eapply lv_start; eauto.
  - destruct Hb as [Hb|[Hn ->]].
    + eapply lv_closure_first; eauto. eapply lr1_lr0; eauto.
    + eapply lv_closure_la; eauto.
  - apply lv_goto; auto.
Qed.

Lemma tb_lr0 g i gamma it x : lr1_valid_tb g i gamma it x -> lr0_valid g i gamma it.
Proof. intros H. eapply lr1_lr0, tb_included, H. Qed.

Lemma tb_equal g i :
  (forall gamma it, lr0_valid g i gamma it -> exists x, lr1_valid_tb g i gamma it x) ->
  forall gamma it x, lr1_valid g i gamma it x <-> lr1_valid_tb g i gamma it x.
Proof.
  intros Hinh gamma it x. split; [|apply tb_included].
  induction 1 as [nt eoi r x Hi Hinp Hr Hx|gamma it B r b H0 Es Et Hr Hb|gamma it x B r H IH Es Et Hr Hn
                  |gamma it x X H IH Es].
  - eapply tb_start; eauto.
  - destruct (Hinh gamma it H0) as [x Hx]. eapply tb_closure; eauto. left. exact Hb.
  - eapply tb_closure; eauto. right. auto.
  - apply tb_goto; auto.
Qed.

Section Inhabited.
Variable g : grammar.
Hypothesis Hterm : 0 < g_terms g.
Hypothesis Huse : forall r X, In r (g_rules g) -> In X (r_rhs r) -> (exists b, first_sym g X b) \/ nullable_sym g X.

Lemma seq_first_or_nullable w :
  (forall X, In X w -> (exists b, first_sym g X b) \/ nullable_sym g X) ->
  (exists b, first_seq_of g w b) \/ nullable_seq g w.
Proof.
  induction w as [|X w IH]; intros H; [right; constructor|].
  destruct (H X (or_introl eq_refl)) as [[b Hb]|Hn].
  - left. exists b. apply first_seq_of_head. exact Hb.
  - destruct IH as [[b Hb]|Hw]; [intros; apply H; right; auto| |].
    + left. exists b. apply first_seq_of_cons_nullable; auto.
    + right. constructor; auto.
Qed.

Lemma item_rest_used it X : In X (item_rest g it) -> In (rule_at g (fst it)) (g_rules g).
Proof.
  unfold item_rest, rule_at. intros H.
  destruct (nth_in_or_default (Z.to_nat (fst it)) (g_rules g) (mkRule (-1) [] 0)) as [Hin|E]; auto.
  rewrite E in H. simpl in H. contradiction.
Qed.

Lemma lr0_has_lookahead i gamma it : lr0_valid g i gamma it -> exists x, lr1_valid_tb g i gamma it x.
Proof.
  induction 1 as [nt eoi r Hi Hinp Hr|gamma it B r H [x IH] Es Et Hr|gamma it X H [x IH] Es].
  - exists 0. eapply tb_start; eauto. destruct eoi; auto. apply is_term_spec. lia.
  - destruct (seq_first_or_nullable (item_rest g it)) as [[b Hb]|Hn].
    + intros X HX. apply (Huse (rule_at g (fst it))); [eapply item_rest_used; eauto|].
      unfold item_rest in HX. eapply In_skipn; eauto.
    + exists b. eapply tb_closure; eauto. left. exact Hb.
    + exists x. eapply tb_closure; eauto. right. auto.
  - exists x. apply tb_goto; auto.
Qed.

Theorem lr1_valid_textbook i gamma it x : lr1_valid g i gamma it x <-> lr1_valid_tb g i gamma it x.
Proof. apply tb_equal. intros; eapply lr0_has_lookahead; eauto. Qed.
End Inhabited.

(* S -> A B ; A -> C x ; B -> B ; C -> c     (terminals 0 eoi, 1 x, 2 c; nonterminals 3 S, 4 A, 5 B, 6 C)
   In the start state the item [C -> . c] gets lookahead x from FIRST(x) although [A -> . C x] itself has no
   textbook lookahead (FIRST(B eoi) is empty). *)
Definition gx : grammar :=
  mkGrammar 3 4 [mkRule 3 [4; 5] 0; mkRule 4 [6; 1] 0; mkRule 5 [5] 0; mkRule 6 [2] 0] [(3, true)] [].

Lemma gx_rules r : In r (g_rules gx) -> r_lhs r = 5 -> r_rhs r = [5].
Proof. simpl. intros [<-|[<-|[<-|[<-|[]]]]]; simpl; intros; try discriminate; reflexivity. Qed.

Lemma singleton_split (pre : list Z) x post : [5] = pre ++ x :: post -> pre = [] /\ x = 5.
Proof.
  destruct pre as [|p pre]; simpl; intros E.
  - injection E as <- _. auto.
  - injection E as _ E. destruct pre; discriminate.
Qed.

Lemma gx_no_first X b : first_sym gx X b -> X <> 5.
Proof.
  induction 1 as [a Ha|r pre x post a Hr E Hpre Hx IH].
  - intros ->. discriminate.
  - intros E5. rewrite (gx_rules r Hr E5) in E. apply singleton_split in E. destruct E as [_ ->]. apply IH. reflexivity.
Qed.

Lemma gx_no_nullable :
  (forall X, nullable_sym gx X -> X <> 5) /\ (forall xs, nullable_seq gx xs -> ~ In 5 xs).
Proof.
  apply nullable_mutind.
  - intros r Hr _ IH E5. rewrite (gx_rules r Hr E5) in IH. apply IH. left. reflexivity.
  - intros [].
  - intros x xs _ Hx _ Hxs [E|Hin]; [apply Hx; auto|auto].
Qed.

Lemma gx_tb_start gamma it a : lr1_valid_tb gx 0 gamma it a -> gamma = [] -> it = (0, 0).
Proof.
  induction 1 as [nt eoi r a _ Hinp Hr _|gamma it a B r b H IH Es Et Hr Hb|gamma it a X H IH Es]; intros Eg.
  - simpl in Hinp. injection Hinp as <- _. vm_compute in Hr. destruct Hr as [<-|[]]. reflexivity.
  - exfalso. rewrite (IH Eg) in Hb. vm_compute in Hb. destruct Hb as [(pre & x & post & E & _ & Hx)|[Hn _]].
    + apply singleton_split in E. destruct E as [_ ->]. apply (gx_no_first _ _ Hx). reflexivity.
    + apply (proj2 gx_no_nullable _ Hn). left. reflexivity.
  - destruct gamma; discriminate.
Qed.

Definition ax : automaton := fst (build_automaton gx 100).

Lemma ax_reach_start i gamma : reach ax i gamma 0 -> gamma = [] /\ i = 0.
Proof.
  intros H. inversion H as [E|g0 q X q' _ Htr]; [auto|].
  exfalso. apply trans_target_In in Htr. vm_compute in Htr.
  repeat (destruct Htr as [Htr|Htr]; [injection Htr; intros; discriminate|]). exact Htr.
Qed.

Theorem lalr_la_textbook_refuted :
  exists g fuel q it x, let a := fst (build_automaton g fuel) in
    la_cert g a fuel = true /\ In x (la_get (lalr_la g a fuel) q it) /\
    ~ (exists i gamma, reach a i gamma q /\ lr1_valid_tb g i gamma it x).
Proof.
  exists gx, 100%nat, 0, (3, 0), 1. split; [vm_compute; reflexivity|]. split; [vm_compute; auto|].
  intros (i & gamma & Hr & Hv). apply ax_reach_start in Hr. destruct Hr as [-> ->].
  apply gx_tb_start in Hv; [discriminate|reflexivity].
Qed.
