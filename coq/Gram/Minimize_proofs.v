(* C06: two machines related by a state map that commutes with actions and gotos run in lock step (Section Simulation,
   [run_sim]); [check_min] read as its cells ([check_min_cells]); hence the simulation for tables that pass the check. *)
From Coq Require Import List ZArith Bool Lia.
From TM Require Import Lib.ListX Gram.PTables Gram.Optimize Gram.Run Gram.Minimize Gram.ZTab_proofs.
Import ListNotations.
Local Open Scope Z_scope.

Lemma Forall2_firstn {A B} (R : A -> B -> Prop) k : forall l l', Forall2 R l l' -> Forall2 R (firstn k l) (firstn k l').
Proof.
  induction k as [|k IH]; intros l l' H; [constructor|]. destruct H; [constructor|]. cbn. constructor; auto.
Qed.

Lemma Forall2_skipn {A B} (R : A -> B -> Prop) k : forall l l', Forall2 R l l' -> Forall2 R (skipn k l) (skipn k l').
Proof.
  induction k as [|k IH]; intros l l' H; [exact H|]. destruct H; [constructor|]. cbn. auto.
Qed.

Lemma Forall2_length' {A B} (R : A -> B -> Prop) l l' : Forall2 R l l' -> length l = length l'.
Proof. induction 1; cbn; congruence. Qed.

Section Simulation.
Variables (m m' : machine) (remap : Z -> Z) (n terms nsyms : Z).
Variable rel_rule : Z -> Z -> Prop.

Definition valid (s : Z) : Prop := 0 <= s < n.
Definition remap' (s : Z) : Z := if s =? -1 then -1 else remap s.

Definition act_sim (x y : act) : Prop :=
  match x, y with
  | Shift q, Shift q' => valid q /\ q' = remap q
  | Reduce r, Reduce r' => rel_rule r r'
  | Err, Err | Err, Deep _ | Deep _, Err | Deep _, Deep _ => True
  | _, _ => False
  end.

Hypothesis Hrule : forall r r', rel_rule r r' ->
  m_rule_len m r = m_rule_len m' r' /\ m_rule_sym m r = m_rule_sym m' r' /\ terms <= m_rule_sym m r < nsyms.
Hypothesis Hact : forall s a more, valid s -> 0 <= a < terms -> Forall (fun x => 0 <= x < terms) more ->
  act_sim (m_act m s a more) (m_act m' (remap s) a more).
Hypothesis Hremap : forall s, valid s -> 0 <= remap s.
Hypothesis Hgoto : forall s x, valid s -> terms <= x < nsyms ->
  (m_goto m s x = -1 /\ m_goto m' (remap s) x = -1) \/
  (valid (m_goto m s x) /\ m_goto m' (remap s) x = remap (m_goto m s x)).

Definition entry_rel (e e' : entry) : Prop :=
  e_sym e = e_sym e' /\ e_off e = e_off e' /\ e_end e = e_end e' /\ e_state e' = remap' (e_state e).

Definition titem_rel (x y : titem) : Prop :=
  match x, y with
  | TShift s q, TShift s' q' => s = s' /\ q' = remap' q
  | TReduce r o e, TReduce r' o' e' => rel_rule r r' /\ o = o' /\ e = e'
  | _, _ => False
  end.

Record config_rel (c c' : config) : Prop := {
  cr_stack : Forall2 entry_rel (c_stack c) (c_stack c');
  cr_state : c_state c' = remap' (c_state c);
  cr_input : c_input c' = c_input c;
  cr_shifted : c_shifted c' = c_shifted c;
  cr_trace : Forall2 titem_rel (c_trace c) (c_trace c')
}.

Definition config_valid (c : config) : Prop :=
  valid (c_state c) /\ Forall (fun e => valid (e_state e)) (c_stack c).

Definition toks_ok (input : list tok) : Prop := Forall (fun t => 0 <= t_sym t < terms) input.

Lemma remap'_valid s : valid s -> remap' s = remap s.
Proof. unfold valid, remap'. intro H. destruct (Z.eqb_spec s (-1)); [lia|reflexivity]. Qed.

(* [remap'] is what the goto function commutes with, and it keeps "no transition" apart from states *)
Lemma goto_remap' s x : valid s -> terms <= x < nsyms ->
  m_goto m' (remap s) x = remap' (m_goto m s x) /\ (m_goto m s x = -1 \/ valid (m_goto m s x)).
Proof.
  intros Hs Hx. destruct (Hgoto s x Hs Hx) as [[-> ->]|[Hv ->]]; [split; [reflexivity|now left]|].
  split; [symmetry; now apply remap'_valid|now right].
Qed.

Lemma remap'_absent q : q = -1 \/ valid q -> (remap' q =? -1) = (q =? -1).
Proof.
  intros [->|Hv]; [reflexivity|]. rewrite remap'_valid by exact Hv. pose proof (Hremap q Hv). unfold valid in Hv. lia.
Qed.

Lemma entry_rel_last_off l l' d : Forall2 entry_rel l l' -> e_off (last l d) = e_off (last l' d).
Proof.
  induction 1 as [|x y l l' Hxy H IH]; [reflexivity|]. destruct H; [apply Hxy|exact IH].
Qed.

Lemma entry_rel_top_end l l' d : Forall2 entry_rel l l' ->
  match l with [] => d | top :: _ => e_end top end = match l' with [] => d | top :: _ => e_end top end.
Proof. destruct 1 as [|x y l l' Hxy _]; [reflexivity|apply Hxy]. Qed.

Inductive step_rel : step_result -> step_result -> Prop :=
| sr_cont c c' : config_rel c c' -> config_valid c -> toks_ok (c_input c) -> step_rel (Continue c) (Continue c')
| sr_stop o c c' : config_rel c c' -> step_rel (Stop o c) (Stop o c').

Lemma step_rel_if (b : bool) o c c' : config_rel c c' -> (b = false -> config_valid c /\ toks_ok (c_input c)) ->
  step_rel (if b then Stop o c else Continue c) (if b then Stop o c' else Continue c').
Proof. intros H Hv. destruct b; [now apply sr_stop|]. destruct (Hv eq_refl). now apply sr_cont. Qed.

Lemma toks_tl input : toks_ok input -> toks_ok (tl input).
Proof. unfold toks_ok. destruct input; [trivial|]. intro H. now inversion H. Qed.

Lemma next_tok_ok eoff input : toks_ok input -> 0 < terms -> 0 <= t_sym (next_tok eoff input) < terms.
Proof.
  unfold next_tok, toks_ok. destruct input as [|t rest]; cbn; [lia|]. intros H _. now inversion H.
Qed.

Lemma step_sim eoff c c' : 0 < terms -> config_rel c c' -> config_valid c -> toks_ok (c_input c) ->
  step_rel (step m eoff c) (step m' eoff c').
Proof.
  intros Hterms Hcr [Hv Hvs] Htok. pose proof Hcr as [Hst Hs Hin Hsh Htr]. unfold step.
  rewrite Hin, Hs, Hsh, (remap'_valid _ Hv).
  pose proof (next_tok_ok eoff (c_input c) Htok Hterms) as Hnx.
  set (nx := next_tok eoff (c_input c)) in *.
  pose proof (Hact (c_state c) (t_sym nx) _ Hv Hnx (proj2 (Forall_map _ _ _) (toks_tl _ Htok))) as Ha.
  destruct (m_act m (c_state c) (t_sym nx) (map t_sym (tl (c_input c)))) as [q|r| |row];
  destruct (m_act m' (remap (c_state c)) (t_sym nx) (map t_sym (tl (c_input c)))) as [q'|r'| |row'];
    cbn in Ha; try contradiction; try (apply sr_stop; exact Hcr).
  - destruct Ha as [Hq ->]. apply sr_cont.
    + constructor; cbn [c_stack c_state c_input c_shifted c_trace]; rewrite <- ?(remap'_valid q Hq); try reflexivity.
      * constructor; [|exact Hst]. repeat split.
      * constructor; [|exact Htr]. split; reflexivity.
    + split; cbn; [exact Hq|]. constructor; [exact Hq|exact Hvs].
    + cbn. destruct (t_sym nx =? 0); [exact Htok|now apply toks_tl].
  - (* reduce: the successor states are related through [remap'], so the two runs stop or continue together *)
    destruct (Hrule _ _ Ha) as (Hlen & Hsym & Hnt). rewrite <- Hlen, <- Hsym, <- (Forall2_length' _ _ _ Hst).
    destruct (Nat.leb_spec (length (c_stack c)) (Z.to_nat (m_rule_len m r))) as [|El]; [apply sr_stop; exact Hcr|].
    set (ln := Z.to_nat (m_rule_len m r)) in *.
    pose proof (Forall2_firstn _ ln _ _ Hst) as Hf. pose proof (Forall2_skipn _ ln _ _ Hst) as Hsk.
    rewrite <- (entry_rel_last_off _ _ _ Hf), <- (entry_rel_top_end _ _ _ Hf).
    assert (Hne : skipn ln (c_stack c) <> []).
    { intro E. apply (f_equal (@length entry)) in E. rewrite skipn_length in E. cbn in E. lia. }
    pose proof (fun e => In_skipn e ln (c_stack c)) as Hin'. revert Hne Hin'.
    destruct Hsk as [|b b' rest rest' Hbb Hrr]; intros Hne Hin'; [congruence|].
    rewrite Forall_forall in Hvs. assert (Hvb : valid (e_state b)) by (apply Hvs, Hin'; now left).
    rewrite (proj2 (proj2 (proj2 Hbb))), (remap'_valid _ Hvb).
    destruct (goto_remap' _ _ Hvb Hnt) as [-> Hq]. rewrite (remap'_absent _ Hq).
    apply step_rel_if.
    + constructor; cbn [c_stack c_state c_input c_shifted c_trace]; try reflexivity.
      * constructor; [repeat split|]. constructor; [exact Hbb|exact Hrr].
      * constructor; [cbn; auto|exact Htr].
    + intro Hgo. assert (Hvq : valid (m_goto m (e_state b) (m_rule_sym m r))) by (destruct Hq; [lia|assumption]).
      split; [split; cbn|exact Htok]; [exact Hvq|]. constructor; [exact Hvq|].
      apply Forall_forall. intros e He. now apply Hvs, Hin'.
Qed.

(* the states in which the original parser tests [state != end] *)
Fixpoint visited (fuel : nat) (eoff end_state : Z) (c : config) : list Z :=
  match fuel with
  | O => []
  | S f => c_state c ::
      (if c_state c =? end_state then []
       else match step m eoff c with Continue c1 => visited f eoff end_state c1 | Stop _ _ => [] end)
  end.

Lemma run_loop_sim eoff end_state : 0 < terms -> valid end_state -> forall fuel c c',
  config_rel c c' -> config_valid c -> toks_ok (c_input c) ->
  (forall s, In s (visited fuel eoff end_state c) -> remap s = remap end_state -> s = end_state) ->
  fst (run_loop fuel m eoff end_state c) = fst (run_loop fuel m' eoff (remap end_state) c') /\
  config_rel (snd (run_loop fuel m eoff end_state c)) (snd (run_loop fuel m' eoff (remap end_state) c')).
Proof.
  intros Hterms Hend. induction fuel as [|f IH]; intros c c' Hcr Hcv Htok Hnc; cbn [run_loop].
  - split; [reflexivity|exact Hcr].
  - pose proof (cr_state _ _ Hcr) as Hs. rewrite (remap'_valid _ (proj1 Hcv)) in Hs. rewrite Hs.
    cbn [visited] in Hnc.
    destruct (c_state c =? end_state) eqn:E.
    + apply Z.eqb_eq in E. rewrite E, Z.eqb_refl. split; [reflexivity|exact Hcr].
    + assert (Hne : (remap (c_state c) =? remap end_state) = false).
      { apply Z.eqb_neq. intro Heq. apply Z.eqb_neq in E. apply E. apply Hnc; [now left|exact Heq]. }
      rewrite Hne. pose proof (step_sim eoff c c' Hterms Hcr Hcv Htok) as Hstep.
      destruct (step m eoff c) as [c1|o c1] eqn:E1; inversion Hstep as [? c1' Hr Hv Ht|? ? c1' Hr]; subst.
      * apply IH; try assumption. intros s Hin. apply Hnc. right. exact Hin.
      * cbn [fst snd]. split; [reflexivity|exact Hr].
Qed.

(* on every token sequence, as long as the original never sits in a state merged with its end state *)
Theorem run_sim fuel start end_state eoff input : 0 < terms -> valid start -> valid end_state -> toks_ok input ->
  (forall s, In s (visited fuel eoff end_state (mkConfig [mkEntry 0 0 0 start] start input 0 [])) ->
             remap s = remap end_state -> s = end_state) ->
  fst (run fuel m start end_state eoff input) = fst (run fuel m' (remap start) (remap end_state) eoff input) /\
  config_rel (snd (run fuel m start end_state eoff input)) (snd (run fuel m' (remap start) (remap end_state) eoff input)).
Proof.
  intros Hterms Hs He Htok Hnc. unfold run. apply run_loop_sim; try assumption.
  - constructor; cbn; [|now rewrite remap'_valid|reflexivity|reflexivity|constructor].
    constructor; [|constructor]. repeat split; cbn. now rewrite remap'_valid.
  - split; cbn; [exact Hs|]. constructor; [exact Hs|constructor].
Qed.
End Simulation.

Lemma zlist_eqb_eq a : forall b, zlist_eqb a b = true <-> a = b.
Proof.
  induction a as [|x a IH]; destruct b as [|y b]; cbn [zlist_eqb]; try (split; discriminate); [tauto|].
  rewrite andb_true_iff, Z.eqb_eq, IH. split; [intros [-> ->]; reflexivity|intros [= -> ->]; auto].
Qed.

(* without an LALR(k) row the decoded action does not look at the tokens after the next one *)
Lemma default_act_shallow t s a more : lalr_deep t s a = false -> default_act t s a more = default_act t s a [].
Proof.
  unfold lalr_deep, default_act. destruct (zn (d_action t) s <? -2) eqn:E0.
  - intro H. rewrite H. reflexivity.
  - intros _. rewrite E0. reflexivity.
Qed.

Lemma rule_key_full_inv mi rule_sym r r' : rule_key_full mi rule_sym r = rule_key_full mi rule_sym r' ->
  zn (mi_rule_len mi) r = zn (mi_rule_len mi) r' /\ zn rule_sym r = zn rule_sym r'.
Proof.
  unfold rule_key_full. destruct (_ && _), (_ && _); intro E; try discriminate E.
  - injection E as E1 E2 _. auto.
  - injection E as ->. auto.
Qed.

Section Bridge.
Variables (mi : min_input) (rule_sym : list Z) (mo : min_output) (terms ninputs : Z).

Let t := mi_enc mi.
Let t' := mo_enc mo.
Let n := mi_num_states mi.
Let remap := zn (mo_remap mo).
Let nsyms := zlength (d_goto t) - 1.
Let nrules := zlength (mi_rule_len mi).
Let m := default_machine t (mi_rule_len mi) rule_sym.
Let m' := default_machine t' (mi_rule_len mi) rule_sym.

Definition rel_rule_of (r r' : Z) : Prop :=
  0 <= r < nrules /\ 0 <= r' < nrules /\ rule_key_full mi rule_sym r = rule_key_full mi rule_sym r'.

Definition act_cell (s a : Z) : bool :=
  negb (lalr_deep t s a) && negb (lalr_deep t' (remap s) a) &&
  match default_act t s a [], default_act t' (remap s) a [] with
  | Shift q, Shift q' => (0 <=? q) && (q <? n) && (q' =? remap q)
  | Reduce r, Reduce r' => (0 <=? r) && (r <? nrules) && (0 <=? r') && (r' <? nrules)
                           && zlist_eqb (rule_key_full mi rule_sym r) (rule_key_full mi rule_sym r')
  | Err, Err => true
  | _, _ => false
  end.

Definition goto_cell (s x : Z) : bool :=
  let q := goto_state t s x in
  if q =? -1 then goto_state t' (remap s) x =? -1
  else (0 <=? q) && (q <? n) && (goto_state t' (remap s) x =? remap q).

Lemma check_min_eq :
  check_min mi rule_sym mo terms ninputs =
  forallb (fun s => (0 <=? remap s) && (remap s <? mo_num_states mo)) (zseq n)
  && forallb (fun i => remap i =? i) (zseq ninputs)
  && zlist_eqb (mo_final mo) (map remap (mi_final mi))
  && forallb (fun r => (terms <=? zn rule_sym r) && (zn rule_sym r <? nsyms)) (zseq nrules)
  && forallb (fun s => forallb (act_cell s) (zseq terms)) (zseq n)
  && forallb (fun s => forallb (goto_cell s) (map (fun i => terms + i) (zseq (nsyms - terms)))) (zseq n).
Proof. reflexivity. Qed.

Lemma check_min_cells : check_min mi rule_sym mo terms ninputs = true <->
  (forall s, 0 <= s < n -> 0 <= remap s < mo_num_states mo) /\
  (forall i, 0 <= i < ninputs -> remap i = i) /\
  mo_final mo = map remap (mi_final mi) /\
  (forall r, 0 <= r < nrules -> terms <= zn rule_sym r < nsyms) /\
  (forall s a, 0 <= s < n -> 0 <= a < terms -> act_cell s a = true) /\
  (forall s x, 0 <= s < n -> terms <= x < nsyms -> goto_cell s x = true).
Proof.
  rewrite check_min_eq, !andb_true_iff, !forallb_zseq, zlist_eqb_eq. split.
  - intros (((((H1 & H2) & H3) & H4) & H5) & H6).
    split; [intros s Hs; specialize (H1 s Hs); lia|]. split; [intros i Hi; specialize (H2 i Hi); lia|].
    split; [exact H3|]. split; [intros r Hr; specialize (H4 r Hr); lia|].
    split; intros s x Hs Hx; [apply (proj1 (forallb_zseq _ _) (H5 s Hs) x Hx)|].
    apply (proj1 (forallb_zseq_from _ _ _) (H6 s Hs) x). lia.
  - intros (H1 & H2 & H3 & H4 & H5 & H6).
    split; [split; [split; [split; [split|]|]|]|]; try assumption.
    + intros s Hs. specialize (H1 s Hs). lia.
    + intros i Hi. specialize (H2 i Hi). lia.
    + intros r Hr. specialize (H4 r Hr). lia.
    + intros s Hs. apply forallb_zseq. intros a Ha. now apply H5.
    + intros s Hs. apply forallb_zseq_from. intros x Hx. apply H6; [exact Hs|lia].
Qed.

Hypothesis Hck : check_min mi rule_sym mo terms ninputs = true.

Theorem minimized_parser_simulates : 0 < terms ->
  forall i, 0 <= i < ninputs -> i < n ->
  forall end_state, 0 <= end_state < n ->
  forall fuel eoff input, Forall (fun tk => 0 <= t_sym tk < terms) input ->
  (forall s, In s (visited m fuel eoff end_state (mkConfig [mkEntry 0 0 0 i] i input 0 [])) ->
             remap s = remap end_state -> s = end_state) ->
  fst (run fuel m i end_state eoff input) = fst (run fuel m' i (remap end_state) eoff input) /\
  config_rel remap rel_rule_of (snd (run fuel m i end_state eoff input)) (snd (run fuel m' i (remap end_state) eoff input)).
Proof.
  intros Hterms i Hi Hin end_state Hend fuel eoff input Htok Hnc.
  destruct (proj1 check_min_cells Hck) as (P1 & P2 & _ & P4 & P5 & P6). clear Hck.
  rewrite <- (P2 i Hi) at 2 4.
  apply (run_sim m m' remap n terms nsyms rel_rule_of); try assumption; [| | | |unfold valid; lia].
  - intros r r' (R1 & R2 & R3). destruct (rule_key_full_inv _ _ _ _ R3) as [L S]. cbn. rewrite <- L, <- S.
    split; [reflexivity|]. split; [reflexivity|]. now apply P4.
  - intros s a more Hs Ha _. specialize (P5 s a Hs Ha). unfold act_cell in P5.
    rewrite !andb_true_iff, !negb_true_iff in P5. destruct P5 as [[D1 D2] D3]. cbn.
    rewrite (default_act_shallow t s a more D1), (default_act_shallow t' (remap s) a more D2).
    destruct (default_act t s a []), (default_act t' (remap s) a []); try discriminate; try exact I; cbn.
    + unfold valid. lia.
    + rewrite !andb_true_iff, zlist_eqb_eq in D3. destruct D3 as [[[[R1 R2] R3] R4] R5]. repeat split; (lia || exact R5).
  - intros s Hs. destruct (P1 s Hs). lia.
  - intros s x Hs Hx. specialize (P6 s x Hs Hx). unfold goto_cell in P6. cbn. unfold valid.
    destruct (Z.eqb_spec (goto_state t s x) (-1)); [left|right]; lia.
Qed.
End Bridge.
