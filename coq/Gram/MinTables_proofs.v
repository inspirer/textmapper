(* The tables rebuilt by [minimize] are the quotient tables: layout of the new Goto/FromTo, transition rows vs.
   FromTo segments, goto commutes with the remapping; [minimize] as the two cases of its result. *)
From Coq Require Import List ZArith Bool Lia.
From TM Require Import Lib.ListX Gram.PTables Gram.Optimize Gram.Minimize Gram.ZTab_proofs Gram.MinRefine_proofs
  Gram.MinimizeWf Gram.MinPartition_proofs Gram.MinGoto_proofs.
Import ListNotations.
Local Open Scope Z_scope.

Lemma wf_goto_sym_layout t n x : wf_goto_sym t n x = true ->
  goto_layout_ok t x /\ forall f q, In (f, q) (seg t x) -> 0 <= f < n /\ 0 <= q < n.
Proof.
  unfold wf_goto_sym, goto_layout_ok. cbn zeta. intro H.
  apply andb_prop in H as [H W7]. apply andb_prop in H as [H W6].
  rewrite !andb_true_iff, !Z.leb_le, !Z.eqb_eq in H. split; [repeat split; (apply H || exact W7)|].
  intros f q Hin. rewrite forallb_forall in W6. specialize (W6 _ Hin). cbn [fst snd] in W6. lia.
Qed.

Lemma goto_state_cases t n x s : wf_goto_sym t n x = true ->
  (In (s, goto_state t s x) (seg t x) /\ 0 <= goto_state t s x < n) \/
  (goto_state t s x = -1 /\ forall q, ~ In (s, q) (seg t x)).
Proof.
  intro Hwf. destruct (wf_goto_sym_layout _ _ _ Hwf) as [Hlay Hr].
  destruct (goto_state_spec t x s Hlay) as [G|G]; [left|now right]. split; [exact G|apply (Hr _ _ G)].
Qed.

Lemma pairs_up_chunks {A} (c : A -> bool) (u v : A -> Z) l :
  pairs_up (flat_map (fun a => if c a then [u a; v a] else []) l) = flat_map (fun a => if c a then [(u a, v a)] else []) l.
Proof. induction l as [|a l IH]; [reflexivity|]. cbn [flat_map]. destruct (c a); cbn; now rewrite IH. Qed.

Lemma pairs_up_trans_sig p tr : pairs_up (trans_sig p tr) = map (fun e => (fst e, zn p (snd e))) (pairs_up tr).
Proof.
  unfold trans_sig. induction (pairs_up tr) as [|[a b] l IH]; [reflexivity|].
  cbn [flat_map map app pairs_up fst snd]. now rewrite IH.
Qed.

Section Rows.
Variables (t : default_enc) (n : Z).
Let nsyms := zlength (d_goto t) - 1.

Lemma row_pairs s x q : 0 <= s < n ->
  (In (x, q) (pairs_up (row (state_transitions t n) s)) <-> 0 <= x < nsyms /\ In (s, q) (seg t x)).
Proof.
  intro Hs. unfold row, state_transitions. fold nsyms. rewrite nth_map_zseq by lia.
  rewrite (flat_map_ext _ (fun a => if fst (fst a) =? s then [snd (fst a); snd a] else []))
    by (intros [[from sym] to]; reflexivity).
  rewrite (pairs_up_chunks (fun a => fst (fst a) =? s) (fun a => snd (fst a)) snd), in_flat_map.
  (* the triples (from, sym, to) are the pairs of [seg t sym], tagged with sym *)
  assert (Hall : forall f y r, In (f, y, r) (flat_map (fun sym => map (fun k =>
             (zn (d_from_to t) (zn (d_goto t) sym + 2 * k), sym, zn (d_from_to t) (zn (d_goto t) sym + 2 * k + 1)))
             (zseq ((zn (d_goto t) (sym + 1) - zn (d_goto t) sym) / 2))) (zseq nsyms)) <-> 0 <= y < nsyms /\ In (f, r) (seg t y)).
  { intros f y r. rewrite in_flat_map. unfold seg. setoid_rewrite in_zseq. setoid_rewrite in_map_iff. setoid_rewrite in_zseq. split.
    - intros (sym & Hsym & k & [= <- <- <-] & Hk). split; [exact Hsym|]. now exists k.
    - intros (Hy & k & [= <- <-] & Hk). exists y. split; [exact Hy|]. now exists k. }
  split.
  - intros ([[f y] r] & Hin & H). cbn [fst snd] in H. destruct (Z.eqb_spec f s) as [->|]; [|contradiction].
    destruct H as [[= -> ->]|[]]. now apply Hall.
  - intro H. exists (s, x, q). split; [now apply Hall|]. cbn [fst snd]. rewrite Z.eqb_refl. now left.
Qed.
End Rows.

Definition flat (edges : list (Z * Z)) : list Z := flat_map (fun e => [fst e; snd e]) edges.

Definition build_step (st : list Z * list Z) (edges : list (Z * Z)) : list Z * list Z :=
  (fst st ++ [zlength (snd st)], snd st ++ flat edges).

Fixpoint offs (base : Z) (l : list (list (Z * Z))) : list Z :=
  match l with [] => [] | e :: r => base :: offs (base + 2 * Z.of_nat (length e)) r end.

Definition tot (l : list (list (Z * Z))) : Z := 2 * Z.of_nat (length (concat l)).

Lemma flat_length e : length (flat e) = (2 * length e)%nat.
Proof. unfold flat. induction e as [|a e IH]; cbn [flat_map app length]; lia. Qed.

Lemma tot_cons e l : tot (e :: l) = 2 * Z.of_nat (length e) + tot l.
Proof. unfold tot. cbn [concat]. rewrite app_length. lia. Qed.

Lemma tot_app l1 l2 : tot (l1 ++ l2) = tot l1 + tot l2.
Proof. unfold tot. rewrite concat_app, app_length. lia. Qed.

Lemma flat_all_length l : Z.of_nat (length (flat_map flat l)) = tot l.
Proof. induction l as [|e l IH]; [reflexivity|]. cbn [flat_map]. rewrite tot_cons, app_length, flat_length. lia. Qed.

Lemma build_spec l : forall g ft, fold_left build_step l (g, ft) = (g ++ offs (zlength ft) l, ft ++ flat_map flat l).
Proof.
  induction l as [|e l IH]; intros g ft; cbn [fold_left offs flat_map]; [now rewrite !app_nil_r|].
  unfold build_step at 2. cbn [fst snd]. rewrite IH. f_equal.
  - rewrite <- app_assoc. cbn [app]. do 3 f_equal. unfold zlength. rewrite app_length, flat_length. lia.
  - now rewrite app_assoc.
Qed.

Lemma offs_nth l1 : forall l2 base,
  nth (length l1) (offs base (l1 ++ l2) ++ [base + tot (l1 ++ l2)]) (-1000000) = base + tot l1.
Proof.
  induction l1 as [|e l1 IH]; intros l2 base.
  - destruct l2; [reflexivity|]. cbn. unfold tot. cbn. lia.
  - cbn [app offs length nth]. rewrite !tot_cons, !Z.add_assoc. apply IH.
Qed.

(* a chunk written at an even offset is read back by [pairs_from] *)
Lemma pairs_from_flat e : forall pre post, pairs_from (pre ++ flat e ++ post) (Z.of_nat (length pre)) (length e) = e.
Proof.
  induction e as [|[a b] e IH]; intros pre post; [reflexivity|]. cbn [length pairs_from].
  change (flat ((a, b) :: e) ++ post) with ([a; b] ++ flat e ++ post). rewrite app_assoc. f_equal.
  - f_equal; rewrite zn_nonneg by lia; rewrite <- app_assoc; rewrite app_nth2 by lia.
    + now rewrite Nat2Z.id, Nat.sub_diag.
    + now replace (Z.to_nat (Z.of_nat (length pre) + 1) - length pre)%nat with 1%nat by lia.
  - replace (Z.of_nat (length pre) + 2) with (Z.of_nat (length (pre ++ [a; b]))) by (rewrite app_length; cbn; lia).
    apply IH.
Qed.

Section NewTables.
Variables (act lalr : list Z) (l1 l2 : list (list (Z * Z))) (e : list (Z * Z)).
Let l := l1 ++ e :: l2.
Let t' := mkDefaultEnc act lalr (offs 0 l ++ [tot l]) (flat_map flat l).
Let x := Z.of_nat (length l1).

Lemma new_goto : zn (d_goto t') x = tot l1 /\ zn (d_goto t') (x + 1) = tot l1 + 2 * Z.of_nat (length e).
Proof.
  unfold x. cbn [t' d_goto]. rewrite !zn_nonneg by lia. split.
  - rewrite Nat2Z.id. exact (offs_nth l1 (e :: l2) 0).
  - replace (Z.to_nat (Z.of_nat (length l1) + 1)) with (length (l1 ++ [e])) by (rewrite app_length; cbn; lia).
    unfold l. rewrite (app_assoc l1 [e] l2 : l1 ++ e :: l2 = _).
    rewrite (offs_nth (l1 ++ [e]) l2 0 : nth _ (_ ++ [tot _]) _ = _), tot_app, tot_cons. unfold tot at 3. cbn. lia.
Qed.

Lemma new_seg : seg t' x = e.
Proof.
  rewrite seg_pairs_from. destruct new_goto as [-> ->].
  replace (tot l1 + 2 * Z.of_nat (length e) - tot l1) with (Z.of_nat (length e) * 2) by lia.
  rewrite Z.div_mul, Nat2Z.id, <- flat_all_length by lia. cbn [t' d_from_to]. unfold l. rewrite flat_map_app.
  apply pairs_from_flat.
Qed.

Lemma new_layout : strictly_increasing (map fst e) = true -> goto_layout_ok t' x.
Proof.
  intro Hsi. unfold goto_layout_ok. rewrite new_seg. destruct new_goto as [-> ->]. cbn [t' d_from_to].
  unfold zlength. rewrite flat_all_length. unfold l. rewrite tot_app, tot_cons.
  assert (H : forall k, 0 <= tot k /\ tot k mod 2 = 0) by (intro k; unfold tot; split; [lia|now rewrite Z.mul_comm, Z_mod_mult]).
  destruct (H l1) as [P1 E1], (H l2) as [P2 _]. split; [lia|]. split; [lia|]. split; [exact E1|]. split; [|exact Hsi].
  now rewrite (Z.mul_comm 2), Z_mod_plus_full.
Qed.
End NewTables.

Section Quotient.
Variable mi : min_input.
Let t := mi_enc mi.
Let n := mi_num_states mi.
Let nsyms := zlength (d_goto t) - 1.
Hypothesis Hn : 0 <= n.
Hypothesis Hk : zlength (mi_final mi) <= n.
Variables (p0 : list Z) (c0 : Z).
Hypothesis Hinit : init_partition mi = (p0, c0).
Variables (remap : list Z) (cnt : Z).
Hypothesis Hfinal : final_partition mi = (remap, cnt).

Theorem remap_congruence f s x tt : 0 <= f < n -> 0 <= s < n -> zn remap f = zn remap s -> 0 <= x < nsyms ->
  In (f, tt) (seg t x) -> exists q, In (s, q) (seg t x) /\ zn remap q = zn remap tt.
Proof.
  intros Hf Hs E Hx Hin.
  pose proof (remap_stable mi Hn Hk p0 c0 Hinit remap cnt Hfinal f s Hf Hs E) as Hst. fold t n in Hst.
  apply (f_equal pairs_up) in Hst. rewrite !pairs_up_trans_sig in Hst.
  assert (H1 : In (x, tt) (pairs_up (row (state_transitions t n) f))) by (apply row_pairs; [exact Hf|]; split; assumption).
  apply (in_map (fun e => (fst e, zn remap (snd e)))) in H1. rewrite Hst in H1. apply in_map_iff in H1.
  destruct H1 as ([x' q] & [= -> E2] & H2). apply row_pairs in H2; [|exact Hs]. exists q. split; [apply H2|exact E2].
Qed.

Definition rr (e : Z * Z) : Z * Z := (zn remap (fst e), zn remap (snd e)).
Definition per_sym : list (list (Z * Z)) := map (fun sym => rebuilt (map rr (seg t sym))) (zseq nsyms).

Variables (act' lalr' : list Z).
Let t' := mkDefaultEnc act' lalr' (offs 0 per_sym ++ [tot per_sym]) (flat_map flat per_sym).

Lemma new_tables_seg x : 0 <= x < nsyms -> seg t' x = rebuilt (map rr (seg t x)) /\ goto_layout_ok t' x.
Proof.
  intro Hx. destruct (nth_error_split per_sym (Z.to_nat x) (nth_error_map_zseq _ nsyms x Hx)) as (l1 & l2 & E & Hl).
  unfold t'. rewrite E. replace x with (Z.of_nat (length l1)) by lia. split; [apply new_seg|apply new_layout, rebuilt_spec].
Qed.

Theorem goto_commutes s x : 0 <= s < n -> 0 <= x < nsyms -> wf_goto_sym t n x = true ->
  let q := goto_state t s x in
  (q = -1 /\ goto_state t' (zn remap s) x = -1) \/ (0 <= q < n /\ goto_state t' (zn remap s) x = zn remap q).
Proof.
  intros Hs Hx Hwf. cbn zeta. destruct (wf_goto_sym_layout _ _ _ Hwf) as [[_ (_ & _ & _ & Hsi)] Hr].
  destruct (new_tables_seg x Hx) as [Hseg' Hlay']. pose proof (goto_state_spec t' x (zn remap s) Hlay') as G'.
  rewrite Hseg' in G'. destruct (rebuilt_spec (map rr (seg t x))) as (Hsi' & Hincl & Hkeeps).
  (* an edge of the new segment that leaves [remap s] is the image of an old edge that leaves [s] *)
  assert (Hback : forall q2, In (zn remap s, q2) (rebuilt (map rr (seg t x))) ->
                    exists q0, In (s, q0) (seg t x) /\ q2 = zn remap q0).
  { intros q2 H. apply Hincl, in_map_iff in H. destruct H as ([f tt] & [= E1 E2] & Hft).
    destruct (remap_congruence f s x tt (proj1 (Hr _ _ Hft)) Hs E1 Hx Hft) as (q0 & Hq0 & Eq).
    exists q0. split; [exact Hq0|congruence]. }
  destruct (goto_state_cases t n x s Hwf) as [[G Hq]|[G Hno]].
  - right. split; [exact Hq|]. destruct (Hkeeps _ _ (in_map rr _ _ G)) as [q2 Hq2]. cbn [rr fst snd] in Hq2.
    destruct (Hback q2 Hq2) as (q0 & Hq0 & ->). rewrite (si_functional _ Hsi s _ _ G Hq0).
    apply (goto_rel_functional _ _ _ _ Hsi' G'). now left.
  - left. split; [exact G|]. destruct G' as [G'|[G' _]]; [|exact G'].
    destruct (Hback _ G') as (q0 & Hq0 & _). destruct (Hno q0 Hq0).
Qed.
End Quotient.

Definition new_action (mi : min_input) (remap : list Z) (cnt : Z) : list Z :=
  fold_left (fun acc i => set_at acc (zn remap i) (zn (d_action (mi_enc mi)) i)) (zseq (mi_num_states mi))
            (map (fun _ => 0) (zseq cnt)).

Definition merged_output (mi : min_input) (remap : list Z) (cnt : Z) : min_output :=
  mkMinOutput (mkDefaultEnc (new_action mi remap cnt) (d_lalr (mi_enc mi))
                            (offs 0 (per_sym mi remap) ++ [tot (per_sym mi remap)]) (flat_map flat (per_sym mi remap)))
              (map (zn remap) (mi_final mi))
              (map (fun ms => dedup_keep_first (map (zn remap) ms) []) (mi_markers mi)) cnt remap.

Lemma minimize_cases mi :
  minimize mi =
  let '(remap, cnt) := final_partition mi in
  if cnt =? mi_num_states mi
  then mkMinOutput (mi_enc mi) (mi_final mi) (mi_markers mi) (mi_num_states mi) (zseq (mi_num_states mi))
  else merged_output mi remap cnt.
Proof.
  unfold minimize, final_partition, init_partition.
  destruct (number_all _) as [p0 c0]. destruct (refine _ _ _ _) as [remap cnt]. destruct (cnt =? _); [reflexivity|].
  match goal with |- context [fold_left _ ?ps ([], [])] =>
    replace ps with (per_sym mi remap) by (apply map_ext; intro sym; cbn zeta; unfold rebuilt, seg; now rewrite map_map)
  end.
  rewrite (fold_left_ext _ build_step) by (intros [g ft] edges; reflexivity). rewrite build_spec. cbn [app].
  unfold zlength at 2. rewrite flat_all_length. reflexivity.
Qed.
