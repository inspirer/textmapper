(* One iteration of the event loop (Events.xstep), case by case: the layers over that loop (error recovery,
   cancellation) reason from this view instead of unfolding xstep. *)
From Coq Require Import List ZArith Lia.
From TM Require Import Gram.PTables Gram.Run Gram.Events.
Import ListNotations.
Local Open Scope Z_scope.

Section X.
Variable m : machine.
Variable evt : ev_table.
Variable fixws : bool.
Variable eoi : Z.

(* the state a reduction by rule pushes on this stack (-1: no goto) *)
Definition goto_after (stack : list xentry) (rule : Z) : Z :=
  m_goto m (match skipn (Z.to_nat (m_rule_len m rule)) stack with b :: _ => x_state b | [] => -1 end) (m_rule_sym m rule).

(* the input after a shift: end-of-input is never consumed *)
Definition after_shift (input : list tok) : list tok := if t_sym (next_tok eoi input) =? 0 then input else tl input.

Lemma after_shift_length input :
  (t_sym (next_tok eoi input) = 0 /\ after_shift input = input) \/ S (length (after_shift input)) = length input.
Proof.
  unfold after_shift. destruct (Z.eqb_spec (t_sym (next_tok eoi input)) 0) as [E|E]; [left; split; [exact E|reflexivity]|right].
  destruct input; [simpl in E; congruence|reflexivity].
Qed.

Definition shifted (c : xconfig) (q : Z) (e : xentry) : xconfig :=
  mkXC (e :: xc_stack c) q (after_shift (xc_input c)) (xc_events c).
Definition reduced (c : xconfig) (rule : Z) (e : xentry) (evs : list event) : xconfig :=
  mkXC (e :: skipn (Z.to_nat (m_rule_len m rule)) (xc_stack c)) (goto_after (xc_stack c) rule) (xc_input c) (xc_events c ++ evs).

(* only the symbol and the state of the entry pushed matter to the layers above *)
Inductive xstep_view (c : xconfig) : act -> xstep_result -> Prop :=
| XV_shift q e : x_sym e = t_sym (next_tok eoi (xc_input c)) -> x_state e = q ->
    xstep_view c (Shift q) (XContinue (shifted c q e))
| XV_reduce rule e evs : (Z.to_nat (m_rule_len m rule) < length (xc_stack c))%nat -> goto_after (xc_stack c) rule <> -1 ->
    x_sym e = m_rule_sym m rule -> x_state e = goto_after (xc_stack c) rule ->
    xstep_view c (Reduce rule) (XContinue (reduced c rule e evs))
| XV_stop a o : (forall q, a <> Shift q) ->
    (forall rule, a = Reduce rule ->
       (length (xc_stack c) <= Z.to_nat (m_rule_len m rule))%nat \/ goto_after (xc_stack c) rule = -1) ->
    o <> Accept -> xstep_view c a (XStop o).

Lemma xstep_cases c :
  xstep_view c (m_act m (xc_state c) (t_sym (next_tok eoi (xc_input c))) (map t_sym (tl (xc_input c)))) (xstep m evt fixws eoi c).
Proof.
  unfold xstep. destruct (m_act m _ _ _) as [q|rule| |row]; try (apply XV_stop; discriminate).
  - apply XV_shift; reflexivity.
  - destruct (Nat.leb_spec (length (xc_stack c)) (Z.to_nat (m_rule_len m rule))) as [Hl|Hl].
    { apply XV_stop; try discriminate. intros r E. injection E as <-. left. exact Hl. }
    destruct (lhs_range _ _) as [off endoff]. destruct (apply_rule _ _ _ _ _) as [evs endoff'].
    fold (goto_after (xc_stack c) rule).
    destruct (Z.eqb_spec (goto_after (xc_stack c) rule) (-1)) as [E|E].
    + apply XV_stop; try discriminate. intros r E'. injection E' as <-. right. exact E.
    + apply XV_reduce; try reflexivity; assumption.
Qed.

Lemma xstep_events c c' : xstep m evt fixws eoi c = XContinue c' -> exists evs, xc_events c' = xc_events c ++ evs.
Proof.
  destruct (xstep_cases c); intros E; try discriminate; injection E as <-; cbn [shifted reduced xc_events]; eauto.
  exists []. symmetry. apply app_nil_r.
Qed.

Lemma xstep_consumes c c' : xstep m evt fixws eoi c = XContinue c' ->
  xc_input c' = xc_input c \/
  (S (length (xc_input c')) = length (xc_input c) /\
   exists q, m_act m (xc_state c) (t_sym (next_tok eoi (xc_input c))) (map t_sym (tl (xc_input c))) = Shift q).
Proof.
  destruct (xstep_cases c) as [q e _ _| |]; intros E; try discriminate; injection E as <-; cbn [shifted reduced xc_input]; auto.
  destruct (after_shift_length (xc_input c)) as [[_ H]|H]; eauto.
Qed.

End X.
