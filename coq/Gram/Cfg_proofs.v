(* Lemmas of the executable helpers of Cfg.v: the sorted lists of Z used as sets (mem, ins, union), zl_eqb,
   iterate and is_term. *)
From Coq Require Import List ZArith Bool Lia.
From TM Require Import Gram.Cfg.
Import ListNotations.
Local Open Scope Z_scope.

Lemma mem_In x l : mem x l = true <-> In x l.
Proof.
  unfold mem. rewrite existsb_exists. split.
  - intros (y & Hy & E). apply Z.eqb_eq in E. now subst.
  - intro H. exists x. split; [exact H|apply Z.eqb_refl].
Qed.

Lemma mem_ins x y l : mem x (ins y l) = (x =? y) || mem x l.
Proof.
  unfold mem. induction l as [|z l IH]; cbn [ins existsb].
  - now rewrite orb_false_r.
  - destruct (y <? z) eqn:E1; [reflexivity|]. destruct (y =? z) eqn:E2.
    + apply Z.eqb_eq in E2. subst. cbn [existsb]. destruct (x =? z); reflexivity.
    + cbn [existsb]. rewrite IH. destruct (x =? z), (x =? y); reflexivity.
Qed.

Lemma mem_union x a b : mem x (union a b) = mem x a || mem x b.
Proof.
  unfold union. revert b. induction a as [|y a IH]; intro b; cbn [fold_left].
  - reflexivity.
  - rewrite IH, mem_ins. unfold mem at 3. cbn [existsb]. fold (mem x a).
    destruct (x =? y), (mem x a), (mem x b); reflexivity.
Qed.

Lemma ins_In x y l : In y (ins x l) <-> y = x \/ In y l.
Proof. rewrite <- !mem_In, mem_ins, orb_true_iff, Z.eqb_eq. reflexivity. Qed.

Lemma union_In a b y : In y (union a b) <-> In y a \/ In y b.
Proof. rewrite <- !mem_In, mem_union, orb_true_iff. reflexivity. Qed.

Lemma zl_eqb_eq a b : zl_eqb a b = true <-> a = b.
Proof.
  revert b; induction a as [|x a IH]; intros [|y b]; cbn; try (split; congruence).
  rewrite andb_true_iff, Z.eqb_eq, IH. split; [intros [-> ->]; reflexivity|intro E; injection E; auto].
Qed.

Lemma iterate_inv {A} (P : A -> Prop) (f : A -> A) n x : P x -> (forall y, P y -> P (f y)) -> P (iterate n f x).
Proof. intros Hx Hf. revert x Hx; induction n; cbn; auto. Qed.

Lemma is_term_spec g s : is_term g s = true <-> 0 <= s < g_terms g.
Proof. unfold is_term. rewrite andb_true_iff, Z.leb_le, Z.ltb_lt. reflexivity. Qed.

(* inserting can only lengthen a list, and leaves it as it is unless it does *)
Lemma ins_len x l : (length l <= length (ins x l))%nat /\ (length (ins x l) = length l -> ins x l = l).
Proof.
  induction l as [|y l [IH1 IH2]]; simpl.
  - split; [lia|discriminate].
  - destruct (x <? y); [simpl; split; [lia|intros; lia]|].
    destruct (x =? y); [split; auto|]. simpl. split; [lia|]. intros H. f_equal. apply IH2. lia.
Qed.

Lemma union_len a b : (length b <= length (union a b))%nat /\ (length (union a b) = length b -> union a b = b).
Proof.
  unfold union. revert b; induction a as [|x a IH]; intros b; simpl; [split; auto|].
  destruct (IH (ins x b)) as [H1 H2]. destruct (ins_len x b) as [H3 H4]. split; [lia|].
  intros H. assert (E : ins x b = b) by (apply H4; lia). rewrite E in *. apply H2. exact H.
Qed.

(* first_table as a finite map to sets *)
Lemma ft_get_add t X l Y a : In a (ft_get (ft_add t X l) Y) <-> In a (ft_get t Y) \/ (Y = X /\ In a l).
Proof.
  induction t as [|[y l0] t IH]; simpl.
  - destruct (Z.eqb_spec X Y) as [->|]; simpl.
    + split; [auto|intros [[]|[_ H]]; exact H].
    + split; [intros []|intros [[]|[E _]]; congruence].
  - destruct (Z.eqb_spec y X) as [->|]; simpl.
    + destruct (Z.eqb_spec X Y) as [->|].
      * rewrite union_In. split; [intros [H|H]; auto|intros [H|[_ H]]; auto].
      * split; [auto|intros [H|[E _]]; [exact H|congruence]].
    + destruct (Z.eqb_spec y Y) as [->|]; [|apply IH]. split; [auto|intros [H|[E _]]; [exact H|congruence]].
Qed.

Lemma ft_add_fixed t x l : ft_add t x l = t -> incl l (ft_get t x).
Proof. intros H a Ha. rewrite <- H. apply ft_get_add. auto. Qed.
