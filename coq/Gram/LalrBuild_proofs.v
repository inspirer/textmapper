(* C03: build_automaton.  One invariant of build_loop's work list (INV) gives build_loop_sound for every fuel and,
   with an empty work list, the description GI of the automaton: start states, states that are THE goto of their
   sources, synthesized states.  GI implies what the LALR(1) theorems ask (GI_lr0_ok), and the two steps of
   add_finals (a synthesized state with a transition to it; a private copy of the accepting state) keep it. *)
From Coq Require Import List ZArith Bool Lia.
From TM Require Import Lib.ListX Gram.Cfg Gram.LalrRef Gram.LalrSpec Gram.LalrSpec_proofs Gram.LalrCert Gram.LalrClosure_proofs Gram.LalrDone.
Import ListNotations.
Local Open Scope Z_scope.

Lemma items_eqb_eq a b : items_eqb a b = true -> a = b.
Proof.
  revert b; induction a as [|x a IH]; intros [|y b]; simpl; try discriminate; auto.
  intros H. apply andb_true_iff in H. destruct H as [H1 H2]. apply item_eqb_eq in H1. subst. f_equal. auto.
Qed.

Lemma state_eqb_eq a b : state_eqb a b = true -> a = b.
Proof.
  destruct a as [ka sa da], b as [kb sb db]. unfold state_eqb. simpl. intros H.
  apply andb_true_iff in H. destruct H as [H H3]. apply andb_true_iff in H. destruct H as [H1 H2].
  apply items_eqb_eq in H1. apply Z.eqb_eq in H2. subst.
  destruct sa as [x|], sb as [y|]; try discriminate; auto. apply Z.eqb_eq in H3. subst. reflexivity.
Qed.

Lemma find_state_some s l : forall i j, find_state s l i = Some j ->
  i <= j /\ nth_error l (Z.to_nat (j - i)) = Some s.
Proof.
  induction l as [|x l IH]; intros i j H; simpl in H; [discriminate|].
  destruct (state_eqb x s) eqn:E.
  - injection H as <-. apply state_eqb_eq in E. subst. replace (i - i) with 0 by lia. split; [lia|reflexivity].
  - apply IH in H. destruct H as [H1 H2]. split; [lia|].
    replace (Z.to_nat (j - i)) with (S (Z.to_nat (j - (i + 1)))) by lia. exact H2.
Qed.

Section Build.
Variable g : grammar.

Definition start_states : list lstate := map (fun inp => mkState [] (Some (fst inp)) 0) (g_inputs g).
Definition vin (i : Z) : Prop := 0 <= i /\ exists inp, nth_error (g_inputs g) (Z.to_nat i) = Some inp.
Definition gk (st : lstate) (s : Z) : list item := goto_kernel g (st_items g st) s.
Definition ordinary (st : lstate) : Prop := s_seed st = None /\ s_kind st = 0.

Definition expand_sym (k : Z) (cl : list item) (a : automaton) (sym : Z) : automaton :=
  let kern := goto_kernel g cl sym in
  match kern with
  | [] => a
  | _ =>
      let tgt := mkState kern None 0 in
      match find_state tgt (a_states a) 0 with
      | Some j => mkAut (a_states a) (a_trans a ++ [(k, sym, j)])
      | None => mkAut (a_states a ++ [tgt]) (a_trans a ++ [(k, sym, Z.of_nat (length (a_states a)))])
      end
  end.

Lemma expand_state_eq a k :
  expand_state g a k =
  let st := nth (Z.to_nat k) (a_states a) (mkState [] None 0) in
  if negb (s_kind st =? 0) then a else fold_left (expand_sym k (st_items g st)) (zrange (nsyms g)) a.
Proof. reflexivity. Qed.

Record INV (a : automaton) (k : Z) (proc : list Z) : Prop := {
  i_k : 0 <= k;
  i_st : exists rest, a_states a = start_states ++ rest /\ Forall ordinary rest;
  i_tr : forall f s t, In (f, s, t) (a_trans a) ->
           (f < k \/ (f = k /\ In s proc)) /\ trans_target a f s = Some t /\
           exists st, st_at a f st /\ gk st s <> [] /\ st_at a t (mkState (gk st s) None 0);
  i_tot : forall q st s, st_at a q st -> q < k \/ (q = k /\ In s proc) -> In s (zrange (nsyms g)) -> gk st s <> [] ->
           exists j, trans_target a q s = Some j;
  i_reach : forall q st, st_at a q st -> exists i gamma, vin i /\ reach a i gamma q
}.

Lemma start_INV : INV (mkAut start_states []) 0 [].
Proof.
  constructor; [lia|exists []; rewrite app_nil_r; auto|intros f s t []|intros q st s Hq [Hp|[_ []]]; destruct Hq; lia|].
  intros q st Hst. exists q, []. split; [|constructor]. destruct Hst as [Hq Hst]. split; [exact Hq|].
  simpl in Hst. unfold start_states in Hst. rewrite nth_error_map in Hst.
  destruct (nth_error (g_inputs g) (Z.to_nat q)); [eauto|discriminate].
Qed.

Lemma inv_kind a k proc q st : INV a k proc -> st_at a q st -> s_kind st = 0.
Proof.
  intros [_ (rest & E & Hf) _ _ _] [_ H]. rewrite E in H. apply nth_error_In, in_app_or in H. destruct H as [H|H].
  - apply in_map_iff in H. destruct H as (inp & <- & _). reflexivity.
  - rewrite Forall_forall in Hf. apply Hf, H.
Qed.

Lemma proc_cons (f k s sym : Z) proc : f < k \/ (f = k /\ In s proc) -> f < k \/ (f = k /\ In s (sym :: proc)).
Proof. intros [H|[H1 H2]]; [left; exact H|right; split; [exact H1|right; exact H2]]. Qed.

Lemma INV_skip a k proc st sym : st_at a k st -> gk st sym = [] -> INV a k proc -> INV a k (sym :: proc).
Proof.
  intros Hst Hnil [Hk HST HTR HTOT HRE]. constructor; auto.
  - intros f s t Hin. destruct (HTR f s t Hin) as (H1 & H2). split; [apply proc_cons, H1|exact H2].
  - intros q st' s Hq [Hp|[-> [<-|Hp]]]; eauto. intros _ Hne. destruct Hst as [_ Hst], Hq as [_ Hq]. congruence.
Qed.

Lemma INV_next a k proc : INV a k proc -> (forall s, In s (zrange (nsyms g)) -> In s proc) -> INV a (k + 1) [].
Proof.
  intros [Hk HST HTR HTOT HRE] Hall. constructor; auto; [lia| |].
  - intros f s t Hin. destruct (HTR f s t Hin) as (H1 & H2). split; [left; lia|exact H2].
  - intros q st s Hq [Hp|[_ []]] Hs. apply (HTOT q st s Hq); auto.
    destruct (Z.eq_dec q k) as [->|]; [right; auto|left; lia].
Qed.

Lemma INV_add_trans sts tr k proc st sym sts' ext j :
  INV (mkAut sts tr) k proc -> st_at (mkAut sts tr) k st -> ~ In sym proc -> gk st sym <> [] ->
  sts' = sts ++ ext -> Forall ordinary ext ->
  st_at (mkAut sts' tr) j (mkState (gk st sym) None 0) ->
  (forall q st', st_at (mkAut sts' tr) q st' -> st_at (mkAut sts tr) q st' \/ q = j) ->
  INV (mkAut sts' (tr ++ [(k, sym, j)])) k (sym :: proc).
Proof.
  intros [Hk HST HTR HTOT HRE] Hst Hfresh Hne -> Hext Hj Hcase.
  set (a := mkAut sts tr) in *. set (a' := mkAut (sts ++ ext) (tr ++ [(k, sym, j)])).
  assert (Hup : forall q st', st_at a q st' -> st_at a' q st') by (intros; eapply st_at_app; eauto).
  assert (Hmono : forall q s t, trans_target a q s = Some t -> trans_target a' q s = Some t)
    by (intros; eapply trans_target_app_l; eauto).
  assert (Hnew : trans_target a' k sym = Some j).
  { apply trans_target_new. intros t Hin. destruct (HTR _ _ _ Hin) as ([H|[_ H]] & _); [lia|auto]. }
  constructor; [exact Hk| | | |].
  - destruct HST as (rest & E & Hf). exists (rest ++ ext). simpl in *. rewrite E, app_assoc. split; auto.
    apply Forall_app; auto.
  - intros f s t Hin. apply in_app_or in Hin. destruct Hin as [Hin|[[= <- <- <-]|[]]].
    + destruct (HTR f s t Hin) as (H1 & H2 & st' & H3 & H4 & H5). split; [apply proc_cons, H1|]. split; [auto|]. exists st'. auto.
    + split; [simpl; auto|]. split; [exact Hnew|]. exists st. auto.
  - intros q st' s Hq Hp Hs Hne'.
    assert (Hq' : st_at a q st').
    { apply (st_at_app_inv sts ext tr _ q st' Hq). pose proof (st_at_lt _ _ _ Hst). simpl in *. lia. }
    destruct Hp as [Hp|[-> [<-|Hp]]]; [|eauto|].
    + destruct (HTOT q st' s Hq' (or_introl Hp) Hs Hne') as [j' Hj']. eauto.
    + destruct (HTOT k st' s Hq' (or_intror (conj eq_refl Hp)) Hs Hne') as [j' Hj']. eauto.
  - intros q st' Hq. destruct (Hcase q st' Hq) as [Hq'|E]; [|subst q].
    + destruct (HRE q st' Hq') as (i & gamma & Hi & Hr). exists i, gamma. split; auto. eapply reach_mono; eauto.
    + destruct (HRE k st Hst) as (i & gamma & Hi & Hr). exists i, (gamma ++ [sym]). split; auto.
      econstructor; [eapply reach_mono; eauto|exact Hnew].
Qed.

Lemma expand_sym_inv k st a proc sym :
  st_at a k st -> INV a k proc -> ~ In sym proc ->
  let a' := expand_sym k (st_items g st) a sym in st_at a' k st /\ INV a' k (sym :: proc).
Proof.
  intros Hst HI Hfresh. unfold expand_sym. cbv zeta. fold (gk st sym).
  destruct (gk st sym) as [|it0 kern0] eqn:Ekern; [split; [exact Hst|apply (INV_skip a k proc st); auto]|].
  rewrite <- Ekern. assert (Hne : gk st sym <> []) by (rewrite Ekern; discriminate).
  destruct a as [sts tr]. cbn [a_states a_trans].
  destruct (find_state (mkState (gk st sym) None 0) sts 0) as [j|] eqn:Efind.
  - apply find_state_some in Efind. rewrite Z.sub_0_r in Efind.
    split; [exact Hst|]. apply (INV_add_trans sts tr k proc st sym sts [] j); auto using app_nil_r.
  - split; [eapply st_at_app, Hst|]. apply (INV_add_trans sts tr k proc st sym _ [mkState (gk st sym) None 0]); auto.
    + repeat constructor.
    + apply (st_at_snoc sts _ tr). auto.
    + intros q st' H. apply (st_at_snoc sts _ tr) in H. destruct H as [H|[-> _]]; auto.
Qed.

Lemma expand_fold_inv k st : forall syms a proc,
  NoDup syms -> (forall x, In x syms -> ~ In x proc) -> st_at a k st -> INV a k proc ->
  INV (fold_left (expand_sym k (st_items g st)) syms a) k (rev syms ++ proc).
Proof.
  induction syms as [|x syms IH]; intros a proc Hnd Hdis Hst HI; simpl; [exact HI|].
  inversion Hnd as [|x' l' Hx Hnd']; subst.
  destruct (expand_sym_inv k st a proc x Hst HI (Hdis x (or_introl eq_refl))) as (Hst' & HI').
  rewrite <- app_assoc. simpl. apply IH; auto.
  intros y Hy [<-|Hp]; [contradiction|]. apply (Hdis y (or_intror Hy) Hp).
Qed.

Lemma build_loop_inv fuel : forall a k, INV a k [] ->
  exists k', INV (build_loop fuel g a k) k' [] /\
             (build_done fuel g a k = true -> Z.of_nat (length (a_states (build_loop fuel g a k))) <= k').
Proof.
  induction fuel as [|fuel IH]; intros a k HI; simpl.
  - exists k. split; [exact HI|]. intros Hd. apply negb_true_iff, Z.ltb_ge in Hd. exact Hd.
  - destruct (Z.ltb_spec k (Z.of_nat (length (a_states a)))) as [Hlt|Hge]; [|exists k; auto].
    apply IH. destruct (st_at_ex a k) as [st Hst]; [split; [apply HI|exact Hlt]|].
    rewrite expand_state_eq. cbv zeta. rewrite (nth_error_nth _ _ _ (proj2 Hst)), (inv_kind a k [] k st HI Hst). simpl.
    apply (INV_next _ k (rev (zrange (nsyms g)) ++ [])); [apply expand_fold_inv; auto using zrange_NoDup|].
    intros s Hs. apply in_or_app. left. apply in_rev in Hs. exact Hs.
Qed.

Definition synP (st : lstate) : Prop :=
  s_kernel st = [] /\ s_kind st <> 0 /\ exists j, 0 <= j /\ s_seed st = Some (-1 - j).

Lemma starts_at a rest i nt e : a_states a = start_states ++ rest ->
  0 <= i -> nth_error (g_inputs g) (Z.to_nat i) = Some (nt, e) -> st_at a i (mkState [] (Some nt) 0).
Proof.
  intros E Hi Hinp. split; [exact Hi|]. rewrite E, nth_error_app1.
  - unfold start_states. rewrite nth_error_map, Hinp. reflexivity.
  - unfold start_states. rewrite map_length. apply nth_error_Some. congruence.
Qed.

(* Exactness: a state holds only items valid for EVERY string reaching it, when the start states are in place and
   a transition leads to the goto of its source or to a state without items. *)
Lemma exact_of_trans a :
  (forall i nt e, 0 <= i -> nth_error (g_inputs g) (Z.to_nat i) = Some (nt, e) -> st_at a i (mkState [] (Some nt) 0)) ->
  (forall q X q' st', trans_target a q X = Some q' -> st_at a q' st' ->
     (s_kernel st' = [] /\ st_items g st' = []) \/ exists st, st_at a q st /\ st' = mkState (gk st X) None 0) ->
  forall i gamma q st, reach a i gamma q -> vin i -> st_at a q st ->
  (forall it, In it (s_kernel st) -> lr0_kernel g i gamma it) /\
  (forall it, In it (st_items g st) -> lr0_valid g i gamma it).
Proof.
  intros Hstart Htr i gamma q st Hreach [Hi ([nt e] & Hinp)]. revert st.
  induction Hreach as [|gamma q X q' Hreach IH Hx]; intros st Hst.
  - destruct (Hstart i nt e Hi Hinp) as [_ Hst']. destruct Hst as [_ Hst]. rewrite Hst in Hst'. injection Hst' as ->.
    split; [intros it []|]. eapply closure_valid_start; eauto.
  - destruct (Htr q X q' st Hx Hst) as [[E1 E2]|(st0 & Hst0 & ->)]; [rewrite E1, E2; split; intros it []|].
    assert (Hk : forall it, In it (gk st0 X) -> lr0_kernel g i (gamma ++ [X]) it).
    { intros it Hit. apply goto_kernel_In in Hit. destruct Hit as (it0 & Hin0 & Es & ->).
      exists gamma, X, it0. repeat split; auto. apply (IH st0 Hst0), Hin0. }
    split; [exact Hk|]. apply closure_valid_kernel, Hk.
Qed.

Lemma inv_sound a k proc q st : INV a k proc -> st_at a q st ->
  exists i gamma, reach a i gamma q /\
                  (forall it, In it (s_kernel st) -> lr0_kernel g i gamma it) /\
                  (forall it, In it (st_items g st) -> lr0_valid g i gamma it).
Proof.
  intros [_ (rest & E & _) HTR _ HRE] Hst. destruct (HRE q st Hst) as (i & gamma & Hi & Hr).
  exists i, gamma. split; [exact Hr|]. apply (exact_of_trans a) with (q := q); auto; [intros; eapply starts_at; eauto|].
  intros f X t st' Hx Ht. apply trans_target_In in Hx. destruct (HTR f X t Hx) as (_ & _ & stf & Hf & _ & [_ Ht']).
  right. exists stf. destruct Ht as [_ Ht]. split; congruence.
Qed.

(* An automaton made of the start states, states built by goto, and synthesized states (no items, entered where
   the collection has no transition): what build_loop has reached when its work list is empty, and what
   add_finals keeps.  A transition appended behind one with the same source and symbol is never taken. *)
Record GI (a : automaton) : Prop := {
  g_st : exists rest, a_states a = start_states ++ rest /\ Forall (fun st => ordinary st \/ synP st) rest;
  g_wf : forall f s t, In (f, s, t) (a_trans a) ->
           0 <= f < Z.of_nat (length (a_states a)) /\ 0 <= t < Z.of_nat (length (a_states a));
  g_tr : forall f s t stf stt, trans_target a f s = Some t -> st_at a f stf -> st_at a t stt ->
           (s_kind stf = 0 /\ gk stf s <> [] /\ stt = mkState (gk stf s) None 0) \/
           (synP stt /\ (s_kind stf = 0 -> gk stf s = []));
  g_tot : forall q st s, st_at a q st -> s_kind st = 0 -> gk st s <> [] -> exists j, trans_target a q s = Some j;
  g_reach : forall q st, st_at a q st -> s_kind st = 0 -> exists i gamma, vin i /\ reach a i gamma q;
  g_shadow : forall f s t stt, In (f, s, t) (a_trans a) -> st_at a t stt -> s_kind stt = 0 ->
           trans_target a f s = Some t
}.

Lemma tt_targets a f s t : GI a -> trans_target a f s = Some t ->
  0 <= f < Z.of_nat (length (a_states a)) /\ 0 <= t < Z.of_nat (length (a_states a)).
Proof. intros HG H. apply trans_target_In in H. eapply g_wf; eauto. Qed.

Lemma synP_kind st : synP st -> s_kind st = 0 -> False.
Proof. intros (_ & H & _) E. auto. Qed.

Lemma GI_kinds a q st : GI a -> st_at a q st -> s_kind st = 0 \/ synP st.
Proof.
  intros HG [_ H]. destruct (g_st _ HG) as (rest & E & Hf). rewrite E in H. apply nth_error_In, in_app_or in H.
  destruct H as [H|H].
  - apply in_map_iff in H. destruct H as (inp & <- & _). auto.
  - rewrite Forall_forall in Hf. destruct (Hf _ H) as [[_ Hk]|Hs]; auto.
Qed.

Hypothesis Hterms : 0 <= g_terms g.
Hypothesis Hrange : lhs_in_range g.

Lemma synP_items st : synP st -> st_items g st = [].
Proof.
  intros (Hk & _ & j & Hj & Hs). unfold st_items, closure. rewrite Hk, Hs.
  destruct (rules_of g (-1 - j)) as [|r rs] eqn:E; [simpl; apply iterate_fixed_stays; reflexivity|].
  destruct (rules_of_lhs g (-1 - j) r) as (rl & Hrl & Hl); [rewrite E; left; reflexivity|].
  specialize (Hrange rl Hrl). lia.
Qed.

Theorem GI_lr0_ok a : GI a -> lr0_ok g a.
Proof.
  intros HG. destruct (g_st _ HG) as (rest & E & Hf).
  assert (Hstarts : forall i nt e, 0 <= i -> nth_error (g_inputs g) (Z.to_nat i) = Some (nt, e) ->
                    st_at a i (mkState [] (Some nt) 0)) by (intros; eapply starts_at; eauto).
  assert (Hgoto : forall q st it s, st_at a q st -> In it (st_items g st) -> sym_after g it = Some s ->
                  s_kind st = 0 /\ gk st s <> []).
  { intros q st it s Hst Hit Es. destruct (GI_kinds a q st HG Hst) as [Hk|Hs]; [|rewrite (synP_items st Hs) in Hit; destruct Hit].
    split; [exact Hk|]. intros En. assert (H : In (fst it, snd it + 1) (gk st s)) by (apply goto_kernel_In; eauto).
    rewrite En in H. destruct H. }
  assert (Hst' : starts_present g a).
  { intros i nt e Hi Hinp. destruct (Hstarts i nt e Hi Hinp) as [_ H]. eauto. }
  constructor; [| |exact Hst'| |].
  - intros q st nt Hq Hst Hseed Hkind. rewrite E in Hst.
    destruct (lt_dec (Z.to_nat q) (length start_states)) as [Hl|Hl].
    + rewrite nth_error_app1 in Hst by auto. unfold start_states in Hst. rewrite nth_error_map in Hst.
      destruct (nth_error (g_inputs g) (Z.to_nat q)) as [[nt' e]|]; [|discriminate].
      injection Hst as <-. simpl in Hseed. injection Hseed as ->. eauto.
    + rewrite nth_error_app2 in Hst by lia. apply nth_error_In in Hst. rewrite Forall_forall in Hf.
      destruct (Hf _ Hst) as [[Hs _]|Hs]; [congruence|destruct (synP_kind _ Hs Hkind)].
  - intros q st it Hq Hst Hit. change (In it (st_items g st)) in Hit. pose proof (conj Hq Hst : st_at a q st) as Hat.
    destruct (GI_kinds a q st HG Hat) as [Hk|Hs]; [|rewrite (synP_items st Hs) in Hit; destruct Hit].
    destruct (g_reach _ HG q st Hat Hk) as (i & gamma & Hi & Hr). exists i, gamma. split; [exact Hr|].
    apply (exact_of_trans a Hstarts) with (q := q) (st := st); auto.
    intros f X t st' Hx Ht. destruct (st_at_ex a f) as [stf Hstf]; [apply (tt_targets a f X t HG Hx)|].
    destruct (g_tr _ HG f X t stf st' Hx Hstf Ht) as [(_ & _ & ->)|[Hs _]]; [eauto|].
    left. split; [apply Hs|apply synP_items, Hs].
  - apply complete_of_local; [exact Hst'|intros; apply closure_closed, Hrange|].
    intros q st it s q' Hst Hit Es Htr. destruct (st_at_ex a q') as [st' Hq']; [apply (tt_targets a q s q' HG Htr)|].
    destruct (Hgoto q st it s Hst Hit Es) as [Hk Hne]. exists st'. split; [exact Hq'|].
    destruct (g_tr _ HG q s q' st st' Htr Hst Hq') as [(_ & _ & ->)|[_ Hn]]; [|destruct (Hne (Hn Hk))].
    apply closure_incl_kernel, goto_kernel_In. eauto.
  - intros q st it s Hq Hst Hit Es. destruct (Hgoto q st it s (conj Hq Hst) Hit Es) as [Hk Hne].
    apply (g_tot _ HG q st s (conj Hq Hst) Hk Hne).
Qed.

Hypothesis Hrhs : forall r s, In r (g_rules g) -> In s (r_rhs r) -> 0 <= s < nsyms g.

Lemma sym_after_range it s : sym_after g it = Some s -> 0 <= s < nsyms g.
Proof.
  unfold sym_after, rule_at. intros H. apply nth_error_In in H.
  destruct (nth_error (g_rules g) (Z.to_nat (fst it))) as [rl|] eqn:E.
  - rewrite (nth_error_nth _ _ _ E) in H. apply nth_error_In in E. eauto.
  - rewrite nth_overflow in H by (apply nth_error_None; exact E). destruct H.
Qed.

Lemma INV_GI a k : INV a k [] -> Z.of_nat (length (a_states a)) <= k -> GI a.
Proof.
  intros HI Hk. pose proof HI as [_ (rest & E & Hf) HTR HTOT HRE]. constructor.
  - exists rest. split; [exact E|]. eapply Forall_impl; [|exact Hf]. auto.
  - intros f s t Hin. destruct (HTR f s t Hin) as (_ & _ & st & Hf' & _ & Ht).
    split; [apply (st_at_lt a f st Hf')|apply (st_at_lt a t _ Ht)].
  - intros f s t stf stt Hx [_ Hf'] [_ Ht]. apply trans_target_In in Hx.
    destruct (HTR f s t Hx) as (_ & _ & st & Hst & Hne & [_ Ht']). pose proof (inv_kind a k [] f st HI Hst) as Hkind.
    destruct Hst as [_ Hst]. left. assert (st = stf) by congruence. subst st. repeat split; auto. congruence.
  - intros q st s Hst _ Hne. apply (HTOT q st s Hst); auto; [left; pose proof (st_at_lt a q st Hst); lia|].
    destruct (gk st s) as [|it l] eqn:Eg; [destruct (Hne eq_refl)|].
    assert (H : In it (gk st s)) by (rewrite Eg; left; reflexivity).
    apply goto_kernel_In in H. destruct H as (it0 & _ & Es & _). apply in_zrange. eapply sym_after_range; eauto.
  - intros q st Hst _. apply (HRE q st Hst).
  - intros f s t stt Hin _ _. apply (HTR f s t Hin).
Qed.
End Build.

Lemma wf_grammar_range g : wf_grammar g = true ->
  0 <= g_terms g /\ lhs_in_range g /\ (forall r s, In r (g_rules g) -> In s (r_rhs r) -> 0 <= s < nsyms g).
Proof.
  unfold wf_grammar. intros H. apply andb_true_iff in H. destruct H as [H0 H]. rewrite forallb_forall in H.
  split; [apply Z.leb_le, H0|]. split.
  - intros r Hr. specialize (H r Hr). apply andb_true_iff in H. destruct H as [H _].
    apply andb_true_iff in H. destruct H as [H1 H2]. apply Z.leb_le in H1. apply Z.ltb_lt in H2. lia.
  - intros r s Hr Hs. specialize (H r Hr). apply andb_true_iff in H. destruct H as [_ H].
    rewrite forallb_forall in H. specialize (H s Hs). apply andb_true_iff in H. destruct H as [H1 H2].
    apply Z.leb_le in H1. apply Z.ltb_lt in H2. lia.
Qed.

Theorem build_loop_sound g fuel :
  let a := build_loop fuel g (mkAut (start_states g) []) 0 in
  forall q st, 0 <= q -> nth_error (a_states a) (Z.to_nat q) = Some st ->
  exists i gamma, reach a i gamma q /\
                  (forall it, In it (s_kernel st) -> lr0_kernel g i gamma it) /\
                  (forall it, In it (closure g (s_kernel st) (s_seed st)) -> lr0_valid g i gamma it).
Proof.
  intros a q st Hq Hst. destruct (build_loop_inv g fuel _ 0 (start_INV g)) as (k & HI & _).
  apply (inv_sound g _ k [] q st HI (conj Hq Hst)).
Qed.

Theorem build_loop_GI g fuel : wf_grammar g = true -> ref_done g fuel = true ->
  GI g (build_loop fuel g (mkAut (start_states g) []) 0).
Proof.
  intros Hwf Hd. destruct (wf_grammar_range g Hwf) as (_ & _ & Hr).
  destruct (build_loop_inv g fuel _ 0 (start_INV g)) as (k & HI & Hk). apply (INV_GI g Hr _ k HI (Hk Hd)).
Qed.

Theorem build_loop_complete g fuel :
  wf_grammar g = true -> ref_done g fuel = true ->
  let a := build_loop fuel g (mkAut (start_states g) []) 0 in lr0_ok g a.
Proof.
  intros Hwf Hd a. destruct (wf_grammar_range g Hwf) as (H0 & H1 & _).
  apply (GI_lr0_ok g H0 H1), build_loop_GI; assumption.
Qed.

Section Redirect.
Variables (i t c : Z) (tr : list (Z * Z * Z)).
Definition redir (f y : Z) : Z := if (f =? i) && (y =? t) then c else y.
Definition red : list (Z * Z * Z) := map (fun '(f, s, t') => if (f =? i) && (t' =? t) then (f, s, c) else (f, s, t')) tr.
Definition cop : list (Z * Z * Z) := flat_map (fun '(f, s, t') => if f =? t then [(c, s, t')] else []) tr.

Lemma tt_red sts sts' f s :
  trans_target (mkAut sts' red) f s = option_map (redir f) (trans_target (mkAut sts tr) f s).
Proof.
  unfold trans_target, red. simpl. induction tr as [|[[f' s'] t'] l IH]; simpl; [reflexivity|].
  destruct ((f' =? i) && (t' =? t)) eqn:E; simpl; destruct (Z.eqb_spec f' f) as [->|]; simpl; auto;
    destruct (s' =? s); simpl; auto; unfold redir; rewrite E; reflexivity.
Qed.

Lemma tt_cop sts sts' f s :
  trans_target (mkAut sts' cop) f s = if f =? c then trans_target (mkAut sts tr) t s else None.
Proof.
  unfold trans_target, cop. simpl. induction tr as [|[[f' s'] t'] l IH]; simpl; [destruct (f =? c); reflexivity|].
  destruct (f' =? t); simpl; auto. rewrite (Z.eqb_sym c f). destruct (f =? c); simpl; auto. destruct (s' =? s); auto.
Qed.

Lemma tt_redirect sts sts' f s :
  (forall s' t', ~ In (c, s', t') tr) ->
  trans_target (mkAut sts' (red ++ cop)) f s =
  if f =? c then trans_target (mkAut sts tr) t s else option_map (redir f) (trans_target (mkAut sts tr) f s).
Proof.
  intros Hwf. rewrite (trans_target_app _ sts sts), (tt_red sts), (tt_cop sts). destruct (Z.eqb_spec f c) as [->|].
  - destruct (trans_target (mkAut sts tr) c s) as [y|] eqn:E; [|reflexivity]. apply trans_target_In in E. destruct (Hwf _ _ E).
  - destruct (trans_target (mkAut sts tr) f s); reflexivity.
Qed.
(* the state before the copy step from which a state after it is taken; it simulates in both directions *)
Definition orig (q : Z) : Z := if q =? c then t else q.

Variables sts sts' : list lstate.
Hypothesis Hwf : forall f s y, In (f, s, y) tr -> 0 <= f < c /\ 0 <= y < c.

Lemma tt_copy f s : trans_target (mkAut sts' (red ++ cop)) f s =
  if f =? c then trans_target (mkAut sts tr) t s else option_map (redir f) (trans_target (mkAut sts tr) f s).
Proof. apply tt_redirect. intros s' t' Hin. apply Hwf in Hin. lia. Qed.

Lemma tt_range f s y : trans_target (mkAut sts tr) f s = Some y -> 0 <= y < c.
Proof. intros H. apply trans_target_In, Hwf in H. apply H. Qed.

Lemma orig_redir f y : 0 <= y < c -> orig (redir f y) = y.
Proof.
  intros Hy. unfold orig, redir. destruct ((f =? i) && (y =? t)) eqn:E.
  - rewrite Z.eqb_refl. apply andb_true_iff in E. destruct E as [_ E]. apply Z.eqb_eq in E. auto.
  - destruct (Z.eqb_spec y c); [lia|reflexivity].
Qed.

Lemma tt_copy_fw f s t1 : trans_target (mkAut sts' (red ++ cop)) f s = Some t1 ->
  trans_target (mkAut sts tr) (orig f) s = Some (orig t1).
Proof.
  intros H. rewrite tt_copy in H. unfold orig at 1. destruct (f =? c).
  - pose proof (tt_range _ _ _ H). unfold orig. destruct (Z.eqb_spec t1 c); [lia|exact H].
  - destruct (trans_target (mkAut sts tr) f s) as [y|] eqn:E; [|discriminate]. injection H as <-.
    rewrite orig_redir; [reflexivity|apply (tt_range _ _ _ E)].
Qed.

Lemma tt_copy_bw f s y : trans_target (mkAut sts tr) (orig f) s = Some y ->
  exists t1, trans_target (mkAut sts' (red ++ cop)) f s = Some t1 /\ orig t1 = y.
Proof.
  intros H. rewrite tt_copy. unfold orig in H. destruct (f =? c).
  - exists y. split; [exact H|]. unfold orig. pose proof (tt_range _ _ _ H). destruct (Z.eqb_spec y c); [lia|reflexivity].
  - rewrite H. simpl. eexists. split; [reflexivity|]. apply orig_redir, (tt_range _ _ _ H).
Qed.

Lemma reach_copy i' gamma q : reach (mkAut sts tr) i' gamma q -> i' <> c ->
  exists q', reach (mkAut sts' (red ++ cop)) i' gamma q' /\ orig q' = q.
Proof.
  intros Hr Hi'. induction Hr as [|gamma q X y Hr IH Hx].
  - exists i'. split; [constructor|]. unfold orig. destruct (Z.eqb_spec i' c); [contradiction|reflexivity].
  - destruct IH as (q' & Hr' & <-). destruct (tt_copy_bw q' X y Hx) as (t1 & H1 & H2). exists t1. split; [econstructor; eauto|exact H2].
Qed.
End Redirect.

Section Finals.
Variable g : grammar.

Lemma vin_lt a i : GI g a -> vin g i -> 0 <= i < Z.of_nat (length (a_states a)).
Proof.
  intros HG (Hi & [nt e] & Hinp). destruct (g_st _ _ HG) as (rest & E & _). eapply st_at_lt, starts_at; eauto.
Qed.

Lemma GI_add_syn a f0 s0 syn :
  GI g a -> synP syn -> 0 <= f0 < Z.of_nat (length (a_states a)) ->
  GI g (mkAut (a_states a ++ [syn]) (a_trans a ++ [(f0, s0, Z.of_nat (length (a_states a)))])).
Proof.
  intros HG Hsyn Hf0. destruct a as [sts tr]. cbn [a_states a_trans] in *.
  set (c := Z.of_nat (length sts)) in *. set (a := mkAut sts tr) in *. set (a' := mkAut (sts ++ [syn]) (tr ++ [(f0, s0, c)])).
  assert (Hlt : forall f s t, trans_target a f s = Some t -> 0 <= f < c /\ 0 <= t < c) by (intros f s t; apply (tt_targets g a f s t HG)).
  assert (Hmono : forall f s t, trans_target a f s = Some t -> trans_target a' f s = Some t)
    by (intros; eapply trans_target_app_l; eauto).
  assert (Hold : forall q st, st_at a' q st -> q <> c -> st_at a q st).
  { intros q st H Hq. apply (st_at_snoc sts _ tr) in H. destruct H as [H|[-> _]]; [exact H|contradiction]. }
  assert (Hc : forall st, st_at a' c st -> synP st).
  { intros st H. apply (st_at_snoc sts _ tr) in H. destruct H as [H|[_ ->]]; [apply st_at_lt in H; simpl in H; lia|exact Hsyn]. }
  constructor.
  - destruct (g_st _ _ HG) as (rest & E & Hf). exists (rest ++ [syn]). simpl in *. rewrite E, app_assoc. split; auto.
    apply Forall_app; auto.
  - intros f s t Hin. simpl. rewrite app_length. simpl. fold c. apply in_app_or in Hin.
    destruct Hin as [Hin|[[= <- <- <-]|[]]]; [pose proof (g_wf _ _ HG f s t Hin) as H; simpl in H|]; lia.
  - intros f s t stf stt Htt Hf Ht. unfold a' in Htt. rewrite (trans_target_app _ sts sts) in Htt. fold a in Htt.
    destruct (trans_target a f s) as [t1|] eqn:E.
    + injection Htt as ->. destruct (Hlt _ _ _ E). apply (g_tr _ _ HG f s t); auto; apply Hold; auto; lia.
    + unfold trans_target in Htt. simpl in Htt. destruct ((f0 =? f) && (s0 =? s)) eqn:Ek; [|discriminate].
      injection Htt as <-. apply andb_true_iff in Ek. destruct Ek as [E1 E2]. apply Z.eqb_eq in E1, E2. subst f0 s0.
      right. split; [apply Hc, Ht|]. intros Hk. destruct (gk g stf s) eqn:Eg; [reflexivity|].
      destruct (g_tot _ _ HG f stf s) as [j Hj]; [apply Hold; auto; lia|exact Hk|rewrite Eg; discriminate|].
      rewrite Hj in E. discriminate.
  - intros q st s Hq Hk Hne. destruct (Z.eq_dec q c) as [->|Hqc]; [destruct (synP_kind _ (Hc st Hq) Hk)|].
    destruct (g_tot _ _ HG q st s (Hold _ _ Hq Hqc) Hk Hne) as [j Hj]. eauto.
  - intros q st Hq Hk. destruct (Z.eq_dec q c) as [->|Hqc]; [destruct (synP_kind _ (Hc st Hq) Hk)|].
    destruct (g_reach _ _ HG q st (Hold _ _ Hq Hqc) Hk) as (i & gamma & Hi & Hr). exists i, gamma. split; auto.
    eapply reach_mono; eauto.
  - intros f s t stt Hin Ht Hk. apply in_app_or in Hin.
    destruct Hin as [Hin|[[= <- <- <-]|[]]]; [|destruct (synP_kind _ (Hc stt Ht) Hk)].
    apply Hmono. destruct (g_wf _ _ HG f s t Hin) as [_ H2]. simpl in H2.
    apply (g_shadow _ _ HG f s t stt); auto. apply Hold; auto. lia.
Qed.

Lemma GI_copy a i t S st_t :
  GI g a -> vin g i -> trans_target a i S = Some t -> st_at a t st_t ->
  (exists f s', In (f, s', t) (a_trans a) /\ f <> i) ->
  let c := Z.of_nat (length (a_states a)) in
  GI g (mkAut (a_states a ++ [st_t]) (red i t c (a_trans a) ++ cop t c (a_trans a))).
Proof.
  intros HG Hvin Hit Hstt (fw & sw & Hinw & Hnew) c. destruct a as [sts tr]. cbn [a_states a_trans] in *.
  set (a := mkAut sts tr) in *. set (a' := mkAut (sts ++ [st_t]) (red i t c tr ++ cop t c tr)).
  assert (Hlt : forall f s y, trans_target a f s = Some y -> 0 <= f < c /\ 0 <= y < c) by (intros f s y; apply (tt_targets g a f s y HG)).
  assert (Hwf : forall f s y, In (f, s, y) tr -> 0 <= f < c /\ 0 <= y < c) by (apply (g_wf _ _ HG)).
  destruct (Hlt _ _ _ Hit) as [Hic Htc].
  pose proof (tt_copy i t c tr sts (sts ++ [st_t]) Hwf) as Htt. pose proof (orig_redir i t c) as Hor.
  pose proof (tt_copy_fw i t c tr sts (sts ++ [st_t]) Hwf) as Hfw. pose proof (tt_copy_bw i t c tr sts (sts ++ [st_t]) Hwf) as Hbw.
  pose proof (reach_copy i t c tr sts (sts ++ [st_t]) Hwf) as Hpath. fold a a' in Htt, Hfw, Hbw, Hpath. set (o := orig t c) in *.
  assert (Ho : forall q st, st_at a' q st -> st_at a (o q) st).
  { intros q st H. apply (st_at_snoc sts _ tr) in H. unfold o, orig. destruct H as [H|[-> ->]]; [|rewrite Z.eqb_refl; exact Hstt].
    pose proof (st_at_lt _ _ _ H). destruct (Z.eqb_spec q c); [simpl in *; lia|exact H]. }
  constructor.
  - destruct (g_st _ _ HG) as (rest & E & Hf). exists (rest ++ [st_t]). simpl in *. rewrite E, app_assoc. split; auto.
    apply Forall_app. split; [exact Hf|]. constructor; [|constructor].
    destruct (st_at_ex a i Hic) as [sti Hsti].
    destruct (g_tr _ _ HG i S t sti st_t Hit Hsti Hstt) as [(_ & _ & ->)|[Hs _]]; [left; split; reflexivity|right; exact Hs].
  - intros f s t1 Hin. simpl. rewrite app_length. simpl. fold c. apply in_app_or in Hin. destruct Hin as [Hin|Hin].
    + apply in_map_iff in Hin. destruct Hin as ([[f' s'] t'] & E & Hin). apply Hwf in Hin.
      destruct ((f' =? i) && (t' =? t)); injection E as <- <- <-; lia.
    + apply in_flat_map in Hin. destruct Hin as ([[f' s'] t'] & Hin & E). apply Hwf in Hin.
      destruct (f' =? t); [|destruct E]. destruct E as [E|[]]. injection E as <- <- <-. lia.
  - intros f s t1 stf stt Hx Hf Ht1. apply (g_tr _ _ HG (o f) s (o t1)); auto.
  - intros q st s Hq Hk Hne. destruct (g_tot _ _ HG (o q) st s (Ho _ _ Hq) Hk Hne) as [y Hy].
    destruct (Hbw q s y Hy) as (t1 & H1 & _). eauto.
  - intros q st Hq Hk. apply (st_at_snoc sts _ tr) in Hq. destruct Hq as [Hq|[-> ->]].
    + destruct (g_reach _ _ HG q st Hq Hk) as (i' & gamma & Hvi' & Hr).
      destruct (Hpath i' gamma q Hr) as (q' & Hr' & Hoq); [pose proof (vin_lt a i' HG Hvi'); simpl in *; lia|].
      unfold o, orig in Hoq. destruct (Z.eqb_spec q' c) as [->|]; [subst q|subst q'; eauto].
      (* this path ends in the copy: enter t from its other predecessor *)
      assert (st = st_t) by (apply (st_at_fun a t); assumption). subst st.
      pose proof (g_shadow _ _ HG fw sw t st_t Hinw Hstt Hk) as Hw. destruct (Hlt _ _ _ Hw) as [Hfw' _].
      destruct (st_at_ex a fw Hfw') as [stw Hstw].
      destruct (g_tr _ _ HG fw sw t stw st_t Hw Hstw Hstt) as [(Hkw & _)|[Hs _]]; [|destruct (synP_kind _ Hs Hk)].
      destruct (g_reach _ _ HG fw stw Hstw Hkw) as (i2 & gamma2 & Hvi2 & Hr2).
      destruct (Hpath i2 gamma2 fw Hr2) as (q2 & Hr2' & Hq2); [pose proof (vin_lt a i2 HG Hvi2); simpl in *; lia|].
      exists i2, (gamma2 ++ [sw]). split; auto. econstructor; [exact Hr2'|]. rewrite Htt.
      unfold o, orig in Hq2. destruct (Z.eqb_spec q2 c); subst fw; [exact Hw|]. rewrite Hw. simpl. unfold redir.
      destruct (Z.eqb_spec q2 i); [contradiction|reflexivity].
    + exists i, [S]. split; auto. apply (reach_step a' i [] i S c); [constructor|].
      rewrite Htt. destruct (Z.eqb_spec i c); [lia|]. rewrite Hit. simpl. unfold redir. rewrite !Z.eqb_refl. reflexivity.
  - intros f s t1 stt Hin Ht1 Hk. apply Ho in Ht1. rewrite Htt. apply in_app_or in Hin. destruct Hin as [Hin|Hin].
    + apply in_map_iff in Hin. destruct Hin as ([[f' s'] t'] & E & Hin). pose proof (Hwf _ _ _ Hin) as H.
      destruct ((f' =? i) && (t' =? t)) eqn:E2; injection E as <- <- <-; destruct (Z.eqb_spec f' c); try lia; unfold o, orig in Ht1.
      * rewrite Z.eqb_refl in Ht1. apply andb_true_iff in E2. destruct E2 as [E2 E3]. apply Z.eqb_eq in E2, E3. subst f' t'.
        rewrite (g_shadow _ _ HG i s' t stt Hin Ht1 Hk). simpl. unfold redir. rewrite !Z.eqb_refl. reflexivity.
      * destruct (Z.eqb_spec t' c); [lia|]. rewrite (g_shadow _ _ HG f' s' t' stt Hin Ht1 Hk). simpl.
        unfold redir. rewrite E2. reflexivity.
    + apply in_flat_map in Hin. destruct Hin as ([[f' s'] t'] & Hin & E). pose proof (Hwf _ _ _ Hin) as H.
      destruct (Z.eqb_spec f' t) as [->|]; [|destruct E]. destruct E as [E|[]]. injection E as <- <- <-.
      rewrite Z.eqb_refl. unfold o, orig in Ht1. destruct (Z.eqb_spec t' c); [lia|]. apply (g_shadow _ _ HG t s' t' stt Hin Ht1 Hk).
Qed.

Definition fin1 (acc : automaton * list Z) (x : Z * (Z * bool)) : automaton * list Z :=
  let '(a, lasts) := acc in let '(i, inp) := x in
  match trans_target a i (fst inp) with
  | Some t =>
      if existsb (fun '(f, _, t') => (t' =? t) && negb (f =? i)) (a_trans a) then
        let c := Z.of_nat (length (a_states a)) in
        let st := nth (Z.to_nat t) (a_states a) (mkState [] None 0) in
        let redirected := map (fun '(f, s, t') => if (f =? i) && (t' =? t) then (f, s, c) else (f, s, t')) (a_trans a) in
        let copied := flat_map (fun '(f, s, t') => if f =? t then [(c, s, t')] else []) (a_trans a) in
        (mkAut (a_states a ++ [st]) (redirected ++ copied), lasts ++ [c])
      else (a, lasts ++ [t])
  | None => let t := Z.of_nat (length (a_states a)) in
            (mkAut (a_states a ++ [mkState [] (Some (-1 - i)) 1]) (a_trans a ++ [(i, fst inp, t)]), lasts ++ [t])
  end.

Definition fin2 (lasts : list Z) (acc : automaton * list Z) (x : Z * (Z * bool)) : automaton * list Z :=
  let '(a, finals) := acc in let '(i, inp) := x in
  let lst := nth (Z.to_nat i) lasts 0 in
  if snd inp then
    let t := Z.of_nat (length (a_states a)) in
    (mkAut (a_states a ++ [mkState [] (Some (-1 - i)) 2]) (a_trans a ++ [(lst, 0, t)]), finals ++ [t])
  else (a, finals ++ [lst]).

Lemma add_finals_eq a :
  add_finals g a = let '(a1, lasts) := fold_left fin1 (indexed (g_inputs g)) (a, []) in
                   fold_left (fin2 lasts) (indexed (g_inputs g)) (a1, []).
Proof. reflexivity. Qed.

Lemma indexed_vin i inp : In (i, inp) (indexed (g_inputs g)) -> vin g i.
Proof. intros H. apply in_combine_zrange in H. destruct H as [H1 H2]. split; eauto. Qed.

Definition lasts_ok (a : automaton) (lasts : list Z) : Prop :=
  Forall (fun l => 0 <= l < Z.of_nat (length (a_states a))) lasts.

Lemma lasts_ok_grow a a' lasts l :
  (length (a_states a) <= length (a_states a'))%nat -> lasts_ok a lasts -> 0 <= l < Z.of_nat (length (a_states a')) ->
  lasts_ok a' (lasts ++ [l]).
Proof.
  intros Hle Hok Hl. apply Forall_app. split; [|constructor; auto].
  eapply Forall_impl; [|exact Hok]. intros x Hx. simpl in Hx. lia.
Qed.

Lemma syn_state_synP i k : 0 <= i -> k <> 0 -> synP (mkState [] (Some (-1 - i)) k).
Proof. intros Hi Hk. split; [reflexivity|]. split; [exact Hk|]. exists i. auto. Qed.

Lemma fin1_inv acc x : In x (indexed (g_inputs g)) ->
  GI g (fst acc) /\ lasts_ok (fst acc) (snd acc) ->
  GI g (fst (fin1 acc x)) /\ lasts_ok (fst (fin1 acc x)) (snd (fin1 acc x)).
Proof.
  destruct acc as [a lasts], x as [i inp]. intros Hin [HG Hok]. cbn [fst snd] in *.
  pose proof (indexed_vin i inp Hin) as Hvin. pose proof (vin_lt a i HG Hvin) as Hi.
  unfold fin1. destruct (trans_target a i (fst inp)) as [t|] eqn:Ett.
  - destruct (tt_targets g a _ _ _ HG Ett) as [_ Ht].
    destruct (existsb _ (a_trans a)) eqn:Eex.
    + cbv zeta. cbn [fst snd]. split.
      * apply (GI_copy a i t (fst inp)); auto.
        -- split; [lia|]. apply nth_error_nth'. lia.
        -- apply existsb_exists in Eex. destruct Eex as ([[f s'] t'] & Hin' & E).
           apply andb_true_iff in E. destruct E as [E1 E2]. apply Z.eqb_eq in E1. subst t'.
           apply negb_true_iff, Z.eqb_neq in E2. eauto.
      * apply (lasts_ok_grow a); auto; cbn [a_states]; rewrite app_length; simpl; lia.
    + cbn [fst snd]. split; auto. apply (lasts_ok_grow a); auto.
  - cbv zeta. cbn [fst snd]. split.
    + apply GI_add_syn; auto. apply syn_state_synP; lia.
    + apply (lasts_ok_grow a); auto; cbn [a_states]; rewrite app_length; simpl; lia.
Qed.

Lemma fin2_inv lasts n1 acc x : In x (indexed (g_inputs g)) -> Forall (fun l => 0 <= l < n1) lasts ->
  GI g (fst acc) /\ n1 <= Z.of_nat (length (a_states (fst acc))) ->
  GI g (fst (fin2 lasts acc x)) /\ n1 <= Z.of_nat (length (a_states (fst (fin2 lasts acc x)))).
Proof.
  destruct acc as [a finals], x as [i inp]. intros Hin Hok [HG Hn1]. cbn [fst snd] in *.
  pose proof (indexed_vin i inp Hin) as Hvin. pose proof (vin_lt a i HG Hvin) as Hi.
  unfold fin2. cbv zeta. destruct (snd inp); cbn [fst snd]; [|auto]. split.
  - apply GI_add_syn; auto; [apply syn_state_synP; lia|].
    destruct (nth_in_or_default (Z.to_nat i) lasts 0) as [H|H].
    + rewrite Forall_forall in Hok. apply Hok in H. lia.
    + rewrite H. lia.
  - cbn [a_states]. rewrite app_length. lia.
Qed.

Theorem add_finals_GI a0 : GI g a0 -> GI g (fst (add_finals g a0)).
Proof.
  intros HG0. rewrite add_finals_eq.
  pose proof (fold_left_inv (fun acc => GI g (fst acc) /\ lasts_ok (fst acc) (snd acc)) fin1 (indexed (g_inputs g)) (a0, [])) as H1.
  destruct (fold_left fin1 (indexed (g_inputs g)) (a0, [])) as [a1 lasts]. cbn [fst snd] in H1.
  destruct H1 as [HG1 Hok1]; [split; [exact HG0|constructor]|intros acc x Hin Hacc; apply fin1_inv; auto|].
  apply (fold_left_inv (fun acc => GI g (fst acc) /\
           Z.of_nat (length (a_states a1)) <= Z.of_nat (length (a_states (fst acc)))) (fin2 lasts)).
  - cbn [fst]. split; [exact HG1|lia].
  - intros acc x Hin Hacc. apply (fin2_inv lasts (Z.of_nat (length (a_states a1)))); auto.
Qed.
End Finals.

Theorem build_automaton_ok g fuel :
  wf_grammar g = true -> ref_done g fuel = true ->
  let a := fst (build_automaton g fuel) in lr0_ok g a.
Proof.
  intros Hwf Hd. destruct (wf_grammar_range g Hwf) as (H0 & H1 & _).
  apply (GI_lr0_ok g H0 H1), add_finals_GI, build_loop_GI; assumption.
Qed.
