(* The partition computed inside [minimize]: initial partition by signature, then the refinement loop. *)
From Coq Require Import List ZArith Lia.
From TM Require Import Gram.PTables Gram.Optimize Gram.Minimize Gram.ZTab_proofs Gram.MinNumber_proofs
  Gram.MinRefine_proofs Gram.MinimizeWf.
Import ListNotations.
Local Open Scope Z_scope.

Lemma state_transitions_length t n : length (state_transitions t n) = Z.to_nat n.
Proof. unfold state_transitions. now rewrite map_length, zseq_length. Qed.

(* outside [accept_on_entry] the signature of a state is a function of its Action entry *)
Definition act_sig (t : default_enc) (rc : list Z) (a : Z) : list Z :=
  if a >=? 0 then [sig_reduce; zn rc a]
  else if a =? -1 then [sig_shift]
  else if a =? -2 then [sig_error]
  else sig_lookahead :: flat_map (fun '(term, rule) => [term; if rule >=? 0 then zn rc rule else rule])
                                 (row_of t a).

Lemma state_signature_eq t rc special s :
  state_signature t rc special s = if memz s special then [sig_final; s] else act_sig t rc (zn (d_action t) s).
Proof. reflexivity. Qed.

Lemma act_sig_not_final t rc a x : act_sig t rc a <> [sig_final; x].
Proof.
  unfold act_sig. destruct (a >=? 0); [discriminate|]. destruct (a =? -1); [discriminate|]. destruct (a =? -2); discriminate.
Qed.

Section Partition.
Variable mi : min_input.
Let t := mi_enc mi.
Let n := mi_num_states mi.
Let rc := rule_classes mi.
Let special := accept_on_entry mi.
Let trans := state_transitions t n.
Let k := zlength (mi_final mi).
Hypothesis Hn : 0 <= n.
Hypothesis Hk : k <= n.

Lemma special_front i : 0 <= i < k -> In i special.
Proof. intro Hi. unfold special, accept_on_entry. apply in_or_app. left. apply in_zseq. exact Hi. Qed.

Lemma sig_special s : In s special -> state_signature t rc special s = [sig_final; s].
Proof. intro H. rewrite state_signature_eq. apply memz_In in H. now rewrite H. Qed.

Variables (p0 : list Z) (c0 : Z).
Hypothesis Hinit : init_partition mi = (p0, c0).

Lemma trans_states : Z.of_nat (length trans) = n.
Proof. unfold trans. rewrite state_transitions_length. lia. Qed.

Lemma init_spec :
  numbering trans p0 c0 /\ front_id k p0 /\
  (forall s s', 0 <= s < n -> 0 <= s' < n ->
     (zn p0 s = zn p0 s' <-> state_signature t rc special s = state_signature t rc special s')).
Proof.
  pose proof (number_all_keys _ n p0 c0 Hn Hinit) as Hnum. rewrite <- trans_states in Hnum.
  split; [exact (numbers_numbering trans _ _ _ Hnum)|]. rewrite trans_states in Hnum. destruct Hnum as [_ _ E _ _ F].
  split; [|exact E]. unfold front_id. apply (F k Hk). intros i j Hi Hj. fold t rc special.
  rewrite !sig_special by (apply special_front; lia). now intros [= ->].
Qed.

Variables (remap : list Z) (cnt : Z).
Hypothesis Hfinal : final_partition mi = (remap, cnt).

Theorem final_partition_spec :
  numbering trans remap cnt /\ refines trans remap p0 /\ front_id k remap /\ stable trans remap.
Proof.
  unfold final_partition in Hfinal. rewrite Hinit in Hfinal. fold n t trans in Hfinal.
  destruct init_spec as (Hnum & Hfr & _).
  apply (refine_spec trans k p0) with (fuel := S (Z.to_nat n)) (p := p0) (c := c0); try assumption.
  - rewrite trans_states. exact Hk.
  - intros s s' _ _ E. exact E.
  - rewrite trans_states. pose proof (nb_count _ _ _ Hnum). lia.
Qed.

Theorem remap_range s : 0 <= s < n -> 0 <= zn remap s < cnt.
Proof. intro Hs. destruct final_partition_spec as (Hnum & _). apply (nb_range _ _ _ Hnum). now rewrite trans_states. Qed.

Theorem remap_cnt : 0 <= cnt <= n.
Proof. destruct final_partition_spec as (Hnum & _). pose proof (nb_count _ _ _ Hnum) as H. now rewrite trans_states in H. Qed.

Theorem remap_entry i : 0 <= i < k -> zn remap i = i.
Proof. destruct final_partition_spec as (_ & _ & Hf & _). apply Hf. Qed.

Theorem remap_sig s s' : 0 <= s < n -> 0 <= s' < n -> zn remap s = zn remap s' ->
  state_signature t rc special s = state_signature t rc special s'.
Proof.
  intros Hs Hs' E. destruct final_partition_spec as (_ & Hr & _). destruct init_spec as (_ & _ & Hsig).
  apply (Hsig s s' Hs Hs'). apply Hr; rewrite ?trans_states; assumption.
Qed.

Theorem remap_pinned_singleton s s' : 0 <= s < n -> 0 <= s' < n -> In s special -> zn remap s = zn remap s' -> s = s'.
Proof.
  intros Hs Hs' Hin E. pose proof (remap_sig s s' Hs Hs' E) as H. rewrite (sig_special s Hin), state_signature_eq in H.
  destruct (memz s' special); [now injection H|]. symmetry in H. now apply act_sig_not_final in H.
Qed.

Theorem remap_stable s s' : 0 <= s < n -> 0 <= s' < n -> zn remap s = zn remap s' ->
  trans_sig remap (row trans s) = trans_sig remap (row trans s').
Proof. intros Hs Hs' E. destruct final_partition_spec as (_ & _ & _ & Hst). apply Hst; rewrite ?trans_states; assumption. Qed.
End Partition.
