(* C03: the table of LalrRef.lalr_la against the declarative LALR(1) lookaheads.  la_round is a composition of
   inflationary pieces, each adding instances of one rule of lr1_valid: entries are valid, a table that la_stable
   accepts is a fixpoint of every piece and holds every valid lookahead, la_fix stops on one unless its fuel runs out. *)
From Coq Require Import List ZArith Bool Lia.
From TM Require Import Lib.ListX Gram.Cfg Gram.Cfg_proofs Gram.LalrRef Gram.LalrSpec Gram.LalrSpec_proofs Gram.LalrCert Gram.LalrClosure_proofs.
Import ListNotations.
Local Open Scope Z_scope.

Lemma key_eqb_spec q it q' it' : reflect ((q, it) = (q', it')) ((q =? q') && item_eqb it it').
Proof.
  apply iff_reflect. rewrite andb_true_iff, Z.eqb_eq, item_eqb_eq. split; [intros [= -> ->]|intros [-> ->]]; auto.
Qed.

Lemma la_get_add t q it l q2 it2 x :
  In x (la_get (la_add t q it l) q2 it2) <-> In x (la_get t q2 it2) \/ ((q, it) = (q2, it2) /\ In x l).
Proof.
  induction t as [|[[q0 it0] l0] t IH]; simpl.
  - destruct (key_eqb_spec q it q2 it2) as [|n]; simpl.
    + split; [auto|intros [[]|[_ H]]; exact H].
    + split; [intros []|intros [[]|[E _]]; destruct (n E)].
  - destruct (key_eqb_spec q0 it0 q it) as [[= -> ->]|n]; simpl.
    + destruct (key_eqb_spec q it q2 it2) as [|n].
      * rewrite union_In. split; [intros [H|H]; auto|intros [H|[_ H]]; auto].
      * split; [auto|intros [H|[E _]]; [exact H|destruct (n E)]].
    + destruct (key_eqb_spec q0 it0 q2 it2) as [[= -> ->]|]; [|apply IH].
      split; [auto|intros [H|[E _]]; [exact H|destruct (n (eq_sym E))]].
Qed.

Lemma la_add_fixed t q it l : la_add t q it l = t -> incl l (la_get t q it).
Proof. intros H x Hx. rewrite <- H. apply la_get_add. auto. Qed.

Definition tbl_ok (P : Z -> item -> Z -> Prop) (t : la_table) : Prop :=
  forall q it x, In x (la_get t q it) -> P q it x.

Lemma tbl_ok_add P t q it l : tbl_ok P t -> (forall x, In x l -> P q it x) -> tbl_ok P (la_add t q it l).
Proof. intros Ht Hl q2 it2 x H. apply la_get_add in H. destruct H as [H|([= <- <-] & H)]; auto. Qed.

Lemma tbl_ok_add_rules P q l rs t : tbl_ok P t -> (forall r x, In r rs -> In x l -> P q (r, 0) x) ->
  tbl_ok P (fold_left (fun t r => la_add t q (r, 0) l) rs t).
Proof. intros Ht H. apply fold_left_inv; auto. intros t' r Hr Ht'. apply tbl_ok_add; auto. Qed.

Fixpoint mu (t : la_table) : nat := match t with [] => 0%nat | e :: r => (S (length (snd e)) + mu r)%nat end.

Lemma la_size_acc t n : fold_left (fun n (e : (Z * item) * list Z) => (n + length (snd e))%nat) t n
                        = (n + la_size t)%nat.
Proof.
  unfold la_size. revert n; induction t as [|e t IH]; intros n; simpl; [lia|].
  rewrite IH, (IH (length (snd e))). lia.
Qed.

Lemma mu_eq t : mu t = (length t + la_size t)%nat.
Proof.
  induction t as [|e t IH]; simpl; [reflexivity|]. unfold la_size at 1. simpl. rewrite la_size_acc. lia.
Qed.

Definition infl (F : la_table -> la_table) : Prop :=
  forall t, (mu t <= mu (F t))%nat /\ (mu (F t) = mu t -> F t = t).

Lemma infl_fixed F t : infl F -> mu (F t) = mu t -> F t = t.
Proof. intros H. apply H. Qed.

(* the pieces are composed with the lemmas of LalrSpec_proofs.Infl, at the trivial invariant *)
Local Notation infl_la := (infl_on mu (fun _ => True)).

Lemma infl_of_la F : infl_la F -> infl F.
Proof. intros H t. apply (H t I). Qed.

Lemma infl_la_add q it l : infl_la (fun t => la_add t q it l).
Proof.
  intros t _. split; [exact I|]. induction t as [|[[q0 it0] l0] t [IH1 IH2]]; simpl.
  - split; [lia|discriminate].
  - destruct ((q0 =? q) && item_eqb it0 it); simpl.
    + destruct (union_len l l0) as [H1 H2]. split; [lia|]. intros H. f_equal. f_equal. apply H2. lia.
    + split; [lia|]. intros H. f_equal. apply IH2. lia.
Qed.

Lemma infl_la_add_rules q l rs : infl_la (fun t => fold_left (fun t r => la_add t q (r, 0) l) rs t).
Proof. apply (infl_on_fold (fun t r => la_add t q (r, 0) l)). intros; apply infl_la_add. Qed.

Lemma add_rules_fixed q l rs T r :
  fold_left (fun t r => la_add t q (r, 0) l) rs T = T -> In r rs -> incl l (la_get T q (r, 0)).
Proof.
  intros H Hr. apply la_add_fixed.
  apply (fold_fixed (fun t r => la_add t q (r, 0) l) _ T (fun x _ => infl_la_add q (x, 0) l) I H r Hr).
Qed.

Section Pieces.
Variable g : grammar.
Variable a : automaton.
Variable nl : list Z.
Variable ft : first_table.

Definition seed_lookaheads (q : Z) : list Z :=
  if (match nth_error (g_inputs g) (Z.to_nat q) with Some (_, e) => e | None => true end) then [0] else all_terms g.

Definition seed_part (q : Z) (st : lstate) (t : la_table) : la_table :=
  match s_seed st with
  | Some nt => if s_kind st =? 0 then
                 fold_left (fun t r => la_add t q (r, 0) (seed_lookaheads q)) (rules_of g nt) t
               else t
  | None => t
  end.

Definition clos_lookaheads (it : item) (l : list Z) : list Z :=
  let '(f, n) := first_seq g nl (ft_get ft) (item_rest g it) in if n then union f l else f.

Definition clos_part (q : Z) (it : item) (s : Z) (l : list Z) (t : la_table) : la_table :=
  if is_term g s then t else fold_left (fun t r => la_add t q (r, 0) (clos_lookaheads it l)) (rules_of g s) t.

Definition goto_part (q : Z) (it : item) (s : Z) (l : list Z) (t : la_table) : la_table :=
  match trans_target a q s with Some q' => la_add t q' (fst it, snd it + 1) l | None => t end.

Definition item_part (q : Z) (t : la_table) (it : item) : la_table :=
  match sym_after g it with
  | None => t
  | Some s => goto_part q it s (la_get t q it) (clos_part q it s (la_get t q it) t)
  end.

Definition state_part (t : la_table) (x : Z * lstate) : la_table :=
  fold_left (item_part (fst x)) (st_items g (snd x)) (seed_part (fst x) (snd x) t).

Lemma la_round_eq t : la_round g a nl ft t = fold_left state_part (indexed (a_states a)) t.
Proof.
  unfold la_round. apply fold_left_ext. intros t' [q st]. unfold state_part, st_items. cbn [fst snd].
  apply fold_left_ext. intros t2 it.
  unfold item_part, goto_part, clos_part, clos_lookaheads, item_rest. cbv zeta.
  destruct (sym_after g it) as [s|]; auto. destruct (first_seq g nl (ft_get ft) _) as [f n]. reflexivity.
Qed.

Lemma infl_seed_part q st : infl_la (seed_part q st).
Proof.
  unfold seed_part. destruct (s_seed st); [|apply infl_on_id]. destruct (s_kind st =? 0); [|apply infl_on_id].
  apply infl_la_add_rules.
Qed.

Lemma infl_clos_part q it s l : infl_la (clos_part q it s l).
Proof. unfold clos_part. destruct (is_term g s); [apply infl_on_id|apply infl_la_add_rules]. Qed.

Lemma infl_goto_part q it s l : infl_la (goto_part q it s l).
Proof. unfold goto_part. destruct (trans_target a q s); [apply infl_la_add|apply infl_on_id]. Qed.

Lemma infl_item_part q it : infl_la (fun t => item_part q t it).
Proof.
  unfold item_part. destruct (sym_after g it) as [s|]; [|apply infl_on_id].
  intros t. exact (infl_on_comp _ _ (infl_clos_part q it s _) (infl_goto_part q it s _) t).
Qed.

Lemma infl_items_part q its : infl_la (fun t => fold_left (item_part q) its t).
Proof. apply infl_on_fold. intros; apply infl_item_part. Qed.

Lemma infl_state_part x : infl_la (fun t => state_part t x).
Proof.
  apply (infl_on_comp (seed_part (fst x) (snd x)) (fun t => fold_left (item_part (fst x)) _ t));
    [apply infl_seed_part|apply infl_items_part].
Qed.

Lemma infl_la_round : infl (la_round g a nl ft).
Proof.
  apply infl_of_la. intros t. rewrite la_round_eq.
  exact (infl_on_fold state_part _ (fun x _ => infl_state_part x) t).
Qed.

Lemma stable_iff_fixed t : la_stable g a nl ft t = true <-> la_round g a nl ft t = t.
Proof.
  unfold la_stable. split; [|intros E; rewrite E, !Nat.eqb_refl; reflexivity].
  intros H. apply andb_true_iff in H. destruct H as [H1 H2]. apply Nat.eqb_eq in H1, H2.
  apply infl_fixed; [apply infl_la_round|]. rewrite !mu_eq. lia.
Qed.

Section Sound.
Hypothesis Hnl : nl_ok g nl.
Hypothesis Hft : fst_ok g (ft_get ft).
Hypothesis Hseeds : seeds_ok g a.
Hypothesis Haut : aut_sound g a.

Lemma seed_part_sound q st t : st_at a q st -> tbl_ok (lalr1 g a) t -> tbl_ok (lalr1 g a) (seed_part q st t).
Proof.
  intros [Hq Hst] Ht. unfold seed_part. destruct (s_seed st) as [nt|] eqn:Eseed; auto.
  destruct (Z.eqb_spec (s_kind st) 0) as [Ek|]; auto. destruct (Hseeds q st nt Hq Hst Eseed Ek) as [e He].
  apply tbl_ok_add_rules; auto. intros r x Hr Hx. exists q, []. split; [constructor|]. eapply lv_start; eauto.
  unfold seed_lookaheads in Hx. rewrite He in Hx. destruct e; [destruct Hx as [<-|[]]; reflexivity|].
  apply is_term_spec, in_zrange, Hx.
Qed.

Lemma item_part_sound q st t it : st_at a q st -> In it (st_items g st) ->
  tbl_ok (lalr1 g a) t -> tbl_ok (lalr1 g a) (item_part q t it).
Proof.
  intros [Hq Hst] Hit Ht. unfold item_part. destruct (sym_after g it) as [s|] eqn:Es; auto.
  assert (Hl : forall x, In x (la_get t q it) -> lalr1 g a q it x) by (intros x; apply Ht).
  assert (Hc : tbl_ok (lalr1 g a) (clos_part q it s (la_get t q it) t)).
  { unfold clos_part. destruct (is_term g s) eqn:Et; auto. apply tbl_ok_add_rules; auto. intros r x Hr Hx.
    unfold clos_lookaheads in Hx.
    destruct (first_seq_ok g nl (ft_get ft) (item_rest g it) Hnl Hft) as [Hf1 Hf2].
    destruct (first_seq g nl (ft_get ft) (item_rest g it)) as [f [|]]; simpl in Hf1, Hf2;
      [apply union_In in Hx; destruct Hx as [Hx|Hx]|].
    2:{ destruct (Hl x Hx) as (i & gamma & Hreach & Hval). exists i, gamma. split; auto. eapply lv_closure_la; eauto. }
    all: destruct (Haut q st it Hq Hst Hit) as (i & gamma & Hreach & Hval); exists i, gamma; split; auto;
      eapply lv_closure_first; eauto. }
  unfold goto_part. destruct (trans_target a q s) as [q'|] eqn:Etr; auto.
  apply tbl_ok_add; auto. intros x Hx. destruct (Hl x Hx) as (i & gamma & Hreach & Hval).
  exists i, (gamma ++ [s]). split; [econstructor; eauto|apply lv_goto; auto].
Qed.

Lemma la_round_sound t : tbl_ok (lalr1 g a) t -> tbl_ok (lalr1 g a) (la_round g a nl ft t).
Proof.
  intros Ht. rewrite la_round_eq. apply fold_left_inv; auto.
  clear t Ht. intros t [q st] Hin Ht. apply in_combine_zrange in Hin. unfold state_part. cbn [fst snd].
  apply fold_left_inv; [apply seed_part_sound; auto|]. intros t' it. apply (item_part_sound q st); auto.
Qed.

Lemma la_fix_sound fuel t : tbl_ok (lalr1 g a) t -> tbl_ok (lalr1 g a) (la_fix fuel g a nl ft t).
Proof.
  revert t; induction fuel as [|f IH]; intros t Ht; simpl; auto.
  destruct (_ && _); [|apply IH]; apply la_round_sound; auto.
Qed.
End Sound.

Lemma la_fix_stable_or_grown fuel : forall t,
  la_stable g a nl ft (la_fix fuel g a nl ft t) = true \/
  (mu t + fuel <= mu (la_fix fuel g a nl ft t))%nat.
Proof.
  induction fuel as [|fuel IH]; intros t; simpl; [right; lia|].
  fold (la_stable g a nl ft t). destruct (la_stable g a nl ft t) eqn:E.
  - left. apply stable_iff_fixed in E. rewrite E. apply stable_iff_fixed. exact E.
  - destruct (IH (la_round g a nl ft t)) as [H|H]; [left; exact H|right].
    destruct (infl_la_round t) as [H1 H2].
    assert (Hne : mu (la_round g a nl ft t) <> mu t).
    { intros Heq. apply H2, stable_iff_fixed in Heq. congruence. }
    lia.
Qed.

Section Stable.
Variable T : la_table.
Hypothesis Hstable : la_stable g a nl ft T = true.
Variables (q : Z) (st : lstate).
Hypothesis Hst : st_at a q st.

Lemma parts_fixed : seed_part q st T = T /\ forall it, In it (st_items g st) -> item_part q T it = T.
Proof.
  pose proof (proj1 (stable_iff_fixed T) Hstable) as H. rewrite la_round_eq in H.
  apply (fold_fixed state_part _ T (fun x _ => infl_state_part x) I) with (x := (q, st)) in H;
    [|apply in_combine_zrange, Hst].
  apply (comp_fixed _ _ T (infl_seed_part q st) (infl_items_part q _) I) in H.
  destruct H as [H1 H2]. split; [exact H1|].
  apply (fold_fixed (item_part q) _ T (fun x _ => infl_item_part q x) I H2).
Qed.

Lemma stable_seed nt r : s_seed st = Some nt -> s_kind st = 0 -> In r (rules_of g nt) ->
  incl (seed_lookaheads q) (la_get T q (r, 0)).
Proof.
  intros Es Ek Hr. destruct parts_fixed as [H _]. unfold seed_part in H. rewrite Es, Ek in H. simpl in H.
  apply (add_rules_fixed _ _ _ _ _ H Hr).
Qed.

Lemma item_parts_fixed it s : In it (st_items g st) -> sym_after g it = Some s ->
  clos_part q it s (la_get T q it) T = T /\ goto_part q it s (la_get T q it) T = T.
Proof.
  intros Hit Es. pose proof (proj2 parts_fixed it Hit) as H. unfold item_part in H. rewrite Es in H.
  apply (comp_fixed _ _ T (infl_clos_part q it s _) (infl_goto_part q it s _) I H).
Qed.

Lemma stable_closure it s r : In it (st_items g st) -> sym_after g it = Some s ->
  is_term g s = false -> In r (rules_of g s) ->
  incl (clos_lookaheads it (la_get T q it)) (la_get T q (r, 0)).
Proof.
  intros Hit Es Et Hr. destruct (item_parts_fixed it s Hit Es) as [H _]. unfold clos_part in H. rewrite Et in H.
  apply (add_rules_fixed _ _ _ _ _ H Hr).
Qed.

Lemma stable_goto it s q' : In it (st_items g st) -> sym_after g it = Some s ->
  trans_target a q s = Some q' -> incl (la_get T q it) (la_get T q' (fst it, snd it + 1)).
Proof.
  intros Hit Es Etr. destruct (item_parts_fixed it s Hit Es) as [_ H]. unfold goto_part in H. rewrite Etr in H.
  apply la_add_fixed. exact H.
Qed.
End Stable.

Section Complete.
Variable T : la_table.
Hypothesis Hwf : wf_lhs g = true.
Hypothesis Hncl : nullable_closed g nl = true.
Hypothesis Hfcl : first_closed g nl ft = true.
Hypothesis Hstable : la_stable g a nl ft T = true.
Hypothesis Hstarts : starts_present g a.
Hypothesis Haut : aut_complete g a.

Lemma la_complete_gen i gamma it x : lr1_valid g i gamma it x ->
  forall q, reach a i gamma q -> In x (la_get T q it).
Proof.
  induction 1 as [nt eoi r x Hi Hinp Hr Hx|gamma it B r b H0 Es Et Hr Hb|gamma it x B r H IH Es Et Hr Hn
                  |gamma it x X H IH Es]; intros q Hreach.
  - apply reach_nil_inv in Hreach. subst q.
    destruct (Hstarts i nt eoi Hi Hinp) as (st & Hst & Hseed & Hk).
    apply (stable_seed T Hstable i st (conj Hi Hst) nt r Hseed Hk Hr).
    unfold seed_lookaheads. rewrite Hinp. destruct eoi; [left; auto|]. apply in_zrange, is_term_spec, Hx.
  - destruct (Haut i gamma q it Hreach H0) as (Hq & st & Hst & Hit).
    apply (stable_closure T Hstable q st (conj Hq Hst) it B r Hit Es Et Hr). unfold clos_lookaheads.
    pose proof (first_seq_complete g nl Hwf Hncl ft Hfcl _ _ Hb) as Hin.
    destruct (first_seq g nl (ft_get ft) (item_rest g it)) as [f n]. simpl in Hin.
    destruct n; [apply union_In; left|]; exact Hin.
  - destruct (Haut i gamma q it Hreach (lr1_lr0 _ _ _ _ _ H)) as (Hq & st & Hst & Hit).
    apply (stable_closure T Hstable q st (conj Hq Hst) it B r Hit Es Et Hr). unfold clos_lookaheads.
    pose proof (first_seq_nullable g nl Hwf Hncl (ft_get ft) _ Hn) as Hnn.
    destruct (first_seq g nl (ft_get ft) (item_rest g it)) as [f n]. simpl in Hnn. subst n.
    apply union_In. right. apply IH. exact Hreach.
  - apply reach_snoc_inv in Hreach. destruct Hreach as (q0 & Hreach & Htr).
    destruct (Haut i gamma q0 it Hreach (lr1_lr0 _ _ _ _ _ H)) as (Hq & st & Hst & Hit).
    apply (stable_goto T Hstable q0 st (conj Hq Hst) it X q Hit Es Htr). apply IH. exact Hreach.
Qed.
End Complete.
End Pieces.

Theorem lalr_la_sound g a : seeds_ok g a -> aut_sound g a ->
  forall fuel q it x, In x (la_get (lalr_la g a fuel) q it) -> lalr1 g a q it x.
Proof.
  intros Hs Ha fuel. change (tbl_ok (lalr1 g a) (lalr_la g a fuel)). unfold lalr_la.
  apply la_fix_sound; [apply nullable_set_ok|apply first_sets_ok|exact Hs|exact Ha|intros q it x []].
Qed.

Theorem lalr_la_complete g a fuel :
  wf_lhs g = true ->
  nullable_closed g (nullable_set g) = true ->
  first_closed g (nullable_set g) (first_sets g) = true ->
  la_stable g a (nullable_set g) (first_sets g) (lalr_la g a fuel) = true ->
  starts_present g a -> aut_complete g a ->
  forall q it x, lalr1 g a q it x -> In x (la_get (lalr_la g a fuel) q it).
Proof. intros ? ? ? ? ? ? q it x (i & gamma & Hreach & Hval). eapply la_complete_gen; eauto. Qed.

Theorem lalr_la_complete_of_range g a fuel : lhs_in_range g ->
  la_stable g a (nullable_set g) (first_sets g) (lalr_la g a fuel) = true ->
  starts_present g a -> aut_complete g a ->
  forall q it x, lalr1 g a q it x -> In x (la_get (lalr_la g a fuel) q it).
Proof.
  intros Hr. apply lalr_la_complete; [apply range_wf_lhs|apply nullable_set_closed|apply first_sets_closed]; exact Hr.
Qed.

(* first_closed is asked for here although first_sets_closed gives it from the range hypothesis *)
Theorem lalr_la_complete_range g a fuel :
  (forall r, In r (g_rules g) -> g_terms g <= r_lhs r < g_terms g + g_nonterms g) ->
  first_closed g (nullable_set g) (first_sets g) = true ->
  la_stable g a (nullable_set g) (first_sets g) (lalr_la g a fuel) = true ->
  starts_present g a -> aut_complete g a ->
  forall q it x, lalr1 g a q it x -> In x (la_get (lalr_la g a fuel) q it).
Proof. intros Hr _. exact (lalr_la_complete_of_range g a fuel Hr). Qed.

Theorem lalr_la_stable_or_fuel g a fuel :
  la_stable g a (nullable_set g) (first_sets g) (lalr_la g a fuel) = true \/
  (fuel <= length (lalr_la g a fuel) + la_size (lalr_la g a fuel))%nat.
Proof.
  unfold lalr_la. destruct (la_fix_stable_or_grown g a (nullable_set g) (first_sets g) fuel []) as [H|H]; [left; exact H|right].
  simpl in H. rewrite mu_eq in H. exact H.
Qed.

Theorem lalr_la_stable_if_small g a fuel :
  (length (lalr_la g a fuel) + la_size (lalr_la g a fuel) < fuel)%nat ->
  la_stable g a (nullable_set g) (first_sets g) (lalr_la g a fuel) = true.
Proof. intros H. destruct (lalr_la_stable_or_fuel g a fuel) as [E|E]; [exact E|lia]. Qed.

Record la_hyps (g : grammar) (a : automaton) (fuel : nat) : Prop := {
  h_wf : wf_lhs g = true;
  h_nullable : nullable_closed g (nullable_set g) = true;
  h_first : first_closed g (nullable_set g) (first_sets g) = true;
  h_stable : la_stable g a (nullable_set g) (first_sets g) (lalr_la g a fuel) = true;
  h_ok : lr0_ok g a
}.

Theorem la_exact g a fuel : la_hyps g a fuel ->
  forall q it x, In x (la_get (lalr_la g a fuel) q it) <-> lalr1 g a q it x.
Proof.
  intros H q it x. pose proof (h_ok _ _ _ H) as Hok. split.
  - apply lalr_la_sound; apply Hok.
  - apply lalr_la_complete; [apply H|apply H|apply H|apply H|apply Hok|apply Hok].
Qed.

Theorem la_covers g a fuel : la_hyps g a fuel ->
  forall i gamma it x, lr1_valid g i gamma it x ->
  exists q, reach a i gamma q /\ In x (la_get (lalr_la g a fuel) q it).
Proof.
  intros H i gamma it x Hv. pose proof (h_ok _ _ _ H) as Hok.
  destruct (reach_of_complete_total g a i gamma it (ok_complete _ _ Hok) (ok_total _ _ Hok) (lr1_lr0 _ _ _ _ _ Hv)) as [q Hq].
  exists q. split; [exact Hq|]. apply (la_exact g a fuel H). exists i, gamma. auto.
Qed.
