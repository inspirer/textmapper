(* C07: boolean validator for LALR(k) tables (DefaultEnc with deep Lalr rows): every reduction the parser can
   take in a state, under ANY continuation of the input, is justified by a completed LR(0) item of that state.
   Soundness of the parse loop for all inputs follows (ValidatorK_proofs2.v).  Executable definitions only. *)
From Coq Require Import List ZArith Bool Arith.
From TM Require Import Gram.Cfg Gram.PTables Gram.Run Gram.Validator.
Import ListNotations.
Local Open Scope Z_scope.

(* all actions a Lalr row can answer (its pairs up to and including the terminator's default) *)
Fixpoint row_actions (fuel : nat) (l : list Z) (i : Z) : list Z :=
  match fuel with
  | O => [-2]
  | S f => if zn l i >=? 0 then zn l (i + 1) :: row_actions f l (i + 2) else [zn l (i + 1)]
  end.

(* every rule reachable from action a through deep rows is accepted by [just]; depth bounded by fuel *)
Fixpoint all_ok (fuel : nat) (t : default_enc) (just : Z -> bool) (a : Z) : bool :=
  if a >=? 0 then just a
  else if a >=? -2 then true
  else match fuel with
       | O => false
       | S f => forallb (all_ok f t just) (row_actions (S (length (d_lalr t))) (d_lalr t) (- a - 3))
       end.

Section VK.
Variable g : grammar.
Variable t : default_enc.
Variable rule_len rule_sym : list Z.
Variable nstates : Z.
Variable finals : list Z.
Variable ann : cert.

Definition mk : machine := default_machine t rule_len rule_sym.

Definition just (p r : Z) : bool :=
  (0 <=? r) && (Z.to_nat r <? nrules g)%nat &&
  match nth_error (g_rules g) (Z.to_nat r) with
  | Some rl => has_item ann p (Z.to_nat r) (length (r_rhs rl)) &&
               (zn rule_len r =? Z.of_nat (length (r_rhs rl))) && (zn rule_sym r =? r_lhs rl)
  | None => false end.

Definition chk_cells_k : bool :=
  forallb (fun p => forallb (fun a =>
      let a0 := zn (d_action t) p in
      let a1 := if a0 <? -2 then lalr_lookup t a0 a else a0 in
      all_ok 12 t (just p) a1) (zrange0 (vT g))) (zrange0 nstates).

Definition chk_trans_k : bool :=
  forallb (fun p => forallb (fun X =>
      let q := goto_state t p X in
      if q <? 0 then true else
      (Z.of_nat (ninputs g) <=? q) && (q <? nstates) &&
      forallb (fun it : citem => let '(r, d, _) := it in
          match d with
          | O => true
          | S d' => match arule g r with
                    | Some rl => match nth_error (r_rhs rl) d' with Some Y => Y =? X | None => false end && has_item ann p r d'
                    | None => false end
          end) (items ann q)) (zrange0 (vNS g))) (zrange0 nstates).

Definition check_k : bool :=
  chk_rules g && chk_ann_len nstates ann && chk_trans_k && chk_cells_k && chk_start g ann &&
  chk_final g nstates finals ann && chk_goto_def g mk nstates ann.

Definition check_k_report : Z :=
  if negb (chk_rules g) then 1 else if negb (chk_ann_len nstates ann) then 14 else if negb chk_trans_k then 3 else
  if negb chk_cells_k then 4 else if negb (chk_start g ann) then 5 else if negb (chk_final g nstates finals ann) then 6 else
  if negb (chk_goto_def g mk nstates ann) then 7 else 0.
End VK.
