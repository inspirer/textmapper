(* C05, the plumbing of [optimize] — default + pairs per line, pack, handing the indices back — decodes every cell
   to the value of the uncompressed line ([state_next] / [goto_line]). *)
From Coq Require Import List ZArith Bool Lia.
From TM Require Import Lib.ListX Gram.PTables Gram.Optimize Gram.ZTab_proofs Gram.OptimizePack_proofs.
Import ListNotations.
Local Open Scope Z_scope.

Lemma in_combine_zseq (l : list Z) p v :
  In (p, v) (combine (zseq (zlength l)) l) <-> 0 <= p < zlength l /\ v = zn l p.
Proof.
  rewrite <- (map_id (combine _ l)). unfold zlength. rewrite (map_combine_zseq _ l 0), in_map_iff.
  setoid_rewrite in_zseq. split.
  - intros (i & [= <- <-] & Hi). split; [exact Hi|]. symmetry. now apply zn_nth.
  - intros [Hp ->]. exists p. split; [|exact Hp]. f_equal. symmetry. now apply zn_nth.
Qed.

Lemma pairs_of_In vals def p v :
  In (p, v) (pairs_of vals def) <-> 0 <= p < zlength vals /\ v = zn vals p /\ v <> def.
Proof.
  unfold pairs_of. rewrite filter_In, in_combine_zseq. cbn [snd].
  rewrite negb_true_iff, Z.eqb_neq. tauto.
Qed.

Lemma inc_from_combine (l : list Z) : forall k s lo, lo <= Z.of_nat s ->
  inc_from lo (combine (map Z.of_nat (seq s k)) l).
Proof.
  induction l as [|y l IH]; intros k s lo H; destruct k; cbn [seq map combine inc_from]; try exact I.
  cbn [fst]. split; [exact H|]. apply IH. lia.
Qed.

Lemma inc_from_filter f : forall ps lo, inc_from lo ps -> inc_from lo (filter f ps).
Proof.
  induction ps as [|p ps IH]; intros lo H; [exact I|]. destruct H as [H1 H2]. cbn [filter].
  destruct (f p).
  - split; [exact H1|exact (IH _ H2)].
  - apply (inc_from_weaken (fst p + 1)); [lia|exact (IH _ H2)].
Qed.

Notation entry := (Z * option (list pair))%type (only parsing).

Definition lines_of (xs : list entry) : list (list pair) :=
  flat_map (fun x => match snd x with Some ps => [ps] | None => [] end) xs.

Fixpoint assign (xs : list entry) (idx : list Z) (dflt : Z) : list Z :=
  match xs with
  | [] => []
  | (_, None) :: rest => dflt :: assign rest idx dflt
  | (_, Some _) :: rest => match idx with i :: idx' => i :: assign rest idx' dflt | [] => dflt :: assign rest [] dflt end
  end.

Definition mk_entry (vals : list Z) : entry :=
  let def := pick_default vals in
  match pairs_of vals def with [] => (def, None) | ps => (def, Some ps) end.

Definition opt_acts (t : default_enc) (terms rules : Z) (dr : bool) : list entry :=
  map (fun state => match state_next t terms rules (zlength (d_action t)) dr state with
                    | inl d => (d, None)
                    | inr next => mk_entry next
                    end) (zseq (zlength (d_action t))).

Definition opt_gotos (t : default_enc) (terms : Z) : list entry :=
  map (fun nt => mk_entry (goto_line t terms (zlength (d_action t)) nt)) (zseq (zlength (d_goto t) - 1 - terms)).

Lemma optimize_eq t terms rules dr :
  optimize t terms rules dr =
  let acts := opt_acts t terms rules dr in
  let gotos := opt_gotos t terms in
  let '(indices, table, check) := pack (lines_of (acts ++ gotos)) in
  mkDispEnc (map fst gotos) (assign gotos (skipn (length (lines_of acts)) indices) (- (zlength (d_goto t) - 1)))
            (map fst acts) (assign acts indices (- terms)) (- terms) table check.
Proof. reflexivity. Qed.

Lemma lines_of_app xs ys : lines_of (xs ++ ys) = lines_of xs ++ lines_of ys.
Proof. unfold lines_of. apply flat_map_app. Qed.

Lemma lines_of_firstn_le xs k : (length (lines_of (firstn k xs)) <= length (lines_of xs))%nat.
Proof.
  rewrite <- (firstn_skipn k xs) at 2. rewrite lines_of_app, app_length. lia.
Qed.

Lemma assign_nth dflt : forall xs idx k x d, nth_error xs k = Some x ->
  nth k (assign xs idx dflt) d =
  match snd x with None => dflt | Some _ => nth (length (lines_of (firstn k xs))) idx dflt end /\
  (forall ps, snd x = Some ps -> nth_error (lines_of xs) (length (lines_of (firstn k xs))) = Some ps).
Proof.
  induction xs as [|[d0 o0] xs IH]; intros idx k x d H; [destruct k; discriminate|].
  destruct k as [|k].
  - injection H as <-. cbn [snd firstn lines_of flat_map length assign].
    split; [destruct o0; [destruct idx|]; reflexivity|]. now intros ps ->.
  - cbn [nth_error] in H. cbn [assign firstn]. destruct o0 as [ps|].
    + change (lines_of ((d0, Some ps) :: ?l)) with (ps :: lines_of l). cbn [length nth_error].
      destruct idx as [|i idx']; cbn [nth]; destruct (IH [] k x d H) as [E1 E2]; [|exact (IH idx' k x d H)].
      split; [|exact E2]. rewrite E1. destruct (snd x); [|reflexivity]. now destruct (length (lines_of (firstn k xs))).
    + exact (IH idx k x d H).
Qed.

Lemma assign_length dflt : forall xs idx, length (assign xs idx dflt) = length xs.
Proof.
  induction xs as [|[d0 [ps|]] xs IH]; intro idx; cbn [assign length]; [reflexivity| |now rewrite IH].
  destruct idx; cbn [length]; now rewrite IH.
Qed.

Lemma mk_entry_none vals def : mk_entry vals = (def, None) ->
  forall p, 0 <= p < zlength vals -> zn vals p = def.
Proof.
  unfold mk_entry. destruct (pairs_of vals (pick_default vals)) as [|q r] eqn:E; [|discriminate].
  intros [= <-] p Hp. destruct (Z.eq_dec (zn vals p) (pick_default vals)) as [e|n]; [exact e|].
  assert (In (p, zn vals p) (pairs_of vals (pick_default vals))) by (apply pairs_of_In; auto).
  rewrite E in H. contradiction.
Qed.

Lemma mk_entry_some vals def ps : mk_entry vals = (def, Some ps) ->
  wf_line ps /\ first_pos ps < zlength vals /\
  forall p v, In (p, v) ps <-> 0 <= p < zlength vals /\ v = zn vals p /\ v <> def.
Proof.
  unfold mk_entry. destruct (pairs_of vals (pick_default vals)) as [|q r] eqn:E; [discriminate|].
  intros [= <- <-]. rewrite <- E. split; [|split].
  - split; [rewrite E; discriminate|]. unfold pairs_of, zseq. apply inc_from_filter, inc_from_combine. lia.
  - rewrite E. cbn. assert (In q (pairs_of vals (pick_default vals))) by (rewrite E; now left).
    destruct q as [p v]. apply pairs_of_In in H. cbn. lia.
  - intros p v. apply pairs_of_In.
Qed.

(* the guarded table access of the template *)
Definition guarded_read (table check : list Z) (b p dflt : Z) : Z :=
  let pos := b + p in
  if (pos >=? 0) && (pos <? zlength table) && (zn check pos =? p) then zn table pos else dflt.

Lemma line_read lines indices table check j vals def ps :
  Forall wf_line lines -> pack lines = (indices, table, check) ->
  nth_error lines j = Some ps -> mk_entry vals = (def, Some ps) ->
  - first_pos ps <= nth j indices 0 /\ first_pos ps < zlength vals /\
  forall p, 0 <= p < zlength vals -> guarded_read table check (nth j indices 0) p def = zn vals p.
Proof.
  intros Hwf Hpack Hj Hmk. unfold guarded_read.
  destruct (pack_correct _ _ _ _ Hwf Hpack) as [_ [_ Hdec]].
  destruct (Hdec _ _ Hj) as [Hb Hcells].
  destruct (mk_entry_some _ _ _ Hmk) as [_ [Hfp Hin]].
  split; [lia|]. split; [exact Hfp|]. intros p Hp. cbv zeta.
  destruct (Hcells p (proj1 Hp)) as [D1 D2]. set (pos := nth j indices 0 + p) in *.
  destruct (Z.eq_dec (zn vals p) def) as [e|n].
  - assert (Hno : forall v, ~ In (p, v) ps) by (intros v Hv; apply Hin in Hv; lia).
    specialize (D2 Hno).
    destruct ((pos >=? 0) && (pos <? zlength table) && (zn check pos =? p)) eqn:E; [|now rewrite e].
    apply andb_true_iff in E. destruct E as [E E3]. apply andb_true_iff in E. destruct E as [E1 E2].
    apply Z.eqb_eq in E3. exfalso. apply D2; [lia|exact E3].
  - assert (Hv : In (p, zn vals p) ps) by (apply Hin; auto).
    destruct (D1 _ Hv) as [Hr [Hc Ht]]. rewrite Hc, Ht, Z.eqb_refl.
    replace (pos >=? 0) with true by lia. replace (pos <? zlength table) with true by lia. reflexivity.
Qed.

(* entry [k] of a block [xs] whose lines follow [pre] in the list handed to [pack]: [assign] writes the filler when the
   entry has no line, and otherwise the index that leads to its line *)
Lemma entry_read pre xs post indices table check dflt k x :
  Forall wf_line (pre ++ lines_of xs ++ post) -> pack (pre ++ lines_of xs ++ post) = (indices, table, check) ->
  0 <= k -> nth_error xs (Z.to_nat k) = Some x ->
  let b := zn (assign xs (skipn (length pre) indices) dflt) k in
  zn (map fst xs) k = fst x /\
  match snd x with
  | None => b = dflt
  | Some ps => forall vals, x = mk_entry vals ->
      - first_pos ps <= b /\ first_pos ps < zlength vals /\
      forall p, 0 <= p < zlength vals -> guarded_read table check b p (fst x) = zn vals p
  end.
Proof.
  intros Hwf Hpack Hk Hx b.
  assert (Hkl : (Z.to_nat k < length xs)%nat) by (apply nth_error_Some; congruence).
  split; [apply zn_nth_error; [exact Hk|]; now rewrite nth_error_map, Hx|].
  destruct (assign_nth dflt xs (skipn (length pre) indices) _ x 0 Hx) as [Hb Hline].
  assert (Eb : b = nth (Z.to_nat k) (assign xs (skipn (length pre) indices) dflt) 0).
  { apply zn_nth. unfold zlength. rewrite assign_length. lia. }
  rewrite Hb in Eb. destruct x as [def [ps|]]; cbn [fst snd] in *; [|exact Eb].
  intros vals Ex. set (j := length (lines_of (firstn (Z.to_nat k) xs))) in *. rewrite nth_skipn' in Eb.
  assert (Hj : nth_error (pre ++ lines_of xs ++ post) (length pre + j) = Some ps).
  { specialize (Hline ps eq_refl). rewrite nth_error_app2 by lia. replace (length pre + j - length pre)%nat with j by lia.
    rewrite nth_error_app1; [exact Hline|]. apply nth_error_Some. now rewrite Hline. }
  destruct (pack_correct _ _ _ _ Hwf Hpack) as [Hil _].
  rewrite (nth_indep _ _ 0) in Eb by (rewrite Hil; apply nth_error_Some; congruence).
  rewrite Eb. now apply (line_read _ _ _ _ _ vals def ps Hwf Hpack Hj).
Qed.

Definition raw_act (o : disp_enc) (state term : Z) : Z :=
  let a0 := zn (o_action o) state in
  if a0 >? o_base o then
    let pos := a0 + term in
    if (pos >=? 0) && (pos <? zlength (o_table o)) && (zn (o_check o) pos =? term)
    then zn (o_table o) pos else zn (o_def_act o) state
  else zn (o_def_act o) state.

Definition decode_raw (a : Z) : act := if a >=? 0 then Reduce a else if a <? -1 then Shift (-2 - a) else Err.

Lemma raw_act_read o s a :
  raw_act o s a = if zn (o_action o) s >? o_base o
                  then guarded_read (o_table o) (o_check o) (zn (o_action o) s) a (zn (o_def_act o) s) else zn (o_def_act o) s.
Proof. reflexivity. Qed.

Lemma goto_opt_read o terms s x :
  goto_opt o terms s x = guarded_read (o_table o) (o_check o) (zn (o_goto o) (x - terms)) s (zn (o_def_goto o) (x - terms)).
Proof. reflexivity. Qed.

Lemma action_opt_raw o s a : action_opt o s a = decode_raw (raw_act o s a).
Proof. reflexivity. Qed.

Definition state_val (t : default_enc) (terms rules : Z) (dr : bool) (s a : Z) : Z :=
  match state_next t terms rules (zlength (d_action t)) dr s with inl d => d | inr next => zn next a end.

Lemma all_lines_wf t terms rules dr : Forall wf_line (lines_of (opt_acts t terms rules dr ++ opt_gotos t terms)).
Proof.
  apply Forall_forall. intros ps Hps. apply in_flat_map in Hps. destruct Hps as [[def o] [Hx Ho]]. cbn [snd] in Ho.
  destruct o as [ps'|]; [|contradiction]. destruct Ho as [->|[]].
  assert (exists vals, mk_entry vals = (def, Some ps)) as [vals Hv]; [|exact (proj1 (mk_entry_some _ _ _ Hv))].
  apply in_app_or in Hx. destruct Hx as [Hx|Hx]; apply in_map_iff in Hx; destruct Hx as [s [E _]]; [|eexists; exact E].
  destruct (state_next t terms rules (zlength (d_action t)) dr s) as [d|next]; [discriminate|now exists next].
Qed.

Theorem raw_act_optimize t terms rules dr s a :
  (forall next, state_next t terms rules (zlength (d_action t)) dr s = inr next -> zlength next = terms) ->
  0 <= s < zlength (d_action t) -> 0 <= a < terms ->
  raw_act (optimize t terms rules dr) s a = state_val t terms rules dr s a.
Proof.
  intros Hlen Hs Ha. rewrite optimize_eq. cbv zeta. pose proof (all_lines_wf t terms rules dr) as Hwf.
  destruct (pack _) as [[indices table] check] eqn:Epack.
  rewrite lines_of_app in Hwf, Epack.
  destruct (entry_read [] _ _ _ _ _ (- terms) s _ Hwf Epack (proj1 Hs) (nth_error_map_zseq _ _ s Hs)) as [Hdef Hb].
  rewrite raw_act_read. unfold state_val. cbn [o_action o_base o_table o_check o_def_act]. cbn [length skipn] in Hb. rewrite Hdef.
  destruct (state_next t terms rules (zlength (d_action t)) dr s) as [d|next] eqn:Esn.
  - (* no line: always the default *)
    cbn [fst snd] in *. rewrite Hb. now replace (- terms >? - terms) with false by lia.
  - specialize (Hlen next eq_refl). destruct (mk_entry next) as [def [ps|]] eqn:Ex; cbn [fst snd] in *.
    + destruct (Hb next (eq_sym Ex)) as (Hlo & Hfp & Hrd). replace (_ >? - terms) with true by lia. apply Hrd. lia.
    + rewrite Hb. replace (- terms >? - terms) with false by lia. symmetry. apply (mk_entry_none next def Ex). lia.
Qed.

Theorem goto_opt_optimize t terms rules dr s nt :
  0 <= terms -> 0 <= s < zlength (d_action t) -> 0 <= nt < zlength (d_goto t) - 1 - terms ->
  zlength (goto_line t terms (zlength (d_action t)) nt) = zlength (d_action t) ->
  let arr := goto_line t terms (zlength (d_action t)) nt in
  goto_opt (optimize t terms rules dr) terms s (terms + nt) = zn arr s \/
  (forall s', 0 <= s' < zlength (d_action t) -> zn arr s' = zn arr s).
Proof.
  intros Hterms Hs Hnt Hlen arr. rewrite optimize_eq. cbv zeta. pose proof (all_lines_wf t terms rules dr) as Hwf.
  destruct (pack _) as [[indices table] check] eqn:Epack.
  rewrite lines_of_app, <- (app_nil_r (lines_of (opt_gotos t terms))) in Hwf, Epack.
  destruct (entry_read _ _ [] _ _ _ (- (zlength (d_goto t) - 1)) nt _ Hwf Epack (proj1 Hnt) (nth_error_map_zseq _ _ nt Hnt))
    as [Hdef Hb].
  rewrite goto_opt_read. cbn [o_goto o_def_goto o_table o_check]. replace (terms + nt - terms) with nt by lia. rewrite Hdef.
  fold arr in Hb |- *. destruct (mk_entry arr) as [def [ps|]] eqn:Ex; cbn [fst snd] in *.
  - left. destruct (Hb arr (eq_sym Ex)) as (_ & _ & Hrd). apply Hrd. unfold arr. lia.
  - right. intros s' Hs'. rewrite !(mk_entry_none arr def Ex) by (unfold arr; lia). reflexivity.
Qed.
