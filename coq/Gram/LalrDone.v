(* C03: cheap boolean side conditions of the general theorems about the reference construction (LalrRef.v):
   build_done mirrors the recursion of build_loop and answers whether the work list ran empty before the fuel
   did; wf_grammar says rule heads are nonterminals and right-hand sides consist of symbols.  Definitions only
   (nothing here changes the extracted reference); the theorems are in LalrBuild_proofs.v. *)
From Coq Require Import List ZArith Bool Arith.
From TM Require Import Gram.Cfg Gram.LalrRef Gram.LalrSpec.
Import ListNotations.
Local Open Scope Z_scope.

Fixpoint build_done (fuel : nat) (g : grammar) (a : automaton) (k : Z) : bool :=
  match fuel with
  | O => negb (k <? Z.of_nat (length (a_states a)))
  | S f => if k <? Z.of_nat (length (a_states a)) then build_done f g (expand_state g a k) (k + 1) else true
  end.

(* the LR(0) collection of build_automaton was completed within the fuel *)
Definition ref_done (g : grammar) (fuel : nat) : bool :=
  build_done fuel g (mkAut (map (fun inp => mkState [] (Some (fst inp)) 0) (g_inputs g)) []) 0.

Definition wf_grammar (g : grammar) : bool :=
  (0 <=? g_terms g) &&
  forallb (fun r => (g_terms g <=? r_lhs r) && (r_lhs r <? g_terms g + g_nonterms g) &&
                    forallb (fun s => (0 <=? s) && (s <? nsyms g)) (r_rhs r)) (g_rules g).

(* the part of the certificate LalrCert.ref_cert that is still evaluated per grammar once the automaton clauses
   (aut_cert) and the nullable / FIRST clauses are replaced by theorems (LalrRef_proofs.v) *)
Definition ref_cert_light (g : grammar) (fuel : nat) : bool :=
  let a := fst (build_automaton g fuel) in
  wf_grammar g && ref_done g fuel &&
  la_stable g a (nullable_set g) (first_sets g) (lalr_la g a fuel).
