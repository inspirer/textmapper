(* Rule classes, Lalr rows and the action of merged states; then the result: for well-formed inputs the model of
   lalr.minimize passes the quotient check ([minimize_passes_check]), hence the simulation ([minimize_simulates]). *)
From Coq Require Import List ZArith Bool Lia.
From TM Require Import Gram.PTables Gram.Optimize Gram.Run Gram.Minimize Gram.ZTab_proofs Gram.Minimize_proofs
  Gram.MinNumber_proofs Gram.MinimizeWf Gram.MinPartition_proofs Gram.MinTables_proofs.
Import ListNotations.
Local Open Scope Z_scope.

Section RuleClasses.
Variables (mi : min_input) (rule_sym : list Z).
Let nrules := zlength (mi_rule_len mi).
Let ngr := Z.of_nat (length (mi_rule_keys mi)).
Hypothesis Hkeys : forall r, 0 <= r < ngr -> wf_rule_key mi rule_sym r = true.

(* what computeRuleClasses numbers for a grammar rule: its key with the length put in *)
Definition class_key (r : Z) : list Z :=
  match nth (Z.to_nat r) (mi_rule_keys mi) [] with lhs :: rest => lhs :: zn (mi_rule_len mi) r :: rest | [] => [] end.

Lemma rule_classes_eq :
  rule_classes mi = let '(ids, nkeys) := number_all (map class_key (zseq ngr)) in
                    ids ++ map (fun i => nkeys + (ngr + i)) (zseq (nrules - ngr)).
Proof.
  unfold rule_classes. rewrite zlength_map0, (map_combine_zseq _ _ []). fold ngr nrules.
  change (map _ (zseq ngr)) with (map class_key (zseq ngr)). destruct (number_all _). now rewrite map_map.
Qed.

Lemma rule_key_full_gr r : 0 <= r < ngr -> exists rest,
  class_key r = zn rule_sym r :: zn (mi_rule_len mi) r :: rest /\
  rule_key_full mi rule_sym r = zn (mi_rule_len mi) r :: zn rule_sym r :: zn rule_sym r :: rest.
Proof.
  intro Hr. specialize (Hkeys r Hr). unfold wf_rule_key in Hkeys. unfold class_key, rule_key_full.
  rewrite zlength_map0. fold ngr. replace ((0 <=? r) && (r <? ngr)) with true by lia.
  destruct (nth _ _ []) as [|lhs rest]; [discriminate|]. apply Z.eqb_eq in Hkeys. subst lhs. now exists rest.
Qed.

(* grammar rules are numbered by key, runtime-lookahead rules get classes of their own above those *)
Lemma rule_classes_spec :
  (forall r, 0 <= r < nrules -> 0 <= zn (rule_classes mi) r) /\
  (forall r r', 0 <= r < nrules -> 0 <= r' < nrules -> zn (rule_classes mi) r = zn (rule_classes mi) r' ->
     rule_key_full mi rule_sym r = rule_key_full mi rule_sym r').
Proof.
  rewrite rule_classes_eq. destruct (number_all _) as [ids nkeys] eqn:E.
  destruct (number_all_keys class_key ngr ids nkeys ltac:(lia) E) as [L R Eq _ C _].
  set (hi := map _ (zseq (nrules - ngr))).
  assert (Hlo : forall r, 0 <= r < ngr -> 0 <= zn (ids ++ hi) r < nkeys /\ zn (ids ++ hi) r = zn ids r).
  { intros r Hr. rewrite zn_app1 by lia. split; [now apply R|reflexivity]. }
  assert (Hhi : forall r, ngr <= r < nrules -> zn (ids ++ hi) r = nkeys + r).
  { intros r Hr. rewrite zn_app2 by lia. unfold hi. rewrite zn_map_zseq by lia. lia. }
  split.
  - intros r Hr. destruct (Z_lt_le_dec r ngr); [apply Hlo; lia|rewrite Hhi by lia; lia].
  - intros r r' Hr Hr' Hc. destruct (Z_lt_le_dec r ngr), (Z_lt_le_dec r' ngr).
    + destruct (Hlo r) as [_ E1], (Hlo r') as [_ E2]; try lia. rewrite E1, E2 in Hc. apply Eq in Hc; [|lia|lia].
      destruct (rule_key_full_gr r) as (rest & K & ->); [lia|]. destruct (rule_key_full_gr r') as (rest' & K' & ->); [lia|].
      rewrite K, K' in Hc. now injection Hc as -> -> ->.
    + destruct (Hlo r); [lia|]. rewrite (Hhi r') in Hc by lia. lia.
    + destruct (Hlo r'); [lia|]. rewrite (Hhi r) in Hc by lia. lia.
    + rewrite !Hhi in Hc by lia. now replace r' with r by lia.
Qed.
End RuleClasses.

Definition mrule (rc : list Z) (r : Z) : Z := if r >=? 0 then zn rc r else r.

Lemma flat_pair_inj (g : Z -> Z) row : forall row',
  flat_map (fun '(x, y) => [x; g y]) row = flat_map (fun '(x, y) => [x; g y]) row' ->
  Forall2 (fun e e' => fst e = fst e' /\ g (snd e) = g (snd e')) row row'.
Proof.
  induction row as [|[x y] row IH]; intros [|[x' y'] row'] H; cbn [flat_map app] in H; try discriminate; [constructor|].
  injection H as H1 H2 H3. constructor; [split; assumption|]. now apply IH.
Qed.

Lemma find_Forall2 (g : Z -> Z) next row row' :
  Forall2 (fun e e' => fst e = fst e' /\ g (snd e) = g (snd e')) row row' ->
  match find (fun en : Z * Z => fst en =? next) row, find (fun en : Z * Z => fst en =? next) row' with
  | Some e, Some e' => In e row /\ In e' row' /\ g (snd e) = g (snd e')
  | None, None => True
  | _, _ => False
  end.
Proof.
  induction 1 as [|e e' row row' [H1 H2] HF IH]; cbn [find]; [exact I|]. rewrite <- H1.
  destruct (fst e =? next).
  - split; [now left|]. split; [now left|exact H2].
  - destruct (find _ row), (find _ row'); try exact IH. destruct IH as (A & B & C). split; [now right|]. split; [now right|exact C].
Qed.

(* equal signatures: the same plain action up to rule classes, or rows that agree entry by entry *)
Lemma act_sig_inv t rc a a' : act_sig t rc a = act_sig t rc a' ->
  (-2 <= a /\ -2 <= a' /\ mrule rc a = mrule rc a') \/
  (a < -2 /\ a' < -2 /\
   Forall2 (fun e e' => fst e = fst e' /\ mrule rc (snd e) = mrule rc (snd e'))
           (row_of t a) (row_of t a')).
Proof.
  unfold act_sig, mrule.
  destruct (Z.geb_spec a 0); [|destruct (Z.eqb_spec a (-1)); [|destruct (Z.eqb_spec a (-2))]];
  (destruct (Z.geb_spec a' 0); [|destruct (Z.eqb_spec a' (-1)); [|destruct (Z.eqb_spec a' (-2))]]);
  intro E; try discriminate E; [left; injection E as E|left|left|right; injection E as E].
  - split; [lia|]. split; [lia|exact E].
  - repeat split; lia.
  - repeat split; lia.
  - split; [lia|]. split; [lia|]. exact (flat_pair_inj (mrule rc) _ _ E).
Qed.

Definition act1 (t : default_enc) (a0 term : Z) : Z := if a0 <? -2 then lalr_lookup t a0 term else a0.

Section Actions.
Variables (mi : min_input) (rule_sym : list Z).
Let t := mi_enc mi.
Let n := mi_num_states mi.
Let nrules := zlength (mi_rule_len mi).
Let ngr := Z.of_nat (length (mi_rule_keys mi)).
Let rc := rule_classes mi.
Let special := accept_on_entry mi.
Hypothesis Hkeys : forall r, 0 <= r < ngr -> wf_rule_key mi rule_sym r = true.
Hypothesis Hact : forall s, 0 <= s < n -> wf_action t nrules s = true.

Definition act_equiv (a a' : Z) : Prop :=
  (a = a' /\ -2 <= a < 0) \/
  (0 <= a < nrules /\ 0 <= a' < nrules /\ rule_key_full mi rule_sym a = rule_key_full mi rule_sym a').

Lemma act1_row a term : a < -2 -> wf_lalr_row t nrules (- a - 3) = true ->
  act1 t a term = match find (fun en => fst en =? term) (row_of t a) with
                  | Some en => snd en | None => -2 end /\
  (forall en, In en (row_of t a) -> -2 <= snd en < nrules).
Proof.
  intro Ha. unfold wf_lalr_row, act1. rewrite !andb_true_iff, forallb_forall. intros [[[[W1 W2] W3] W4] W5].
  replace (a <? -2) with true by lia. split; [apply lalr_lookup_terminated; unfold row_of; lia|].
  intros en Hin. specialize (W5 en Hin). lia.
Qed.

Lemma act1_range s term : 0 <= s < n -> -2 <= act1 t (zn (d_action t) s) term < nrules.
Proof.
  intro Hs. pose proof (Hact s Hs) as W. unfold wf_action in W. pose proof (zlength_nonneg (mi_rule_len mi)). fold nrules in H.
  destruct (Z_lt_le_dec (zn (d_action t) s) (-2)) as [Hlt|Hge].
  - replace (zn (d_action t) s >=? 0) with false in W by lia. replace (zn (d_action t) s <? -2) with true in W by lia.
    destruct (act1_row _ term Hlt W) as [-> R]. clear W. destruct (find _ _) as [en|] eqn:Ef; [|lia]. apply find_some in Ef. apply R, Ef.
  - unfold act1. replace (zn (d_action t) s <? -2) with false by lia. destruct (Z.geb_spec (zn (d_action t) s) 0); lia.
Qed.

Lemma mrule_equiv r r' : -2 <= r < nrules -> -2 <= r' < nrules -> mrule rc r = mrule rc r' -> act_equiv r r'.
Proof.
  destruct (rule_classes_spec mi rule_sym Hkeys) as [RC0 RCeq]. fold rc nrules in RC0, RCeq. unfold mrule.
  intros Hr Hr'. destruct (Z.geb_spec r 0), (Z.geb_spec r' 0); intro E.
  - right. split; [lia|]. split; [lia|]. apply RCeq; [lia|lia|exact E].
  - pose proof (RC0 r). lia.
  - pose proof (RC0 r'). lia.
  - left. lia.
Qed.

Theorem sig_act_equiv s s' term : 0 <= s < n -> 0 <= s' < n ->
  state_signature t rc special s = state_signature t rc special s' ->
  act_equiv (act1 t (zn (d_action t) s) term) (act1 t (zn (d_action t) s') term).
Proof.
  intros Hs Hs' Hsig. pose proof (act1_range s term Hs) as R. pose proof (act1_range s' term Hs') as R'.
  rewrite !state_signature_eq in Hsig. destruct (memz s special), (memz s' special).
  - injection Hsig as <-. now apply mrule_equiv.
  - symmetry in Hsig. destruct (act_sig_not_final _ _ _ _ Hsig).
  - destruct (act_sig_not_final _ _ _ _ Hsig).
  - destruct (act_sig_inv _ _ _ _ Hsig) as [(A & A' & E)|(A & A' & F)].
    + unfold act1 in *. apply Z.ltb_ge in A, A'. rewrite A, A' in *. now apply mrule_equiv.
    + pose proof (Hact s Hs) as W. pose proof (Hact s' Hs') as W'. unfold wf_action in W, W'.
      destruct (Z.geb_spec (zn (d_action t) s) 0); [lia|]. destruct (Z.geb_spec (zn (d_action t) s') 0); [lia|].
      rewrite (proj2 (Z.ltb_lt _ _) A) in W. rewrite (proj2 (Z.ltb_lt _ _) A') in W'.
      destruct (act1_row _ term A W) as [E1 Q], (act1_row _ term A' W') as [E1' Q']. clear W W'. rewrite E1, E1' in *.
      pose proof (find_Forall2 (mrule rc) term _ _ F) as HF. destruct (find _ _), (find _ _); try contradiction.
      * destruct HF as (I & I' & E). now apply mrule_equiv.
      * left. lia.
Qed.
End Actions.

Lemma wf_parts mi rule_sym terms ninputs : wf_min_input mi rule_sym terms ninputs = true ->
  let t := mi_enc mi in let n := mi_num_states mi in
  let nsyms := zlength (d_goto t) - 1 in let nrules := zlength (mi_rule_len mi) in
  let ngr := Z.of_nat (length (mi_rule_keys mi)) in
  0 < terms <= nsyms /\ ninputs = zlength (mi_final mi) /\ ninputs <= n /\
  (forall s, In s (mi_final mi) -> 0 <= s < n) /\
  (forall x, 0 <= x < nsyms -> wf_goto_sym t n x = true) /\
  (forall s, 0 <= s < n -> wf_action t nrules s = true) /\
  (forall r, 0 <= r < nrules -> terms <= zn rule_sym r < nsyms) /\
  (forall r, 0 <= r < ngr -> wf_rule_key mi rule_sym r = true).
Proof.
  unfold wf_min_input. cbn zeta. intro H.
  apply andb_prop in H as [H A10]. apply andb_prop in H as [H A9]. apply andb_prop in H as [H _].
  apply andb_prop in H as [H A7]. apply andb_prop in H as [H A6]. apply andb_prop in H as [H A5].
  rewrite !andb_true_iff in H. rewrite forallb_zseq in A6, A7, A9, A10. rewrite forallb_forall in A5.
  split; [lia|]. split; [lia|]. split; [lia|]. split; [intros s Hs; specialize (A5 s Hs); lia|].
  split; [exact A6|]. split; [exact A7|]. split; [intros r Hr; specialize (A9 r Hr); lia|exact A10].
Qed.

Lemma lalr_deep_act1 t s a : -2 <= act1 t (zn (d_action t) s) a -> lalr_deep t s a = false.
Proof. unfold act1, lalr_deep. destruct (zn (d_action t) s <? -2); [lia|reflexivity]. Qed.

Lemma default_act_act1 t s a : -2 <= act1 t (zn (d_action t) s) a ->
  default_act t s a [] =
  (let a1 := act1 t (zn (d_action t) s) a in
   if a1 >=? 0 then Reduce a1
   else if a1 =? -1 then (let q := goto_state t s a in if q >=? 0 then Shift q else Err) else Err).
Proof.
  unfold act1, default_act. cbn zeta. intro H. destruct (zn (d_action t) s <? -2).
  - replace (lalr_lookup t (zn (d_action t) s) a <? -2) with false by lia. reflexivity.
  - replace (zn (d_action t) s <? -2) with false by lia. reflexivity.
Qed.

Section Commute.
Variables (mi : min_input) (rule_sym : list Z) (terms ninputs : Z) (mo : min_output).
Let t := mi_enc mi.
Let n := mi_num_states mi.
Let nsyms := zlength (d_goto t) - 1.
Let t' := mo_enc mo.
Let rm := zn (mo_remap mo).
Hypothesis Hwf : wf_min_input mi rule_sym terms ninputs = true.
Hypothesis Hlalr : d_lalr t' = d_lalr t.
Hypothesis Hrange : forall s, 0 <= s < n -> 0 <= rm s < mo_num_states mo.
Hypothesis Hentry : forall i, 0 <= i < ninputs -> rm i = i.
Hypothesis Hfin : mo_final mo = map rm (mi_final mi).
(* every new state carries the Action entry of one of the old states mapped to it *)
Hypothesis Hact' : forall s, 0 <= s < n -> exists s', 0 <= s' < n /\ zn (d_action t') (rm s) = zn (d_action t) s' /\
  state_signature t (rule_classes mi) (accept_on_entry mi) s = state_signature t (rule_classes mi) (accept_on_entry mi) s'.
Hypothesis Hgoto : forall s x, 0 <= s < n -> 0 <= x < nsyms ->
  let q := goto_state t s x in
  (q = -1 /\ goto_state t' (rm s) x = -1) \/ (0 <= q < n /\ goto_state t' (rm s) x = rm q).

Theorem quotient_passes_check : check_min mi rule_sym mo terms ninputs = true.
Proof.
  destruct (wf_parts _ _ _ _ Hwf) as (W1 & _ & _ & _ & _ & W6 & W8 & W9). clear Hwf. cbn zeta in *. fold t n nsyms in W1, W6, W8.
  apply check_min_cells. fold t n rm t' nsyms. split; [exact Hrange|]. split; [exact Hentry|]. split; [exact Hfin|].
  split; [exact W8|]. split.
  - intros s a Hs Ha. destruct (Hact' s Hs) as (s' & Hs' & Ea & Hsig).
    pose proof (sig_act_equiv mi rule_sym W9 W6 s s' a Hs Hs' Hsig) as Heq. fold t in Heq.
    pose proof (act1_range mi W6 s a Hs) as R. pose proof (act1_range mi W6 s' a Hs') as R'. fold t in R, R'.
    assert (E1 : act1 t' (zn (d_action t') (rm s)) a = act1 t (zn (d_action t) s') a).
    { rewrite Ea. unfold act1, lalr_lookup. now rewrite Hlalr. }
    unfold act_cell. fold t t' rm n.
    rewrite (lalr_deep_act1 t s a), (lalr_deep_act1 t' (rm s) a), (default_act_act1 t s a), (default_act_act1 t' (rm s) a)
      by (rewrite ?E1; lia).
    cbn zeta. rewrite E1. cbn [negb andb].
    set (a1 := act1 t (zn (d_action t) s) a) in *. set (a1' := act1 t (zn (d_action t) s') a) in *.
    destruct Heq as [[<- Hneg]|(Q1 & Q2 & Q3)].
    + replace (a1 >=? 0) with false by lia. destruct (a1 =? -1); [|reflexivity].
      destruct (Hgoto s a Hs ltac:(lia)) as [[G1 G2]|[G1 G2]]; cbn zeta in G1, G2; rewrite G2; [now rewrite G1|].
      pose proof (Hrange _ G1). replace (goto_state t s a >=? 0) with true by lia.
      replace (rm (goto_state t s a) >=? 0) with true by lia. lia.
    + replace (a1 >=? 0) with true by lia. replace (a1' >=? 0) with true by lia.
      rewrite (proj2 (zlist_eqb_eq _ _) Q3). lia.
  - intros s x Hs Hx. unfold goto_cell. fold t t' rm n.
    destruct (Hgoto s x Hs ltac:(lia)) as [[G1 G2]|[G1 G2]]; cbn zeta in *; rewrite G2; [now rewrite G1|].
    replace (goto_state t s x =? -1) with false by lia. lia.
Qed.
End Commute.

Theorem minimize_passes_check mi rule_sym terms ninputs :
  wf_min_input mi rule_sym terms ninputs = true -> check_min mi rule_sym (minimize mi) terms ninputs = true.
Proof.
  intro Hwf. destruct (wf_parts _ _ _ _ Hwf) as (W1 & W2 & W3 & W4 & W5 & _). cbn zeta in *.
  set (t := mi_enc mi) in *. set (n := mi_num_states mi) in *.
  assert (Hn : 0 <= n) by (unfold zlength in W2; lia).
  assert (Hk : zlength (mi_final mi) <= n) by lia.
  rewrite minimize_cases. destruct (init_partition mi) as [p0 c0] eqn:Hinit.
  destruct (final_partition mi) as [remap cnt] eqn:Hfinal. fold n.
  destruct (cnt =? n); apply quotient_passes_check; try exact Hwf; clear Hwf; cbn [mo_enc mo_final mo_num_states mo_remap]; fold t n;
    try reflexivity.
  - (* nothing merged: the tables are returned unchanged, with the identity remapping *)
    intros s Hs. now rewrite zn_zseq.
  - intros i Hi. apply zn_zseq. lia.
  - rewrite <- (map_id (mi_final mi)) at 1. apply map_ext_in. intros s Hs. symmetry. now apply zn_zseq, W4.
  - intros s Hs. exists s. rewrite zn_zseq by exact Hs. auto.
  - intros s x Hs Hx. cbn zeta. rewrite zn_zseq by exact Hs.
    destruct (goto_state_cases t n x s (W5 x Hx)) as [[_ Hq]|[G _]]; [right|left; now split].
    split; [exact Hq|]. symmetry. now apply zn_zseq.
  - exact (remap_range mi Hn Hk p0 c0 Hinit remap cnt Hfinal).
  - intros i Hi. apply (remap_entry mi Hn Hk p0 c0 Hinit remap cnt Hfinal). lia.
  - intros s Hs. pose proof (remap_range mi Hn Hk p0 c0 Hinit remap cnt Hfinal s Hs) as Hr.
    destruct (fold_set_at_zn (zn remap) (zn (d_action t)) (zseq n) (zn remap s) (map (fun _ => 0) (zseq cnt)))
      as [(i & Hi & Hri & Hz)|[Hno _]].
    { unfold zlength. rewrite zlength_map_zseq; lia. }
    + apply in_zseq in Hi. exists i. split; [exact Hi|]. split; [exact Hz|].
      apply (remap_sig mi Hn Hk p0 c0 Hinit remap cnt Hfinal); [exact Hs|exact Hi|now symmetry].
    + destruct (Hno s); [now apply in_zseq|reflexivity].
  - intros s x Hs Hx. apply (goto_commutes mi Hn Hk p0 c0 Hinit remap cnt Hfinal); [exact Hs|exact Hx|now apply W5].
Qed.

Theorem minimize_simulates mi rule_sym terms ninputs : wf_min_input mi rule_sym terms ninputs = true ->
  forall i, 0 <= i < ninputs ->
  forall end_state, 0 <= end_state < mi_num_states mi ->
  forall fuel eoff input, Forall (fun tk => 0 <= t_sym tk < terms) input ->
  let mo := minimize mi in
  let m := default_machine (mi_enc mi) (mi_rule_len mi) rule_sym in
  let m' := default_machine (mo_enc mo) (mi_rule_len mi) rule_sym in
  let remap := zn (mo_remap mo) in
  (forall s, In s (visited m fuel eoff end_state (mkConfig [mkEntry 0 0 0 i] i input 0 [])) ->
             remap s = remap end_state -> s = end_state) ->
  fst (run fuel m i end_state eoff input) = fst (run fuel m' i (remap end_state) eoff input) /\
  config_rel remap (rel_rule_of mi rule_sym)
             (snd (run fuel m i end_state eoff input)) (snd (run fuel m' i (remap end_state) eoff input)).
Proof.
  intros Hwf i Hi end_state Hend fuel eoff input Htok mo m m' remap Hnc.
  destruct (wf_parts _ _ _ _ Hwf) as (W1 & W2 & W3 & _). cbn zeta in *.
  exact (minimized_parser_simulates mi rule_sym (minimize mi) terms ninputs (minimize_passes_check _ _ _ _ Hwf)
           ltac:(lia) i Hi ltac:(lia) end_state Hend fuel eoff input Htok Hnc).
Qed.
