(* C02 without fixWhitespace ("loose" ranges): a node starts at its first token and ends at the end of its last
   token, unless its last symbol (recursively) is empty: then it ends at the start of the FOLLOWING token, i.e. it
   extends over the whitespace in between. On token streams without gaps the loop computes the strict ranges. *)
From Coq Require Import List ZArith Lia.
From TM Require Import Gram.Events Gram.Events_proofs Gram.Events_strict.
Import ListNotations.
Local Open Scope Z_scope.

(* the rightmost path of the tree ends in an empty rule *)
Fixpoint ends_empty (t : tree) : bool :=
  match t with
  | TLeaf _ _ _ => false
  | TNode _ ch =>
      (fix go (l : list tree) : bool :=
         match l with [] => true | c :: r => match r with [] => ends_empty c | _ => go r end end) ch
  end.

Lemma ends_empty_node r ch :
  ends_empty (TNode r ch) = match ch with [] => true | _ => ends_empty (last ch (TLeaf 0 0 0)) end.
Proof.
  simpl. induction ch as [|c rest IH]; [reflexivity|]. destruct rest as [|c' rest']; [reflexivity|]. exact IH.
Qed.

(* the loose end of a tree that is followed by a token starting at a *)
Definition lend (t : tree) (a : Z) : Z := if ends_empty t then a else snd (span_of (leaves t) a).

Definition loose_range (t : tree) (a : Z) : range := (fst (span_of (leaves t) a), lend t a).

Fixpoint loose_ranges (ch : list tree) (after : Z) : list range :=
  match ch with [] => [] | c :: rest => loose_range c (start_of rest after) :: loose_ranges rest after end.

(* the event of an arrow over children s..e-1: from the first token of the part (or the following token) to the
   loose end of its last child *)
Definition loose_arrow_event (ch : list tree) (after : Z) (a : nat * nat * Z) : event :=
  let '(s, e, ty) := a in
  if Nat.eqb s e then (ty, start_of (skipn e ch) after, start_of (skipn e ch) after)
  else (ty, start_of (skipn s ch) after, lend (nth (e - 1) ch (TLeaf 0 0 0)) (start_of (skipn e ch) after)).

Fixpoint loose_events (arrows : arrow_table) (t : tree) (after : Z) : list event :=
  match t with
  | TLeaf _ _ _ => []
  | TNode r ch =>
      (fix go (l : list tree) : list event :=
         match l with
         | [] => []
         | c :: rest => loose_events arrows c (start_of rest after) ++ go rest
         end) ch
      ++ map (loose_arrow_event ch after) (arrows_at arrows r)
  end.

Lemma loose_events_node arrows r ch after :
  loose_events arrows (TNode r ch) after =
    fcat (loose_events arrows) after ch ++ map (loose_arrow_event ch after) (arrows_at arrows r).
Proof. reflexivity. Qed.

(* the part of wf_tree that does not mention HasTrailingNulls *)
Inductive wf_reports (evt : ev_table) (rl : Z -> Z) : tree -> Prop :=
| wfr_leaf s o e : wf_reports evt rl (TLeaf s o e)
| wfr_node r ch :
    Forall (wf_reports evt rl) ch -> 0 <= r -> Z.to_nat (rl r) = length ch ->
    Forall (report_ok (length ch)) (er_reports (ev_at evt r)) ->
    wf_reports evt rl (TNode r ch).

Lemma wf_tree_reports evt rl t : wf_tree evt rl t -> wf_reports evt rl t.
Proof.
  induction t as [s o e | r ch IH] using tree_ind2; intros H; [constructor|].
  inversion H as [| ? ? Hch Hr Hlen Hreps _]; subst. constructor; auto.
  rewrite Forall_forall in *. intros c Hc. apply IH; auto.
Qed.

Lemma ends_empty_leaves t : ends_empty t = false -> leaves t <> [].
Proof.
  induction t as [s o e | r ch IH] using tree_ind2; intros H; [discriminate|].
  rewrite ends_empty_node in H. rewrite leaves_node. destruct ch as [|c0 rest0] eqn:Ech; [discriminate|].
  rewrite <- Ech in *. assert (Hne : ch <> []) by (rewrite Ech; discriminate).
  destruct (exists_last Hne) as (P & c & EP). rewrite EP in *. rewrite last_last in H.
  rewrite Forall_forall in IH. specialize (IH c ltac:(apply in_or_app; right; left; reflexivity) H).
  rewrite forest_leaves_app. unfold forest_leaves at 2. simpl. rewrite app_nil_r.
  intros E. apply app_eq_nil in E. tauto.
Qed.

Lemma loose_ranges_fmap ch aft : loose_ranges ch aft = fmap loose_range aft ch.
Proof. induction ch as [|c rest IH]; simpl; [reflexivity|]. rewrite IH. reflexivity. Qed.

Lemma loose_ranges_length ch aft : length (loose_ranges ch aft) = length ch.
Proof. rewrite loose_ranges_fmap. apply fmap_length. Qed.

Lemma lend_node r ch aft :
  lend (TNode r ch) aft = match ch with [] => aft | _ => lend (last ch (TLeaf 0 0 0)) aft end.
Proof.
  unfold lend. rewrite ends_empty_node, leaves_node. destruct ch as [|c0 rest0] eqn:Ech; [reflexivity|].
  rewrite <- Ech. assert (Hne : ch <> []) by (rewrite Ech; discriminate).
  destruct (exists_last Hne) as (P & c & EP). rewrite EP. rewrite last_last.
  destruct (ends_empty c) eqn:Ec; [reflexivity|].
  rewrite forest_leaves_app, span_app. unfold forest_leaves at 2. simpl. rewrite app_nil_r.
  pose proof (ends_empty_leaves _ Ec) as Hl. destruct (leaves c); [congruence|reflexivity].
Qed.

Lemma loose_range_node r ch a : loose_range (TNode r ch) a = lhs_range (fmap loose_range a ch) a.
Proof.
  unfold loose_range at 1. rewrite lend_node, leaves_node. destruct ch as [|c0 rest0]; [reflexivity|].
  rewrite (lhs_range_fmap loose_range _ a (TLeaf 0 0 0)) by (discriminate || reflexivity). reflexivity.
Qed.

Lemma node_arrow_loose r ch after ty :
  loose_arrow_event ch after (O, length ch, ty) = (ty, fst (loose_range (TNode r ch) after), snd (loose_range (TNode r ch) after)).
Proof.
  unfold loose_arrow_event, loose_range. cbn [fst snd]. rewrite lend_node, leaves_node.
  destruct ch as [|c0 rest0]; [reflexivity|]. change (Nat.eqb 0 (length (c0 :: rest0))) with false. cbv iota.
  rewrite skipn_all, nth_last by discriminate. reflexivity.
Qed.

Lemma report_event_unfixed (f : tree -> Z -> range) ch after s e ty :
  (forall c x, fst (f c x) = fst (span_of (leaves c) x)) -> report_ok (length ch) (s, e, ty) ->
  report_event false (fmap f after ch) (s, e, ty) =
    if Nat.eqb s e then (ty, start_of (skipn e ch) after, start_of (skipn e ch) after)
    else (ty, start_of (skipn s ch) after, snd (f (nth (e - 1) ch (TLeaf 0 0 0)) (start_of (skipn e ch) after))).
Proof.
  intros Hf (Hse & Hel & Hlt). unfold report_event. destruct (Nat.eqb s e) eqn:E.
  - apply Nat.eqb_eq in E. subst e. rewrite (nth_fmap _ _ _ _ (TLeaf 0 0 0)), Hf, <- start_of_skipn by auto. reflexivity.
  - apply Nat.eqb_neq in E. rewrite !(nth_fmap _ _ _ _ (TLeaf 0 0 0)), Hf, <- start_of_skipn by lia.
    replace (S (e - 1)) with e by lia. reflexivity.
Qed.

Lemma report_event_loose ch after rep : report_ok (length ch) rep ->
  report_event false (fmap loose_range after ch) rep = loose_arrow_event ch after rep.
Proof. intros Hok. destruct rep as [[s e] ty]. apply report_event_unfixed; [reflexivity|exact Hok]. Qed.

(* for every tree whose reports lie inside their rules, whatever the tokens are *)
Theorem tree_run_loose evt rl t : wf_reports evt rl t -> forall after,
  tree_run false evt t after = (loose_range t after, loose_events (arrows_of_ev rl evt) t after).
Proof.
  intros Hw after.
  apply (tree_run_fold false evt rl loose_range (loose_events (arrows_of_ev rl evt)) loose_arrow_event
           (fun t _ => wf_reports evt rl t)); try reflexivity; [| | | |exact Hw].
  - intros r ch a Hwn. inversion Hwn; subst. split; [apply fmap_Forall; assumption|split; assumption].
  - intros r ch a _. cbv zeta. rewrite loose_range_node. destruct (lhs_range _ _). reflexivity.
  - intros r ch a rep Hwn Hin. inversion Hwn as [|? ? _ _ _ Hreps]; subst.
    apply report_event_loose. rewrite Forall_forall in Hreps. apply Hreps. exact Hin.
  - intros r ch a ty _. apply node_arrow_loose.
Qed.

Lemma lend_cases t a :
  (ends_empty t = true -> lend t a = a) /\
  (ends_empty t = false -> leaves t <> [] /\ lend t a = snd (span_of (leaves t) a)).
Proof.
  unfold lend. split; intros H; rewrite H; [reflexivity|]. split; [apply ends_empty_leaves; exact H|reflexivity].
Qed.

Fixpoint contiguous (ls : list (Z * Z)) (after : Z) : Prop :=
  match ls with
  | [] => True
  | r :: rest => snd r = fst (span_of rest after) /\ contiguous rest after
  end.

Lemma contiguous_app (a b : list (Z * Z)) after :
  contiguous (a ++ b) after <-> contiguous a (fst (span_of b after)) /\ contiguous b after.
Proof. induction a as [|r a IH]; simpl; [tauto|]. rewrite IH, span_app. simpl. tauto. Qed.

Lemma contiguous_snd ls : forall after, contiguous ls after -> snd (span_of ls after) = after.
Proof.
  induction ls as [|r rest IH]; intros after H; [reflexivity|].
  simpl in H. destruct H as [H1 H2]. destruct r as [o e]. destruct rest as [|r' rest'].
  - simpl in *. exact H1.
  - specialize (IH after H2). destruct r' as [o' e']. exact IH.
Qed.

Lemma lend_nogap t a : contiguous (leaves t) a -> lend t a = snd (span_of (leaves t) a).
Proof. intros H. unfold lend. destruct (ends_empty t); [|reflexivity]. symmetry. apply contiguous_snd. exact H. Qed.

Definition contiguous_split a b x := proj1 (contiguous_app a b x).

Lemma child_contiguous ch after i : contiguous (forest_leaves ch) after -> (i < length ch)%nat ->
  contiguous (leaves (nth i ch (TLeaf 0 0 0))) (start_of (skipn (S i) ch) after).
Proof.
  intros Hc Hi. pose proof (forest_segment contiguous contiguous_split ch after i (S i) ltac:(lia) Hc) as H.
  rewrite (seg_single ch (TLeaf 0 0 0) i Hi), forest_leaves_single in H. exact H.
Qed.

Lemma loose_arrow_nogap ch after s e ty : (s <= e)%nat -> (e <= length ch)%nat ->
  contiguous (forest_leaves ch) after ->
  loose_arrow_event ch after (s, e, ty) = arrow_event ch after (s, e, ty).
Proof.
  intros Hse Hel Hc. unfold loose_arrow_event, arrow_event. fold (seg ch s e). destruct (Nat.eqb s e) eqn:E.
  - apply Nat.eqb_eq in E. subst e. unfold seg. rewrite Nat.sub_diag. reflexivity.
  - apply Nat.eqb_neq in E. pose proof (forest_segment contiguous contiguous_split ch after s e Hse Hc) as Hs.
    pose proof (child_contiguous ch after (e - 1) Hc ltac:(lia)) as Hl. replace (S (e - 1)) with e in Hl by lia.
    rewrite (lend_nogap _ _ Hl), (contiguous_snd _ _ Hl), (skipn_seg ch s e Hse), start_of_app. unfold start_of at 1.
    rewrite (surjective_pairing (span_of (forest_leaves (seg ch s e)) _)), (contiguous_snd _ _ Hs). reflexivity.
Qed.

Lemma report_event_nogap ch after rep : contiguous (forest_leaves ch) after -> report_ok (length ch) rep ->
  report_event false (fmap spec_range after ch) rep = arrow_event ch after rep.
Proof.
  intros Hc Hok. destruct rep as [[s e] ty]. pose proof Hok as (Hse & Hel & Hlt).
  rewrite <- (loose_arrow_nogap ch after s e ty Hse Hel Hc), (report_event_unfixed spec_range) by (reflexivity || exact Hok).
  unfold loose_arrow_event. destruct (Nat.eqb s e) eqn:E; [reflexivity|]. apply Nat.eqb_neq in E.
  pose proof (child_contiguous ch after (e - 1) Hc ltac:(lia)) as Hl. replace (S (e - 1)) with e in Hl by lia.
  rewrite (lend_nogap _ _ Hl). reflexivity.
Qed.

Lemma nogap_range r ch a : contiguous (forest_leaves ch) a -> spec_range (TNode r ch) a = lhs_range (fmap spec_range a ch) a.
Proof.
  intros Hc. change (spec_range (TNode r ch) a) with (span_of (forest_leaves ch) a).
  destruct ch as [|c0 rest0] eqn:Ech; [reflexivity|]. rewrite <- Ech in *. assert (Hne : ch <> []) by (rewrite Ech; discriminate).
  rewrite (lhs_range_fmap spec_range ch a (TLeaf 0 0 0) Hne (fun _ _ => eq_refl)).
  rewrite (surjective_pairing (span_of (forest_leaves ch) a)), (contiguous_snd _ _ Hc). f_equal.
  destruct (exists_last Hne) as (P & c & EP). rewrite EP in *. rewrite last_last.
  rewrite forest_leaves_app, forest_leaves_single in Hc. apply contiguous_app in Hc. symmetry. apply contiguous_snd, Hc.
Qed.

(* On a token stream without gaps the loop without fixWhitespace computes the strict ranges and the
   specification's events. *)
Theorem tree_run_nogap evt rl t : wf_reports evt rl t -> forall after, contiguous (leaves t) after ->
  tree_run false evt t after = (span_of (leaves t) after, spec_events (arrows_of_ev rl evt) t after).
Proof.
  intros Hw after Hc.
  apply (tree_run_fold false evt rl spec_range (spec_events (arrows_of_ev rl evt)) arrow_event
           (fun t a => wf_reports evt rl t /\ contiguous (leaves t) a)); try reflexivity; [| | | |split; assumption].
  - intros r ch a [Hwn Hcn]. inversion Hwn; subst.
    split; [apply (forest_descend contiguous contiguous_split); assumption|split; assumption].
  - intros r ch a [_ Hcn]. cbv zeta. rewrite (nogap_range r ch a Hcn). destruct (lhs_range _ _). reflexivity.
  - intros r ch a rep [Hwn Hcn] Hin. inversion Hwn as [|? ? _ _ _ Hreps]; subst.
    apply report_event_nogap; [exact Hcn|]. rewrite Forall_forall in Hreps. apply Hreps. exact Hin.
  - intros r ch a ty _. apply arrow_whole.
Qed.

Lemma loose_events_nogap evt rl t : wf_reports evt rl t -> forall after, contiguous (leaves t) after ->
  loose_events (arrows_of_ev rl evt) t after = spec_events (arrows_of_ev rl evt) t after.
Proof.
  intros Hw after Hc. pose proof (tree_run_nogap evt rl t Hw after Hc) as H.
  rewrite (tree_run_loose evt rl t Hw) in H. exact (f_equal snd H).
Qed.
