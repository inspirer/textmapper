(* C04: resolve_prec is the documented comparison; what a cell becomes for shift against reduce and for two
   reductions; an unresolved cell keeps its action. *)
From Coq Require Import List ZArith Bool Lia.
From TM Require Import Gram.Cfg Gram.Prec.
Import ListNotations.
Local Open Scope Z_scope.

(* resolvePrec is the documented comparison *)
Theorem resolve_prec_undeclared g r t :
  rule_prec g r = 0 \/ t = 0 \/ prec_group g (rule_prec g r) = None \/ prec_group g t = None ->
  resolve_prec g r t = res_conflict.
Proof.
  unfold resolve_prec. intros [H|[H|[H|H]]].
  - rewrite H. reflexivity.
  - subst t. rewrite Z.eqb_refl, orb_true_r. reflexivity.
  - destruct ((rule_prec g r =? 0) || (t =? 0)); [reflexivity|]. rewrite H. reflexivity.
  - destruct ((rule_prec g r =? 0) || (t =? 0)); [reflexivity|]. rewrite H.
    destruct (prec_group g (rule_prec g r)) as [[? ?]|]; reflexivity.
Qed.

Theorem resolve_prec_declared g r t gr ar gs assoc :
  rule_prec g r <> 0 -> t <> 0 ->
  prec_group g (rule_prec g r) = Some (gr, ar) -> prec_group g t = Some (gs, assoc) ->
  resolve_prec g r t =
    if gr >? gs then do_reduce                 (* the rule binds tighter: reduce *)
    else if gr <? gs then do_shift             (* the lookahead binds tighter: shift *)
    else if assoc =? 0 then do_reduce          (* same level, %left *)
    else if assoc =? 1 then do_shift           (* %right *)
    else if assoc =? 2 then do_error           (* %nonassoc: the token is a syntax error *)
    else res_conflict.
Proof.
  intros Hr Ht Hgr Hgs. unfold resolve_prec.
  replace ((rule_prec g r =? 0) || (t =? 0)) with false by (symmetry; apply orb_false_iff; split; lia).
  rewrite Hgr, Hgs. reflexivity.
Qed.

Theorem rule_prec_explicit g r : r_prec (rule_at g r) <> 0 -> rule_prec g r = r_prec (rule_at g r).
Proof. intro H. unfold rule_prec. destruct (r_prec (rule_at g r) =? 0) eqn:E; [lia|reflexivity]. Qed.

Theorem rule_prec_last_terminal g r pre t post :
  r_prec (rule_at g r) = 0 -> r_rhs (rule_at g r) = pre ++ t :: post ->
  0 < t < g_terms g -> (forall s, In s post -> ~ (0 < s < g_terms g)) ->
  rule_prec g r = t.
Proof.
  intros Hp Hrhs Ht Hpost. unfold rule_prec. rewrite Hp, Hrhs. cbn [Z.eqb negb].
  rewrite rev_app_distr. cbn [rev]. rewrite <- app_assoc. cbn [app].
  assert (Hf : forall l, (forall s, In s l -> ~ (0 < s < g_terms g)) ->
               forall tl, find (fun s => (0 <? s) && (s <? g_terms g)) (l ++ tl) = find (fun s => (0 <? s) && (s <? g_terms g)) tl).
  { induction l as [|x l IH]; intros H tl; [reflexivity|]. cbn [app find].
    destruct ((0 <? x) && (x <? g_terms g)) eqn:E.
    - exfalso. apply (H x (or_introl eq_refl)). lia.
    - apply IH. intros s Hs. apply H. now right. }
  rewrite Hf by (intros s Hs; apply Hpost; now apply in_rev).
  cbn [find]. replace ((0 <? t) && (t <? g_terms g)) with true by (symmetry; apply andb_true_iff; lia). reflexivity.
Qed.

Theorem cell_shift_reduce g t r :
  merge_cell g true t [r] =
    let res := resolve_prec g r t in
    ((if res =? do_reduce then r else if res =? do_error then -3 else -1),
     Some (mkAmb true [r] res)).
Proof. reflexivity. Qed.

(* a choice precedence cannot decide is an unresolved shift/reduce conflict and the cell keeps the shift *)
Corollary undecided_defaults_to_shift g t r : resolve_prec g r t = res_conflict ->
  merge_cell g true t [r] = (-1, Some (mkAmb true [r] res_conflict)).
Proof. intro H. rewrite cell_shift_reduce. cbn zeta. rewrite H. reflexivity. Qed.

(* %nonassoc: the cell becomes a syntax error in the final tables *)
Corollary nonassoc_is_error g t r : resolve_prec g r t = do_error ->
  final_action (fst (merge_cell g true t [r])) = -2.
Proof. intro H. rewrite cell_shift_reduce. cbn zeta. rewrite H. reflexivity. Qed.

(* two reductions without a shift: an unresolved reduce/reduce conflict, the earlier rule stays *)
Theorem cell_reduce_reduce g t r1 r2 : 0 <= r1 ->
  merge_cell g false t [r1; r2] = (r1, Some (mkAmb false [r2; r1] res_conflict)).
Proof.
  intro H. unfold merge_cell. cbn [fold_left]. change (-2 =? -2) with true. cbn iota.
  destruct (r1 =? -2) eqn:E1; [lia|]. unfold rule_action. cbn [has_conflict orb].
  destruct (r1 =? -3) eqn:E3; [lia|]. destruct (r1 =? -1) eqn:E2; [lia|].
  reflexivity.
Qed.

Lemma conflict_is_sticky g action term rule amb : has_conflict amb = true ->
  fst (rule_action g action term rule amb) = action /\ has_conflict (snd (rule_action g action term rule amb)) = true.
Proof.
  intro H. unfold rule_action. rewrite H. cbn [orb fst snd]. split; [reflexivity|].
  destruct amb as [a|]; [|discriminate]. cbn in H. cbn. 
  destruct (negb (am_res a =? res_none) && negb (am_res a =? res_conflict)); reflexivity.
Qed.

Theorem conflict_freezes_cell g term rules : forall action amb, has_conflict amb = true -> action <> -2 ->
  fst (fold_left (fun '(action, amb) rule =>
         if action =? -2 then (rule, amb) else rule_action g action term rule amb) rules (action, amb)) = action.
Proof.
  induction rules as [|r rules IH]; intros action amb Hc Ha; cbn [fold_left]; [reflexivity|].
  destruct (action =? -2) eqn:E; [lia|].
  destruct (conflict_is_sticky g action term r amb Hc) as [H1 H2].
  destruct (rule_action g action term r amb) as [a' amb'] eqn:Er. cbn [fst snd] in *. subst a'.
  now apply IH.
Qed.
