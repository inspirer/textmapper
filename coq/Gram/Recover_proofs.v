(* C19: transparency of error recovery on accepted inputs, termination of the recovery loop, and the reported
   error positions (tokens of the input, in non-decreasing order).
   Each function of Recover.v is unfolded once: rstep in rstep_cases, find_match, recover_loop and handle_error in
   their *_spec lemmas. *)
From Coq Require Import List ZArith Bool Lia.
From TM Require Import Lib.ListX Gram.PTables Gram.Run Gram.Events Gram.XStep_proofs Gram.Recover.
Import ListNotations.
Local Open Scope Z_scope.

Definition is_suffix {A} (a b : list A) : Prop := exists pre, b = pre ++ a.

Lemma is_suffix_refl {A} (a : list A) : is_suffix a a.
Proof. exists []. reflexivity. Qed.
Lemma is_suffix_trans {A} (a b c : list A) : is_suffix a b -> is_suffix b c -> is_suffix a c.
Proof. intros (p1 & ->) (p2 & ->). exists (p2 ++ p1). rewrite app_assoc. reflexivity. Qed.
Lemma is_suffix_tl {A} (a : list A) : is_suffix (tl a) a.
Proof. destruct a as [|x a]; [exists []; reflexivity|exists [x]; reflexivity]. Qed.
Lemma is_suffix_Forall {A} (P : A -> Prop) (a b : list A) : is_suffix a b -> Forall P b -> Forall P a.
Proof. intros (pre & ->) H. apply Forall_app in H. apply H. Qed.
Lemma is_suffix_length {A} (a b : list A) : is_suffix a b -> (length a <= length b)%nat.
Proof. intros (pre & ->). rewrite app_length. lia. Qed.

Definition result_config (r : rstep_result) : rconfig := match r with RContinue c | RStop _ c => c end.

Section R.
Variable p : rparams.
Variable eh : nat -> bool.

Notation m := (rp_m p).
Notation eoi := (rp_eoi_off p).
Notation xs := (xstep (rp_m p) (rp_evt p) (rp_fixws p) (rp_eoi_off p)).
Notation next input := (next_tok eoi input).
Notation rlen rule := (Z.to_nat (m_rule_len m rule)).

Notation goto_after := (goto_after m).
Notation after_shift := (after_shift eoi).

Lemma after_shift_suffix input : is_suffix (after_shift input) input.
Proof. unfold XStep_proofs.after_shift. destruct (_ =? 0); [apply is_suffix_refl|apply is_suffix_tl]. Qed.

(* One iteration of the recovering loop on (x, r, errs, l), indexed by the action of the cell, next to the
   iteration of the plain loop on x.  e is the entry pushed (only its symbol and state matter); in RV_nogoto the
   configuration handed to handle_error differs from the current one in its stack and state only. *)
Inductive rstep_view (x : xconfig) (r : Z) (errs : list (Z * Z)) (l : Z * Z) : act -> rstep_result -> xstep_result -> Prop :=
| RV_shift q e : x_sym e = t_sym (next (xc_input x)) -> x_state e = q ->
    rstep_view x r errs l (Shift q)
      (RContinue (mkRC (shifted eoi x q e) (if r >? 0 then r - 1 else r) errs l)) (XContinue (shifted eoi x q e))
| RV_reduce rule e evs : (rlen rule < length (xc_stack x))%nat -> goto_after (xc_stack x) rule <> -1 ->
    x_sym e = m_rule_sym m rule -> x_state e = goto_after (xc_stack x) rule ->
    rstep_view x r errs l (Reduce rule)
      (RContinue (mkRC (reduced m x rule e evs) r errs l)) (XContinue (reduced m x rule e evs))
| RV_crash rule : (length (xc_stack x) <= rlen rule)%nat ->
    rstep_view x r errs l (Reduce rule) (RStop (RCrash 1) (mkRC x r errs l)) (XStop (Crash 1))
| RV_nogoto rule e evs c0 o : (rlen rule < length (xc_stack x))%nat -> goto_after (xc_stack x) rule = -1 -> x_state e = -1 ->
    xc_input (rc_x c0) = xc_input x -> rc_errors c0 = errs -> o <> Accept ->
    rstep_view x r errs l (Reduce rule) (handle_error p eh c0 (e :: skipn (rlen rule) (xc_stack x)) (xc_events x ++ evs)) (XStop o)
| RV_error a o : (forall q, a <> Shift q) -> (forall rule, a <> Reduce rule) -> o <> Accept ->
    rstep_view x r errs l a (handle_error p eh (mkRC x r errs l) (xc_stack x) (xc_events x)) (XStop o).

Lemma rstep_cases x r errs l :
  rstep_view x r errs l (m_act m (xc_state x) (t_sym (next (xc_input x))) (map t_sym (tl (xc_input x))))
             (rstep p eh (mkRC x r errs l)) (xs x).
Proof.
  unfold rstep, xstep. cbn [rc_x rc_recovering rc_errors rc_last].
  destruct (m_act m _ _ _) as [q|rule| |row].
  - apply RV_shift; reflexivity.
  - destruct (Nat.leb_spec (length (xc_stack x)) (rlen rule)) as [Hl|Hl]; [apply RV_crash; exact Hl|].
    destruct (lhs_range _ _) as [off endoff]. destruct (apply_rule _ _ _ _ _) as [evs endoff'].
    fold (goto_after (xc_stack x) rule).
    destruct (Z.eqb_spec (goto_after (xc_stack x) rule) (-1)) as [E|E].
    + apply RV_nogoto; try reflexivity; try assumption. discriminate.
    + apply RV_reduce; try reflexivity; assumption.
  - apply RV_error; discriminate.
  - apply RV_error; discriminate.
Qed.

(* On every input the plain loop accepts, the recovering loop accepts too, with the same stack, the same events
   and without calling the error handler. *)
Theorem recovery_transparent f : forall x x' l,
  xrun_loop f (rp_m p) (rp_evt p) (rp_fixws p) (rp_eoi_off p) (rp_end p) x = (Accept, x') ->
  exists c', rrun_loop f p eh (mkRC x 0 [] l) = (RAccept, c') /\ rc_x c' = x' /\ rc_errors c' = [].
Proof.
  induction f as [|f IH]; intros x x' l; simpl; [discriminate|].
  destruct (xc_state x =? rp_end p).
  - intros E. injection E as <-. eexists. split; [reflexivity|]. split; reflexivity.
  - destruct (rstep_cases x 0 [] l); try apply IH; intros E; injection E as E _; congruence.
Qed.

Lemma skip_broken_suffix syms input e : is_suffix (snd (skip_broken syms input e)) input.
Proof.
  revert e. induction input as [|t rest IH]; intros e; simpl; [apply is_suffix_refl|].
  destruct ((t_sym t =? 0) || can_recover syms (t_sym t)); [apply is_suffix_refl|].
  destruct (IH (t_end t)) as (pre & E). exists (t :: pre). simpl. f_equal. exact E.
Qed.

Lemma skip_broken_head syms input e : match snd (skip_broken syms input e) with
  | t :: _ => (t_sym t =? 0) || can_recover syms (t_sym t) = true
  | [] => True end.
Proof.
  revert e. induction input as [|t rest IH]; intros e; simpl; [exact I|].
  destruct ((t_sym t =? 0) || can_recover syms (t_sym t)) eqn:E; [simpl; exact E|apply IH].
Qed.

Lemma rm_sym_length s l : can_recover l s = true -> (length (rm_sym s l) < length l)%nat.
Proof.
  unfold can_recover, rm_sym. induction l as [|x l IH]; simpl; [discriminate|].
  destruct (s =? x) eqn:E.
  - intros _. apply Z.eqb_eq in E. subst. rewrite Z.eqb_refl. simpl.
    pose proof (filter_length_le (fun x0 => negb (x0 =? x)) l). lia.
  - simpl. intros H. specialize (IH H). rewrite Z.eqb_sym in E. rewrite E. simpl. lia.
Qed.

Definition err_goto (st : list xentry) : Z := m_goto m (x_state (hd xdummy st)) (rp_err_sym p).

Lemma positions_suffix stack : forall st, In st (recover_positions p stack) ->
  exists k, (k < length stack)%nat /\ st = skipn k stack /\ err_goto st <> -1.
Proof.
  induction stack as [|e rest IH]; intros st Hin; [destruct Hin|].
  cbn [recover_positions] in Hin. apply in_app_or in Hin. destruct Hin as [Hin|Hin].
  - destruct (m_goto m (x_state e) (rp_err_sym p) =? -1) eqn:E; [destruct Hin|].
    destruct Hin as [<-|[]]. exists O. split; [simpl; lia|]. split; [reflexivity|]. apply Z.eqb_neq. exact E.
  - destruct (IH _ Hin) as (k & Hk & -> & Hg). exists (S k). split; [simpl; lia|]. split; [reflexivity|exact Hg].
Qed.

Notation probe n st a := (reduce_all n p st [err_goto st] (err_goto st) a).

Lemma find_match_spec positions a n :
  match find_match p positions a n with
  | Some (Some st) => In st positions /\ exists s', probe n st a = Some (s', true)
  | Some None => True
  | None => exists st, In st positions /\ probe n st a = None
  end.
Proof.
  induction positions as [|st more IH]; cbn [find_match]; [exact I|]. fold (err_goto st).
  destruct (probe n st a) as [[s' []]|] eqn:E.
  - split; [left; reflexivity|]. exists s'. exact E.
  - destruct (find_match p more a n) as [[st1|]|]; [|exact I|].
    + destruct IH as [Hin Hra]. split; [right; exact Hin|exact Hra].
    + destruct IH as (st1 & Hin & Hra). exists st1. split; [right; exact Hin|exact Hra].
  - exists st. split; [left; reflexivity|exact E].
Qed.

(* RecFuel only when the fuel does not exceed the number of recovery symbols left: every further round removes one.
   The budget S (length stack) * 4 + 64 must stay folded (a unary numeral otherwise): no simpl on goals that mention it. *)
Lemma recover_loop_spec fuel : forall stack positions syms input s e,
  match recover_loop fuel p stack positions syms input s e with
  | RecOk stk inp' => is_suffix inp' input /\
      exists st e0 s', In st positions /\ stk = e0 :: st /\ x_sym e0 = rp_err_sym p /\ x_state e0 = err_goto st /\
        probe (S (length stack) * 4 + 64)%nat st (t_sym (next inp')) = Some (s', true)
  | RecFail inp' => is_suffix inp' input
  | RecCrash => exists st inp', In st positions /\ is_suffix inp' input /\
      probe (S (length stack) * 4 + 64)%nat st (t_sym (next inp')) = None
  | RecFuel => (fuel <= length syms)%nat
  end.
Proof.
  induction fuel as [|f IH]; intros stack positions syms input s e; [cbn [recover_loop]; lia|]. cbn [recover_loop].
  pose proof (skip_broken_suffix syms input 0) as Hsuf. pose proof (skip_broken_head syms input 0) as Hhead.
  destruct (skip_broken syms input 0) as [e1 input1]. cbn [snd] in Hsuf, Hhead.
  pose proof (find_match_spec positions (t_sym (next input1)) (S (length stack) * 4 + 64)) as Hfm.
  destruct (find_match p positions _ _) as [[st|]|].
  - destruct Hfm as (Hin & s' & Hra).
    destruct (match (_ - _)%nat with O => _ | S _ => _ end) as [s2 e2].
    split; [exact Hsuf|]. eexists st, _, s'. split; [exact Hin|]. split; [reflexivity|]. split; [reflexivity|]. split; [reflexivity|exact Hra].
  - destruct (t_sym (next input1) =? 0) eqn:E0; [exact Hsuf|].
    specialize (IH stack positions (rm_sym (t_sym (next input1)) syms) input1 s (if e1 >? e then e1 else e)).
    destruct (recover_loop f p stack positions _ input1 s _) as [stk inp'|inp'| |].
    + destruct IH as [H1 H2]. split; [eapply is_suffix_trans; eauto|exact H2].
    + eapply is_suffix_trans; eauto.
    + destruct IH as (st & inp' & H1 & H2 & H3). exists st, inp'. split; [exact H1|]. split; [eapply is_suffix_trans; eauto|exact H3].
    + destruct input1 as [|t rest]; [discriminate|]. cbn [next_tok] in *. rewrite E0 in Hhead.
      pose proof (rm_sym_length _ _ Hhead). lia.
  - destruct Hfm as (st & Hin & Hra). exists st, input1. split; [exact Hin|]. split; [exact Hsuf|exact Hra].
Qed.

Theorem recover_terminates stack input : recover_from_error p stack input <> RecFuel.
Proof.
  unfold recover_from_error. destruct (recover_positions p stack) as [|pos0 positions]; [discriminate|].
  pose proof (recover_loop_spec (S (length input) + S (length (rp_after_err p))) stack (pos0 :: positions) (rp_after_err p) input
                (t_off (next input)) (t_off (next input))) as H.
  intros E. rewrite E in H. lia.
Qed.

Definition next_range (input : list tok) : Z * Z := (t_off (next input), t_end (next input)).

Definition err_added (errs : list (Z * Z)) (input : list tok) (errs' : list (Z * Z)) : Prop :=
  errs' = errs \/ errs' = errs ++ [next_range input].

(* RCrash 3 is excluded by recover_terminates; RCrash 2 means that reduceAll failed on some position. *)
Lemma handle_error_spec c0 stack events :
  let input := xc_input (rc_x c0) in
  let c1 := result_config (handle_error p eh c0 stack events) in
  is_suffix (xc_input (rc_x c1)) input /\ err_added (rc_errors c0) input (rc_errors c1) /\
  match handle_error p eh c0 stack events with
  | RContinue _ =>
      exists st e0 s', In st (recover_positions p stack) /\ xc_stack (rc_x c1) = e0 :: st /\
        x_sym e0 = rp_err_sym p /\ x_state e0 = err_goto st /\ xc_state (rc_x c1) = err_goto st /\
        probe (S (length stack) * 4 + 64)%nat st (t_sym (next (xc_input (rc_x c1)))) = Some (s', true)
  | RStop (RSyntax _ _) _ => True
  | RStop (RCrash why) _ => why = 2 /\
      exists st inp', In st (recover_positions p stack) /\ is_suffix inp' input /\
        probe (S (length stack) * 4 + 64)%nat st (t_sym (next inp')) = None
  | RStop _ _ => False
  end.
Proof.
  cbv zeta. unfold handle_error.
  set (input := xc_input (rc_x c0)). set (last := if _ =? 0 then (_, _) else _). set (errors := if _ =? 0 then _ ++ _ else _).
  assert (Herr : err_added (rc_errors c0) input errors).
  { subst errors last. unfold err_added, next_range. destruct (_ =? 0); auto. }
  clearbody errors last.
  destruct (_ && negb _); [split; [apply is_suffix_refl|split; [exact Herr|exact I]]|].
  pose proof (recover_terminates stack input) as Hfuel. unfold recover_from_error in *.
  destruct (recover_positions p stack) as [|pos0 positions]; [split; [apply is_suffix_refl|split; [exact Herr|exact I]]|].
  pose proof (recover_loop_spec (S (length input) + S (length (rp_after_err p))) stack (pos0 :: positions) (rp_after_err p) input
                (t_off (next input)) (t_off (next input))) as H.
  destruct (recover_loop _ p stack _ _ input _ _) as [stk inp'|inp'| |]; cbn [result_config rc_x rc_errors xc_input xc_stack xc_state].
  - destruct H as (Hsuf & st & e0 & s' & Hin & -> & Hsym & Hst & Hra).
    split; [exact Hsuf|]. split; [exact Herr|]. exists st, e0, s'. cbn [hd]. auto 8.
  - split; [exact H|]. split; [exact Herr|exact I].
  - split; [apply is_suffix_refl|]. split; [exact Herr|]. split; [reflexivity|exact H].
  - congruence.
Qed.

Lemma rstep_input c : let c' := result_config (rstep p eh c) in
  is_suffix (xc_input (rc_x c')) (xc_input (rc_x c)) /\ err_added (rc_errors c) (xc_input (rc_x c)) (rc_errors c').
Proof.
  destruct c as [x r errs l]. cbn [rc_x rc_errors].
  destruct (rstep_cases x r errs l) as [q e _ _|rule e evs _ _ _ _|rule _|rule e evs c0 o _ _ _ Hin He _|a o _ _ _].
  1-3: split; [|left; reflexivity]; cbn [result_config rc_x shifted reduced xc_input]; auto using after_shift_suffix, is_suffix_refl.
  - destruct (handle_error_spec c0 (e :: skipn (rlen rule) (xc_stack x)) (xc_events x ++ evs)) as (H1 & H2 & _).
    rewrite Hin in H1, H2. rewrite He in H2. exact (conj H1 H2).
  - destruct (handle_error_spec (mkRC x r errs l) (xc_stack x) (xc_events x)) as (H1 & H2 & _). exact (conj H1 H2).
Qed.

Fixpoint sorted_offs (l : list tok) : Prop :=
  match l with
  | [] => True
  | t :: rest => t_off t <= t_off (next_tok (rp_eoi_off p) rest) /\ sorted_offs rest
  end.

Lemma sorted_suffix pre l : sorted_offs (pre ++ l) ->
  sorted_offs l /\ t_off (next_tok (rp_eoi_off p) (pre ++ l)) <= t_off (next_tok (rp_eoi_off p) l).
Proof.
  induction pre as [|t pre IH]; simpl; intros H; [split; [exact H|lia]|].
  destruct H as [H1 H2]. destruct (IH H2) as [H3 H4]. split; [exact H3|]. lia.
Qed.

Fixpoint nondecreasing (l : list Z) : Prop :=
  match l with
  | a :: (b :: _) as rest => a <= b /\ nondecreasing rest
  | _ => True
  end.

Lemma nondecreasing_snoc l x : nondecreasing l -> (forall y, In y l -> y <= x) -> nondecreasing (l ++ [x]).
Proof.
  induction l as [|a l IH]; intros Hn Hle; [exact I|].
  destruct l as [|b l']; simpl; [split; [apply Hle; left; reflexivity|exact I]|].
  simpl in Hn. destruct Hn as [H1 H2]. split; [exact H1|].
  apply IH; [exact H2|]. intros y Hy. apply Hle. right. exact Hy.
Qed.

Definition in_tokens (input0 : list tok) (r : Z * Z) : Prop :=
  r = (rp_eoi_off p, rp_eoi_off p) \/ exists t, In t input0 /\ r = (t_off t, t_end t).

Definition einv (input0 : list tok) (c : rconfig) : Prop :=
  is_suffix (xc_input (rc_x c)) input0 /\
  Forall (in_tokens input0) (rc_errors c) /\
  nondecreasing (map fst (rc_errors c)) /\
  (forall e, In e (rc_errors c) -> fst e <= t_off (next_tok (rp_eoi_off p) (xc_input (rc_x c)))).

Lemma next_range_in_tokens input0 inp : is_suffix inp input0 -> in_tokens input0 (next_range inp).
Proof.
  intros (pre & ->). unfold next_range. destruct inp as [|t rest]; simpl; [left; reflexivity|].
  right. exists t. split; [apply in_or_app; right; left; reflexivity|reflexivity].
Qed.

Lemma rstep_einv input0 c : sorted_offs input0 -> einv input0 c -> einv input0 (result_config (rstep p eh c)).
Proof.
  intros Hsorted (Hsuf & Hin & Hnd & Hle). destruct (rstep_input c) as [Hs Herr].
  set (c' := result_config (rstep p eh c)) in *.
  assert (Hmono : t_off (next (xc_input (rc_x c))) <= t_off (next (xc_input (rc_x c')))).
  { destruct Hs as (pre & E). destruct Hsuf as (pre0 & E0). rewrite E0, E in Hsorted.
    apply sorted_suffix in Hsorted. destruct Hsorted as [Hs1 _]. apply sorted_suffix in Hs1. destruct Hs1 as [_ H]. rewrite E. exact H. }
  split; [eapply is_suffix_trans; eauto|].
  destruct Herr as [E|E]; rewrite E.
  - split; [exact Hin|]. split; [exact Hnd|]. intros e He. specialize (Hle e He). lia.
  - split; [apply Forall_app; split; [exact Hin|constructor; [apply next_range_in_tokens; exact Hsuf|constructor]]|].
    split.
    + rewrite map_app. simpl. apply nondecreasing_snoc; [exact Hnd|].
      intros y Hy. apply in_map_iff in Hy. destruct Hy as (e & <- & He). apply Hle. exact He.
    + intros e He. apply in_app_or in He. destruct He as [He|[<-|[]]]; [specialize (Hle e He); lia|exact Hmono].
Qed.

Lemma rrun_loop_ind (I : rconfig -> Prop) (Q : routcome -> rconfig -> Prop) :
  (forall c, I c -> Q RFuel c) -> (forall c, I c -> Q RAccept c) ->
  (forall c, I c -> match rstep p eh c with RContinue c1 => I c1 | RStop o c1 => Q o c1 end) ->
  forall f c o c', I c -> rrun_loop f p eh c = (o, c') -> Q o c'.
Proof.
  intros Hfuel Hacc Hstep. induction f as [|f IH]; intros c o c' Hc; simpl.
  - intros E. injection E as <- <-. apply Hfuel, Hc.
  - destruct (_ =? rp_end p); [intros E; injection E as <- <-; apply Hacc, Hc|].
    specialize (Hstep c Hc). destruct (rstep p eh c) as [c1|o1 c1].
    + apply IH, Hstep.
    + intros E. injection E as <- <-. exact Hstep.
Qed.

(* For every input whose token offsets are non-decreasing, every error handler and every fuel: the errors
   reported to the handler are ranges of tokens of the input (or of the end-of-input token), in non-decreasing
   order of offset. *)
Theorem errors_in_input_and_ordered f input0 c o c' : sorted_offs input0 -> einv input0 c ->
  rrun_loop f p eh c = (o, c') -> einv input0 c'.
Proof.
  intros Hs. apply (rrun_loop_ind (einv input0) (fun _ => einv input0)); auto.
  intros c1 H1. pose proof (rstep_einv input0 c1 Hs H1) as H. destruct (rstep p eh c1); exact H.
Qed.

Lemma einv_init start input0 : einv input0 (mkRC (mkXC [mkX 0 0 0 start (TLeaf 0 0 0)] start input0 []) 0 [] (0, 0)).
Proof. split; [apply is_suffix_refl|]. split; [constructor|]. split; [exact I|]. intros e []. Qed.

End R.
