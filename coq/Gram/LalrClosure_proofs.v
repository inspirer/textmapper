(* C03: item sets, closure (sound, and closed within its S(N) rounds: a round that is not the last one covers a
   further nonterminal), transitions and paths of an LR(0) automaton, and the local conditions from which
   aut_complete follows (complete_of_local). *)
From Coq Require Import List ZArith Bool Lia.
From TM Require Import Lib.ListX Gram.Cfg Gram.Cfg_proofs Gram.LalrRef Gram.LalrSpec Gram.LalrSpec_proofs Gram.LalrCert.
Import ListNotations.
Local Open Scope Z_scope.

Lemma fold_left_In {A B} (f : list B -> A -> list B) (G : A -> B -> Prop) :
  (forall acc x y, In y (f acc x) <-> In y acc \/ G x y) ->
  forall l acc y, In y (fold_left f l acc) <-> In y acc \/ exists x, In x l /\ G x y.
Proof.
  intros Hf. induction l as [|x l IH]; intros acc y; simpl; [split; [auto|intros [H|(x & [] & _)]; exact H]|].
  rewrite IH, Hf. split.
  - intros [[H|H]|(x' & Hin & H)]; eauto.
  - intros [H|(x' & [<-|Hin] & H)]; eauto.
Qed.

Lemma filter_length_mono {A} (p q : A -> bool) l :
  (forall x, In x l -> p x = true -> q x = true) -> (length (filter p l) <= length (filter q l))%nat.
Proof.
  induction l as [|y l IH]; intros H; simpl; [lia|]. specialize (IH (fun x Hx => H x (or_intror Hx))).
  pose proof (H y (or_introl eq_refl)) as Hy. destruct (p y), (q y); simpl; try lia; discriminate (Hy eq_refl).
Qed.

Lemma filter_length_lt {A} (p q : A -> bool) l :
  (forall x, In x l -> p x = true -> q x = true) -> (exists x, In x l /\ q x = true /\ p x = false) ->
  (length (filter p l) < length (filter q l))%nat.
Proof.
  induction l as [|y l IH]; intros H (x & Hx & Hq & Hp); [destruct Hx|]. simpl.
  pose proof (filter_length_mono p q l (fun x Hx => H x (or_intror Hx))) as Hle. destruct Hx as [->|Hx].
  - rewrite Hq, Hp. simpl. lia.
  - specialize (IH (fun x Hx => H x (or_intror Hx)) (ex_intro _ x (conj Hx (conj Hq Hp)))).
    pose proof (H y (or_introl eq_refl)) as Hy. destruct (p y), (q y); simpl; try lia; discriminate (Hy eq_refl).
Qed.

Lemma item_eqb_eq a b : item_eqb a b = true <-> a = b.
Proof.
  destruct a as [a1 a2], b as [b1 b2]; unfold item_eqb; simpl. rewrite andb_true_iff, !Z.eqb_eq.
  split; [intros [-> ->]; auto|intros [= -> ->]; auto].
Qed.

Lemma ins_item_In x y l : In y (ins_item x l) <-> y = x \/ In y l.
Proof.
  induction l as [|z t IH]; simpl; [split; intros [H|[]]; auto|].
  destruct (item_ltb x z); [simpl; split; intros [H|H]; auto|]. destruct (item_eqb x z) eqn:E; simpl.
  - apply item_eqb_eq in E. subst z. split; [auto|intros [->|H]; auto].
  - rewrite IH. split; intros [H|[H|H]]; auto.
Qed.

Lemma mem_item_In x l : mem_item x l = true <-> In x l.
Proof.
  unfold mem_item. rewrite existsb_exists. split.
  - intros (y & Hy & E). apply item_eqb_eq in E. subst; auto.
  - intros H; exists x; split; auto. apply item_eqb_eq. reflexivity.
Qed.

Section Closure.
Variable g : grammar.

Lemma rules_of_lhs nt r : In r (rules_of g nt) -> exists rl, In rl (g_rules g) /\ r_lhs rl = nt.
Proof.
  unfold rules_of. rewrite in_flat_map. intros ([i rl] & Hin & Hr).
  destruct (Z.eqb_spec (r_lhs rl) nt) as [E|E]; [|destruct Hr].
  exists rl. split; auto. eapply in_combine_r; eauto.
Qed.

Lemma add_rules_In (s : Z) acc y :
  In y (fold_left (fun acc r => ins_item (r, 0) acc) (rules_of g s) acc) <->
  In y acc \/ exists r, In r (rules_of g s) /\ y = (r, 0).
Proof. apply (fold_left_In _ (fun r y => y = (r, 0))). intros a r z. rewrite ins_item_In. split; intros [H|H]; auto. Qed.

(* y is an item [B -> . delta] for the nonterminal B after the dot of it *)
Definition spawns (it y : item) : Prop :=
  exists s r, sym_after g it = Some s /\ is_term g s = false /\ In r (rules_of g s) /\ y = (r, 0).

Definition addf (acc : list item) (it : item) : list item :=
  match sym_after g it with
  | Some s => if is_term g s then acc else fold_left (fun acc r => ins_item (r, 0) acc) (rules_of g s) acc
  | None => acc
  end.

Lemma addf_In acc it y : In y (addf acc it) <-> In y acc \/ spawns it y.
Proof.
  unfold addf, spawns. destruct (sym_after g it) as [s|]; [destruct (is_term g s) eqn:Et; [|rewrite add_rules_In]|]; split; auto.
  - intros [H|(s' & r & [= <-] & E & _)]; [exact H|congruence].
  - intros [H|(r & Hr & ->)]; eauto 7.
  - intros [H|(s' & r & [= <-] & _ & Hr & ->)]; eauto.
  - intros [H|(s' & r & [=] & _)]; exact H.
Qed.

Lemma closure_step_In its y : In y (closure_step g its) <-> In y its \/ exists it, In it its /\ spawns it y.
Proof. exact (fold_left_In addf spawns addf_In its its y). Qed.

Lemma closure_step_incl its : incl its (closure_step g its).
Proof. intros y Hy. apply closure_step_In. auto. Qed.

Lemma closure_sound (P : item -> Prop) kernel seed :
  (forall it, In it kernel -> P it) ->
  (forall nt r, seed = Some nt -> In r (rules_of g nt) -> P (r, 0)) ->
  (forall it s r, P it -> sym_after g it = Some s -> is_term g s = false -> In r (rules_of g s) -> P (r, 0)) ->
  forall it, In it (closure g kernel seed) -> P it.
Proof.
  intros Hk Hs Hc. unfold closure. apply (iterate_inv (fun l => forall it, In it l -> P it)).
  - destruct seed as [nt|]; auto. intros it Hit. apply add_rules_In in Hit.
    destruct Hit as [Hit|(r & Hr & ->)]; eauto.
  - intros its Hits y Hy. apply closure_step_In in Hy. destruct Hy as [Hy|(it & Hin & s & r & Es & Et & Hr & ->)]; eauto.
Qed.

Lemma closure_incl_kernel kernel seed : incl kernel (closure g kernel seed).
Proof.
  unfold closure. apply (iterate_inv (fun l => incl kernel l)).
  - destruct seed; [|apply incl_refl]. intros y Hy. apply add_rules_In. auto.
  - intros its H. eapply incl_tran; [exact H|apply closure_step_incl].
Qed.

Lemma closure_incl_seed kernel nt r : In r (rules_of g nt) -> In (r, 0) (closure g kernel (Some nt)).
Proof.
  intros Hr. unfold closure. apply (iterate_inv (fun l => In (r, 0) l)).
  - apply add_rules_In. right. eauto.
  - intros its H. apply closure_step_incl. exact H.
Qed.

Lemma closure_valid i gamma kernel seed :
  (forall it, In it kernel -> lr0_valid g i gamma it) ->
  (forall nt r, seed = Some nt -> In r (rules_of g nt) -> lr0_valid g i gamma (r, 0)) ->
  forall it, In it (closure g kernel seed) -> lr0_valid g i gamma it.
Proof. intros Hk Hs. apply closure_sound; auto. intros it s r Hv Es Et Hr. eapply l0_closure; eauto. Qed.

Lemma closure_valid_start i nt e : 0 <= i -> nth_error (g_inputs g) (Z.to_nat i) = Some (nt, e) ->
  forall it, In it (closure g [] (Some nt)) -> lr0_valid g i [] it.
Proof. intros Hi Hinp. apply closure_valid; [intros it []|]. intros nt' r [= <-] Hr. eapply l0_start; eauto. Qed.

Lemma lr0_kernel_valid i gamma it : lr0_kernel g i gamma it -> lr0_valid g i gamma it.
Proof. intros (gamma' & X & it' & -> & Hv & Es & ->). apply l0_goto; auto. Qed.

Lemma closure_valid_kernel i gamma kernel : (forall it, In it kernel -> lr0_kernel g i gamma it) ->
  forall it, In it (closure g kernel None) -> lr0_valid g i gamma it.
Proof. intros Hk. apply closure_valid; [|discriminate]. intros it Hit. apply lr0_kernel_valid, Hk, Hit. Qed.

Definition goto_kernel (cl : list item) (sym : Z) : list item :=
  fold_left (fun acc it => match sym_after g it with
                           | Some s => if s =? sym then ins_item (fst it, snd it + 1) acc else acc
                           | None => acc end) cl [].

Lemma goto_kernel_In cl sym y : In y (goto_kernel cl sym) <->
  exists it, In it cl /\ sym_after g it = Some sym /\ y = (fst it, snd it + 1).
Proof.
  unfold goto_kernel. rewrite (fold_left_In _ (fun it y => sym_after g it = Some sym /\ y = (fst it, snd it + 1))).
  - split; [intros [[]|H]; exact H|auto].
  - intros acc it z. destruct (sym_after g it) as [s|]; [destruct (Z.eqb_spec s sym) as [->|]|].
    + rewrite ins_item_In. split; [intros [H|H]; auto|intros [H|[_ H]]; auto].
    + split; [auto|intros [H|[E _]]; [exact H|congruence]].
    + split; [auto|intros [H|[E _]]; [exact H|discriminate]].
Qed.

Definition closedP (its : list item) : Prop :=
  forall it s r, In it its -> sym_after g it = Some s -> is_term g s = false -> In r (rules_of g s) -> In (r, 0) its.

Lemma closed_step its : closedP its -> closedP (closure_step g its).
Proof.
  intros Hc.
  assert (Hsame : forall y, In y (closure_step g its) -> In y its).
  { intros y Hy. apply closure_step_In in Hy. destruct Hy as [Hy|(it & Hin & s & r & Es & Et & Hr & ->)]; eauto. }
  intros it s r Hin Es Et Hr. apply closure_step_incl. apply Hsame in Hin. eauto.
Qed.

(* all rules of nonterminal B are present as items with the dot at 0 *)
Definition covb (its : list item) (B : Z) : bool := forallb (fun r => mem_item (r, 0) its) (rules_of g B).

Lemma covb_mono its its' B : incl its its' -> covb its B = true -> covb its' B = true.
Proof.
  unfold covb. rewrite !forallb_forall. intros Hi H r Hr. apply mem_item_In. apply Hi. apply mem_item_In. auto.
Qed.
End Closure.

Section Clo.
Variable g : grammar.
Hypothesis Hrange : forall r, In r (g_rules g) -> g_terms g <= r_lhs r < g_terms g + g_nonterms g.

Lemma uncovered_nonterm its B : covb g its B = false -> In B (nonterms g).
Proof.
  unfold covb. intros H. destruct (rules_of g B) as [|r rs] eqn:E; [discriminate|].
  destruct (rules_of_lhs g B r) as (rl & Hrl & <-); [rewrite E; left; reflexivity|]. apply in_nonterms, Hrange, Hrl.
Qed.

Definition covered (its : list item) : list Z := filter (covb g its) (nonterms g).

Lemma iterate_closed n : forall its, (length (nonterms g) - length (covered its) < n)%nat ->
  closedP g (iterate n (closure_step g) its).
Proof.
  induction n as [|n IH]; intros its Hn; [lia|]. simpl.
  assert (Hmono : forall B, In B (nonterms g) -> covb g its B = true -> covb g (closure_step g its) B = true)
    by (intros B _; apply covb_mono, closure_step_incl).
  destruct (Nat.eq_dec (length (covered (closure_step g its))) (length (covered its))) as [E|E].
  - (* no nonterminal newly covered: its was closed *)
    apply iterate_inv; [apply closed_step|intros; apply closed_step; auto].
    intros it s r Hin Es Et Hr. destruct (covb g its s) eqn:Ec; [apply mem_item_In; revert r Hr; apply forallb_forall, Ec|].
    exfalso. enough (length (covered its) < length (covered (closure_step g its)))%nat by lia.
    apply filter_length_lt; [exact Hmono|]. exists s. split; [eapply uncovered_nonterm; eauto|]. split; [|exact Ec].
    apply forallb_forall. intros r' Hr'. apply mem_item_In, closure_step_In. right. exists it. split; [exact Hin|]. exists s, r'. auto.
  - apply IH. pose proof (filter_length_le (covb g (closure_step g its)) (nonterms g)).
    pose proof (filter_length_mono _ _ _ Hmono). unfold covered in *. lia.
Qed.

Theorem closure_closed kernel seed : closedP g (closure g kernel seed).
Proof. unfold closure. apply iterate_closed. rewrite nonterms_length. lia. Qed.

Corollary closure_closed_b kernel seed it s :
  In it (closure g kernel seed) -> sym_after g it = Some s ->
  is_term g s || forallb (fun r => mem_item (r, 0) (closure g kernel seed)) (rules_of g s) = true.
Proof.
  intros Hin Es. destruct (is_term g s) eqn:Et; [reflexivity|]. simpl. apply forallb_forall. intros r Hr.
  apply mem_item_In. eapply closure_closed; eauto.
Qed.
End Clo.

Lemma trans_target_In a q s j : trans_target a q s = Some j -> In (q, s, j) (a_trans a).
Proof.
  unfold trans_target. destruct (find _ (a_trans a)) as [[[f s'] t]|] eqn:E; [|discriminate].
  intros [= <-]. apply find_some in E. destruct E as [Hin Hp]. apply andb_true_iff in Hp. destruct Hp as [H1 H2].
  apply Z.eqb_eq in H1, H2. subst. exact Hin.
Qed.

Lemma trans_target_app sts sts1 sts2 tr l q s :
  trans_target (mkAut sts (tr ++ l)) q s =
  match trans_target (mkAut sts1 tr) q s with Some t => Some t | None => trans_target (mkAut sts2 l) q s end.
Proof. unfold trans_target. simpl. rewrite find_app. destruct (find _ tr) as [[[f s'] t']|]; reflexivity. Qed.

Lemma trans_target_app_l sts sts' tr l q s t :
  trans_target (mkAut sts tr) q s = Some t -> trans_target (mkAut sts' (tr ++ l)) q s = Some t.
Proof. intros H. rewrite (trans_target_app _ sts sts), H. reflexivity. Qed.

Lemma trans_target_new sts tr k sym j :
  (forall t, ~ In (k, sym, t) tr) -> trans_target (mkAut sts (tr ++ [(k, sym, j)])) k sym = Some j.
Proof.
  intros H. rewrite (trans_target_app _ sts sts). destruct (trans_target (mkAut sts tr) k sym) as [t|] eqn:E.
  - apply trans_target_In in E. destruct (H t E).
  - unfold trans_target. simpl. rewrite !Z.eqb_refl. reflexivity.
Qed.

Lemma reach_mono a a' i gamma q :
  (forall q s t, trans_target a q s = Some t -> trans_target a' q s = Some t) ->
  reach a i gamma q -> reach a' i gamma q.
Proof. intros H. induction 1; econstructor; eauto. Qed.

Lemma reach_nil_inv a i q : reach a i [] q -> q = i.
Proof.
  intros H. inversion H as [|gamma q0 X q' _ _ E]; auto. destruct gamma; discriminate.
Qed.

Lemma reach_snoc_inv a i gamma X q' : reach a i (gamma ++ [X]) q' ->
  exists q, reach a i gamma q /\ trans_target a q X = Some q'.
Proof.
  intros H. inversion H as [E|gamma0 q0 X0 q1 H1 H2 E].
  - destruct gamma; discriminate.
  - apply app_inj_tail in E. destruct E as [-> ->]. eauto.
Qed.

Lemma lr1_lr0 g i gamma it x : lr1_valid g i gamma it x -> lr0_valid g i gamma it.
Proof. induction 1; [eapply l0_start|eapply l0_closure|eapply l0_closure|apply l0_goto]; eauto. Qed.

Definition st_at (a : automaton) (q : Z) (st : lstate) : Prop :=
  0 <= q /\ nth_error (a_states a) (Z.to_nat q) = Some st.

Lemma st_at_lt a q st : st_at a q st -> 0 <= q < Z.of_nat (length (a_states a)).
Proof. intros [H1 H2]. assert ((Z.to_nat q < length (a_states a))%nat) by (apply nth_error_Some; congruence). lia. Qed.

Lemma st_at_fun a q st st' : st_at a q st -> st_at a q st' -> st = st'.
Proof. intros [_ H1] [_ H2]. congruence. Qed.

Lemma st_at_ex a q : 0 <= q < Z.of_nat (length (a_states a)) -> exists st, st_at a q st.
Proof.
  intros H. destruct (nth_error (a_states a) (Z.to_nat q)) as [st|] eqn:E; [exists st; split; [lia|auto]|].
  apply nth_error_None in E. lia.
Qed.

Lemma st_at_app sts ext tr tr' q st : st_at (mkAut sts tr) q st -> st_at (mkAut (sts ++ ext) tr') q st.
Proof.
  intros H. pose proof (st_at_lt _ _ _ H). destruct H as [Hq H]. split; [exact Hq|].
  simpl in *. rewrite nth_error_app1 by lia. exact H.
Qed.

Lemma st_at_app_inv sts ext tr tr' q st :
  st_at (mkAut (sts ++ ext) tr') q st -> q < Z.of_nat (length sts) -> st_at (mkAut sts tr) q st.
Proof. intros [Hq H] Hlt. split; [exact Hq|]. simpl in *. rewrite nth_error_app1 in H by lia. exact H. Qed.

Lemma st_at_snoc sts x tr tr' q st :
  st_at (mkAut (sts ++ [x]) tr') q st <-> st_at (mkAut sts tr) q st \/ (q = Z.of_nat (length sts) /\ st = x).
Proof.
  split.
  - intros H. pose proof (st_at_lt _ _ _ H) as Hlt. simpl in Hlt. rewrite app_length in Hlt. simpl in Hlt.
    destruct (Z.eq_dec q (Z.of_nat (length sts))) as [->|Hne]; [right|left; eapply st_at_app_inv; [exact H|lia]].
    destruct H as [_ H]. simpl in H. rewrite Nat2Z.id, nth_error_app2, Nat.sub_diag in H by lia. simpl in H. split; congruence.
  - intros [H|[-> ->]]; [eapply st_at_app, H|]. split; [lia|]. simpl.
    rewrite Nat2Z.id, nth_error_app2, Nat.sub_diag by lia. reflexivity.
Qed.

Record lr0_ok (g : grammar) (a : automaton) : Prop := {
  ok_seeds : seeds_ok g a;
  ok_sound : aut_sound g a;
  ok_starts : starts_present g a;
  ok_complete : aut_complete g a;
  ok_total : aut_total g a
}.

Lemma lr0_ok_conj g a : lr0_ok g a ->
  seeds_ok g a /\ aut_sound g a /\ starts_present g a /\ aut_complete g a /\ aut_total g a.
Proof. intros [H1 H2 H3 H4 H5]. auto. Qed.

Lemma complete_of_local g a : starts_present g a ->
  (forall q st, st_at a q st -> closedP g (st_items g st)) ->
  (forall q st it s q', st_at a q st -> In it (st_items g st) -> sym_after g it = Some s ->
     trans_target a q s = Some q' -> exists st', st_at a q' st' /\ In (fst it, snd it + 1) (st_items g st')) ->
  aut_complete g a.
Proof.
  intros Hstarts Hclosed Hgoto i gamma q it Hreach Hv. revert q Hreach.
  induction Hv as [nt eoi r Hi Hinp Hr|gamma it B r Hv IH Es Et Hr|gamma it X Hv IH Es]; intros q Hreach.
  - apply reach_nil_inv in Hreach. subst q. split; auto.
    destruct (Hstarts i nt eoi Hi Hinp) as (st & Hst & Hseed & Hk).
    exists st. split; auto. rewrite Hseed. apply closure_incl_seed. exact Hr.
  - destruct (IH q Hreach) as (Hq & st & Hst & Hit). split; auto. exists st. split; auto.
    eapply (Hclosed q st (conj Hq Hst)); eauto.
  - apply reach_snoc_inv in Hreach. destruct Hreach as (q0 & Hreach & Htr).
    destruct (IH q0 Hreach) as (Hq & st & Hst & Hit).
    destruct (Hgoto q0 st it X q (conj Hq Hst) Hit Es Htr) as (st' & [Hq' Hst'] & Hit'). eauto.
Qed.

Lemma reach_of_complete_total g a i gamma it : aut_complete g a -> aut_total g a ->
  lr0_valid g i gamma it -> exists q, reach a i gamma q.
Proof.
  intros Hc Ht. induction 1 as [nt eoi r Hi Hinp Hr|gamma it B r Hv IH Es Et Hr|gamma it X Hv IH Es].
  - exists i. constructor.
  - exact IH.
  - destruct IH as [q Hq]. destruct (Hc i gamma q it Hq Hv) as (Hq0 & st & Hst & Hit).
    destruct (Ht q st it X Hq0 Hst Hit Es) as [q' Hq']. exists q'. econstructor; eauto.
Qed.
