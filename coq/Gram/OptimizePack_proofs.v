(* C05, the allocator: the invariant of [place] and the decoding theorem for [pack]: every line can be read back through
   (table, check) at its index, and a position that is not in the line is never answered from the table. *)
From Coq Require Import List ZArith Bool Lia.
From TM Require Import Lib.ListX Gram.PTables Gram.Optimize Gram.ZTab_proofs.
Import ListNotations.
Local Open Scope Z_scope.

(* a line as [pairs_of] produces it: non-empty, positions >= 0 and strictly increasing *)
Fixpoint inc_from (lo : Z) (ps : list pair) : Prop :=
  match ps with [] => True | p :: r => lo <= fst p /\ inc_from (fst p + 1) r end.

Definition wf_line (ps : list pair) : Prop := ps <> [] /\ inc_from 0 ps.

Lemma inc_from_weaken lo lo' ps : lo' <= lo -> inc_from lo ps -> inc_from lo' ps.
Proof. destruct ps; cbn; [tauto|]. intros H [H1 H2]. split; [lia|exact H2]. Qed.

Lemma inc_from_In lo ps p : inc_from lo ps -> In p ps -> lo <= fst p.
Proof.
  revert lo. induction ps as [|q r IH]; intros lo H Hin; [contradiction|].
  destruct H as [H1 H2]. destruct Hin as [->|Hin]; [exact H1|].
  specialize (IH _ H2 Hin). lia.
Qed.

Lemma inc_from_keys lo ps : inc_from lo ps -> NoDup (map fst ps).
Proof.
  revert lo. induction ps as [|x r IH]; intros lo H; [constructor|].
  destruct H as [H1 H2]. constructor; [|exact (IH _ H2)].
  intro Hin. apply in_map_iff in Hin. destruct Hin as (q & Eq & Hq). pose proof (inc_from_In _ _ _ H2 Hq). lia.
Qed.

Lemma inc_from_last lo ps p : inc_from lo ps -> In p ps -> fst p <= last_pos ps.
Proof.
  unfold last_pos. revert lo p. induction ps as [|x r IH]; intros lo p H Hin; [contradiction|].
  destruct H as [H1 H2]. destruct r as [|y r'].
  - destruct Hin as [->|[]]. cbn. lia.
  - change (last (x :: y :: r') (0, 0)) with (last (y :: r') (0, 0)).
    destruct Hin as [->|Hin].
    + pose proof (IH _ y H2 (or_introl eq_refl)). destruct H2 as [H2 _]. lia.
    + exact (IH _ p H2 Hin).
Qed.

Lemma inc_from_first lo ps p : inc_from lo ps -> In p ps -> first_pos ps <= fst p.
Proof.
  destruct ps as [|x r]; [contradiction|]. intros [H1 H2] [->|Hin]; cbn; [lia|].
  pose proof (inc_from_In _ _ _ H2 Hin). lia.
Qed.

Lemma inc_incl_eq : forall qs ps lo lo', inc_from lo ps -> inc_from lo' qs ->
  incl ps qs -> length ps = length qs -> ps = qs.
Proof.
  induction qs as [|q qs IH]; intros ps lo lo' Hp Hq Hincl Hlen.
  - destruct ps; [reflexivity|discriminate].
  - destruct ps as [|p ps]; [discriminate|].
    destruct Hp as [Hp1 Hp2], Hq as [Hq1 Hq2].
    destruct (Hincl p (or_introl eq_refl)) as [<-|Hin].
    + f_equal. apply (IH ps _ _ Hp2 Hq2); [|cbn in Hlen; lia].
      intros x Hx. destruct (Hincl x (or_intror Hx)) as [<-|Hx']; [|exact Hx'].
      pose proof (inc_from_In _ _ _ Hp2 Hx). lia.
    + exfalso.
      assert (Hall : incl (p :: ps) qs).
      { intros x [<-|Hx]; [exact Hin|].
        destruct (Hincl x (or_intror Hx)) as [<-|Hx']; [|exact Hx'].
        pose proof (inc_from_In _ _ _ Hp2 Hx). pose proof (inc_from_In _ _ _ Hq2 Hin). lia. }
      assert (Hnd : NoDup (p :: ps)) by (apply (NoDup_map_inv fst), (inc_from_keys lo); split; assumption).
      pose proof (NoDup_incl_length Hnd Hall) as Hle. cbn in Hle, Hlen. lia.
Qed.

Definition new_cells (base : Z) (qs : list pair) : list (Z * (Z * Z)) :=
  map (fun p => (base + fst p, (snd p, fst p + 1))) qs.

Lemma cell_prefix_miss base qs old c :
  (forall q, In q qs -> base + fst q <> c) -> cell (new_cells base qs ++ old) c = cell old c.
Proof.
  induction qs as [|q qs IH]; intro H; [reflexivity|].
  cbn [new_cells map app cell]. destruct (base + fst q =? c) eqn:E.
  - apply Z.eqb_eq in E. exfalso. exact (H q (or_introl eq_refl) E).
  - apply IH. intros q' Hq'. apply H. now right.
Qed.

Lemma cell_prefix_hit base qs old p v :
  (forall q q', In q qs -> In q' qs -> fst q = fst q' -> q = q') -> In (p, v) qs ->
  cell (new_cells base qs ++ old) (base + p) = (v, p + 1).
Proof.
  induction qs as [|q qs IH]; intros Hinj Hin; [contradiction|].
  cbn [new_cells map app cell]. destruct (base + fst q =? base + p) eqn:E.
  - apply Z.eqb_eq in E.
    assert (q = (p, v)) as -> by (apply Hinj; [now left|exact Hin|cbn; lia]). reflexivity.
  - destruct Hin as [->|Hin]; [cbn in E; rewrite Z.eqb_refl in E; discriminate|].
    apply IH; [|exact Hin]. intros x y Hx Hy. apply Hinj; now right.
Qed.

Lemma first_fit_some cands a ps mn mx base : first_fit cands a ps mn mx = Some base ->
  exists i, In i cands /\ base = i - mn /\ ~ In i (a_taken a) /\ ~ In base (a_used_base a) /\
            ~ In (base + mx) (a_taken a) /\ forall p, In p (tl ps) -> ~ In (base + fst p) (a_taken a).
Proof.
  induction cands as [|i rest IH]; cbn [first_fit]; [discriminate|].
  destruct (memz i (a_taken a)) eqn:E1;
    [|destruct (memz (i - mn) (a_used_base a) || memz (i - mn + mx) (a_taken a)) eqn:E2;
      [|destruct (existsb (fun p => memz (i - mn + fst p) (a_taken a)) (tl ps)) eqn:E3]].
  1-3: intro H; destruct (IH H) as [j [Hj Hr]]; exists j; (split; [now right|exact Hr]).
  intros [= <-]. exists i. apply orb_false_iff in E2. destruct E2 as [E2 E2'].
  split; [now left|]. split; [reflexivity|].
  split; [now apply memz_nIn|]. split; [now apply memz_nIn|]. split; [now apply memz_nIn|].
  intros p Hp. apply memz_nIn.
  destruct (memz (i - mn + fst p) (a_taken a)) eqn:E4; [|reflexivity].
  assert (existsb (fun p => memz (i - mn + fst p) (a_taken a)) (tl ps) = true)
    by (apply existsb_exists; exists p; split; assumption). congruence.
Qed.

Lemma filter_ge_lt (used : list Z) (b : Z) : In b used ->
  (length (filter (fun u => (b + 1 <=? u)%Z) used) < length (filter (fun u => (b <=? u)%Z) used))%nat.
Proof.
  induction used as [|u used IH]; intro Hin; [contradiction|]. cbn [filter].
  assert (Hle : (length (filter (fun u => (b + 1 <=? u)%Z) used) <= length (filter (fun u => (b <=? u)%Z) used))%nat).
  { clear. induction used as [|u used IH]; [cbn; lia|]. cbn [filter].
    destruct (b + 1 <=? u) eqn:E1, (b <=? u) eqn:E2; cbn [length]; lia. }
  destruct Hin as [->|Hin].
  - destruct (b + 1 <=? b) eqn:E1; [lia|]. destruct (b <=? b) eqn:E2; [|lia]. cbn [length]. lia.
  - specialize (IH Hin). destruct (b + 1 <=? u) eqn:E1, (b <=? u) eqn:E2; cbn [length]; lia.
Qed.

Lemma free_base_spec (used : list Z) : forall fuel (b : Z),
  (length (filter (fun u => (b <=? u)%Z) used) < fuel)%nat ->
  b <= free_base fuel used b /\ ~ In (free_base fuel used b) used.
Proof.
  induction fuel as [|f IH]; intros b H; [lia|]. cbn [free_base].
  destruct (memz b used) eqn:E.
  - apply memz_In in E. pose proof (filter_ge_lt used b E).
    destruct (IH (b + 1)) as [H1 H2]; [lia|]. split; [lia|exact H2].
  - apply memz_nIn in E. split; [lia|exact E].
Qed.

Lemma free_base_ok used b :
  b <= free_base (S (length used)) used b /\ ~ In (free_base (S (length used)) used b) used.
Proof. apply free_base_spec. pose proof (filter_length_le (fun u => b <=? u) used). lia. Qed.

Definition owns (fresh : list (list pair * Z)) (c p v : Z) : Prop :=
  exists L b, In (L, b) fresh /\ In (p, v) L /\ c = b + p.

Record Inv (a : alloc) (fresh : list (list pair * Z)) : Prop := {
  I_nodup : NoDup (map snd fresh);                                 (* distinct bases *)
  I_used  : forall b, In b (a_used_base a) <-> In b (map snd fresh);
  I_taken : forall c, In c (a_taken a) <-> exists p v, owns fresh c p v;
  I_range : forall c, In c (a_taken a) -> 0 <= c < a_size a;
  I_cell  : forall c p v, owns fresh c p v -> cell (a_cells a) c = (v, p + 1);
  I_free  : forall c, ~ In c (a_taken a) -> cell (a_cells a) c = (0, 0);
  I_prev  : forall h len b, prev_lookup (a_prev a) h len = Some b ->
              exists L, In (L, b) fresh /\ zlength (map fst L) = len;
  I_wf    : forall L b, In (L, b) fresh -> wf_line L;
  I_size  : 0 <= a_size a;
  I_base  : forall L b, In (L, b) fresh -> 0 <= b + first_pos L
}.

Lemma Inv_init delta : Inv (mkAlloc 0 delta [] [] [] []) [].
Proof.
  constructor; cbn; try tauto; try lia; try discriminate.
  - constructor.
  - intro c. split; [tauto|]. intros [p [v [L [b [[] _]]]]].
  - intros c p v [L [b [[] _]]].
Qed.

(* a taken cell whose check value is p + 1 belongs to the line based p cells below it *)
Lemma inv_cell_owner a fresh L b p v : Inv a fresh -> In (L, b) fresh -> 0 <= p ->
  cell (a_cells a) (b + p) = (v, p + 1) -> In (p, v) L.
Proof.
  intros HI Hin Hp Hc. destruct (in_dec Z.eq_dec (b + p) (a_taken a)) as [Ht|Ht].
  - apply (I_taken _ _ HI) in Ht. destruct Ht as (p' & v' & Ho). rewrite (I_cell _ _ HI _ _ _ Ho) in Hc.
    injection Hc as -> Hp'. destruct Ho as (L' & b' & HL' & Hpv & Hcb).
    assert (p' = p) by lia. subst p'. assert (b' = b) by lia. subst b'.
    pose proof (NoDup_map_inj snd fresh (I_nodup _ _ HI) (L, b) (L', b) Hin HL' eq_refl) as E. now injection E as ->.
  - rewrite (I_free _ _ HI _ Ht) in Hc. injection Hc. lia.
Qed.

Lemma inv_decode a fresh L b : Inv a fresh -> In (L, b) fresh -> forall p, 0 <= p ->
  (forall v, In (p, v) L -> 0 <= b + p < a_size a /\ cell (a_cells a) (b + p) = (v, p + 1)) /\
  ((forall v, ~ In (p, v) L) -> snd (cell (a_cells a) (b + p)) <> p + 1).
Proof.
  intros HI Hin p Hp. split.
  - intros v Hv. assert (Ho : owns fresh (b + p) p v) by (exists L, b; auto).
    split; [|exact (I_cell _ _ HI _ _ _ Ho)].
    apply (I_range _ _ HI). apply (I_taken _ _ HI). now exists p, v.
  - intros Hno Heq. destruct (cell (a_cells a) (b + p)) as [v c] eqn:Hc. cbn in Heq. subst c.
    exact (Hno v (inv_cell_owner _ _ _ _ _ _ HI Hin Hp Hc)).
Qed.

Definition place_new (a : alloc) (ps : list pair) (base : Z) : alloc :=
  mkAlloc (Z.max (a_size a) (last_pos ps + base + 1)) (a_delta a)
          (map (fun p => base + fst p) ps ++ a_taken a)
          (base :: a_used_base a)
          (((hash_pairs ps, zlength (map fst ps)), base) :: a_prev a)
          (new_cells base (rev ps) ++ a_cells a).

Lemma place_cases a ps a' base : place a ps = (a', base) ->
  (a' = a /\ prev_lookup (a_prev a) (hash_pairs ps) (zlength (map fst ps)) = Some base /\
   first_pos ps + base >= 0 /\ last_pos ps + base < a_size a /\
   forall p, In p ps -> cell (a_cells a) (base + fst p) = (snd p, fst p + 1)) \/
  (a' = place_new a ps base /\
   (first_fit (zseq (a_size a)) a ps (first_pos ps) (last_pos ps) = Some base \/
    base = free_base (S (length (a_used_base a))) (a_used_base a) (a_size a - first_pos ps))).
Proof.
  unfold place.
  set (dd := match prev_lookup (a_prev a) (hash_pairs ps) (zlength (map fst ps)) with
             | Some b => _ | None => None end).
  destruct dd as [b|] eqn:Edd.
  - intros [= <- <-]. left. subst dd.
    destruct (prev_lookup (a_prev a) (hash_pairs ps) (zlength (map fst ps))) as [b0|] eqn:Ep; [|discriminate].
    match type of Edd with (if ?c then _ else _) = _ => destruct c eqn:Ec end; [|discriminate].
    injection Edd as ->. apply andb_true_iff in Ec. destruct Ec as [Ec Ec3].
    apply andb_true_iff in Ec. destruct Ec as [Ec1 Ec2].
    split; [reflexivity|]. split; [reflexivity|]. split; [lia|]. split; [lia|].
    intros p Hp. rewrite forallb_forall in Ec3. specialize (Ec3 p Hp).
    destruct (cell (a_cells a) (b + fst p)) as [v c]. apply andb_true_iff in Ec3.
    destruct Ec3 as [E1 E2]. apply Z.eqb_eq in E1, E2. now subst.
  - clear Edd dd. intro H. right.
    destruct (first_fit (zseq (a_size a)) a ps (first_pos ps) (last_pos ps)) as [b|] eqn:Ef.
    + injection H as <- <-. split; [reflexivity|now left].
    + injection H as <- <-. split; [reflexivity|now right].
Qed.

Lemma wf_line_cells_in ps p : wf_line ps -> In p ps -> p = hd (0, 0) ps \/ In p (tl ps).
Proof. destruct ps as [|x r]; [contradiction|]. intros _ [->|H]; [now left|now right]. Qed.

Lemma place_new_inv a fresh ps base : Inv a fresh -> wf_line ps ->
  ~ In base (a_used_base a) -> 0 <= base + first_pos ps ->
  (forall p, In p ps -> ~ In (base + fst p) (a_taken a)) ->
  Inv (place_new a ps base) ((ps, base) :: fresh).
Proof.
  intros HI [Hne Hinc] Hused Hb Hfree.
  assert (Hinj : forall q q', In q (rev ps) -> In q' (rev ps) -> fst q = fst q' -> q = q').
  { intros q q' Hq Hq'. apply in_rev in Hq, Hq'. exact (NoDup_map_inj fst ps (inc_from_keys _ _ Hinc) q q' Hq Hq'). }
  assert (Hown : forall c p v, owns ((ps, base) :: fresh) c p v <->
                   (In (p, v) ps /\ c = base + p) \/ owns fresh c p v).
  { intros c p v. split.
    - intros [L [b [[[= <- <-]|Hin] [H1 H2]]]]; [left; auto|right; exists L, b; auto].
    - intros [[H1 H2]|[L [b [Hin [H1 H2]]]]]; [exists ps, base|exists L, b]; cbn; auto. }
  constructor; cbn [place_new a_size a_delta a_taken a_used_base a_prev a_cells].
  - (* I_nodup *) cbn. constructor; [|exact (I_nodup _ _ HI)]. intro H. apply Hused. now apply (I_used _ _ HI).
  - (* I_used *) intro b. cbn. rewrite (I_used _ _ HI). tauto.
  - (* I_taken *) intro c. rewrite in_app_iff, in_map_iff, (I_taken _ _ HI). split.
    + intros [[p [Hc Hp]]|[p [v Ho]]].
      * exists (fst p), (snd p). apply Hown. left. split; [now destruct p|lia].
      * exists p, v. apply Hown. now right.
    + intros [p [v Ho]]. apply Hown in Ho. destruct Ho as [[H1 H2]|Ho].
      * left. exists (p, v). split; [cbn; lia|exact H1].
      * right. now exists p, v.
  - (* I_range *) intro c. rewrite in_app_iff, in_map_iff. intros [[p [Hc Hp]]|Hc].
    + pose proof (inc_from_first _ _ _ Hinc Hp). pose proof (inc_from_last _ _ _ Hinc Hp). lia.
    + pose proof (I_range _ _ HI _ Hc). lia.
  - (* I_cell *) intros c p v Ho. apply Hown in Ho. destruct Ho as [[H1 ->]|Ho].
    + apply cell_prefix_hit; [exact Hinj|now apply -> in_rev].
    + rewrite cell_prefix_miss; [exact (I_cell _ _ HI _ _ _ Ho)|].
      intros q Hq Heq. apply in_rev in Hq. apply (Hfree q Hq). rewrite Heq.
      apply (I_taken _ _ HI). now exists p, v.
  - (* I_free *) intros c Hc. rewrite in_app_iff, in_map_iff in Hc.
    rewrite cell_prefix_miss.
    + apply (I_free _ _ HI). intro H. apply Hc. now right.
    + intros q Hq Heq. apply in_rev in Hq. apply Hc. left. now exists q.
  - (* I_prev *) intros h len b. cbn [prev_lookup].
    destruct ((hash_pairs ps =? h) && (zlength (map fst ps) =? len)) eqn:E.
    + intros [= <-]. apply andb_true_iff in E. destruct E as [_ E]. apply Z.eqb_eq in E.
      exists ps. split; [now left|exact E].
    + intro H. destruct (I_prev _ _ HI _ _ _ H) as [L [H1 H2]]. exists L. split; [now right|exact H2].
  - (* I_wf *) intros L b [[= <- <-]|Hin]; [split; assumption|exact (I_wf _ _ HI _ _ Hin)].
  - (* I_size *) pose proof (I_size _ _ HI). lia.
  - (* I_base *) intros L b [[= <- <-]|Hin]; [exact Hb|exact (I_base _ _ HI _ _ Hin)].
Qed.

Lemma first_pos_in ps : ps <> [] -> In (hd (0, 0) ps) ps /\ fst (hd (0, 0) ps) = first_pos ps.
Proof. destruct ps; [congruence|]. intros _. split; [now left|reflexivity]. Qed.

Lemma last_pos_in ps : ps <> [] -> exists p, In p ps /\ fst p = last_pos ps.
Proof.
  intro H. exists (last ps (0, 0)). split; [now apply last_In|reflexivity].
Qed.

Theorem place_inv a fresh ps a' base : Inv a fresh -> wf_line ps -> place a ps = (a', base) ->
  exists fresh', Inv a' fresh' /\ incl fresh fresh' /\ In (ps, base) fresh'.
Proof.
  intros HI Hwf Hpl. destruct (place_cases _ _ _ _ Hpl) as [[-> [Hprev [Hmn [Hmx Hcells]]]]|[-> Hbase]].
  - (* dedupe: the stored line is this line *)
    exists fresh. split; [exact HI|]. split; [apply incl_refl|].
    destruct (I_prev _ _ HI _ _ _ Hprev) as [L0 [HL0 Hlen]].
    destruct Hwf as [Hne Hinc].
    assert (Hincl : incl ps L0).
    { intros [p v] Hp. apply (inv_cell_owner _ _ _ _ _ _ HI HL0); [exact (inc_from_In _ _ _ Hinc Hp)|].
      exact (Hcells _ Hp). }
    destruct (I_wf _ _ HI _ _ HL0) as [_ Hinc0].
    assert (ps = L0) as ->; [|exact HL0].
    apply (inc_incl_eq L0 ps 0 0 Hinc Hinc0 Hincl).
    unfold zlength in Hlen. rewrite !map_length in Hlen. apply Nat2Z.inj. symmetry. exact Hlen.
  - exists ((ps, base) :: fresh). split; [|split; [now apply incl_tl, incl_refl|now left]].
    pose proof Hwf as [Hne Hinc].
    destruct Hbase as [Hff| ->].
    + destruct (first_fit_some _ _ _ _ _ _ Hff) as [i [Hi [-> [Ht [Hu [_ Htl]]]]]].
      apply in_zseq in Hi.
      apply place_new_inv; [exact HI|exact Hwf|exact Hu|lia|].
      intros p Hp. destruct (wf_line_cells_in _ _ Hwf Hp) as [->|Hp'].
      * destruct (first_pos_in ps Hne) as [_ ->]. now replace (i - first_pos ps + first_pos ps) with i by lia.
      * exact (Htl p Hp').
    + destruct (free_base_ok (a_used_base a) (a_size a - first_pos ps)) as [Hge Hnu].
      pose proof (I_size _ _ HI).
      apply place_new_inv; [exact HI|exact Hwf|exact Hnu|lia|].
      intros p Hp Ht. pose proof (I_range _ _ HI _ Ht). pose proof (inc_from_first _ _ _ Hinc Hp). lia.
Qed.

Lemma insert_desc_by e l : insert_desc e l = insert_by (fun e y => (length (snd y) <? length (snd e))%nat) e l.
Proof. reflexivity. Qed.

Lemma sort_desc_In x l : In x (sort_desc l) <-> In x l.
Proof.
  unfold sort_desc. rewrite (fold_left_ext _ _ l [] (fun acc e => insert_desc_by e acc)), isort_by_In. cbn. tauto.
Qed.

Definition pack_step : alloc * list (nat * Z) -> nat * list pair -> alloc * list (nat * Z) :=
  fun '(a, placed) e => let '(a', base) := place a (snd e) in (a', (fst e, base) :: placed).

Lemma pack_fold_keys es : forall st,
  map fst (snd (fold_left pack_step es st)) = rev (map fst es) ++ map fst (snd st).
Proof.
  induction es as [|e es IH]; intros [a placed]; [reflexivity|]. cbn [fold_left pack_step].
  destruct (place a (snd e)) as [a1 base]. rewrite IH. cbn [map snd fst rev]. now rewrite <- app_assoc.
Qed.

Definition placed_ok (E : list (nat * list pair)) (st : alloc * list (nat * Z)) : Prop :=
  exists fresh, Inv (fst st) fresh /\ forall i b, In (i, b) (snd st) -> exists L, In (i, L) E /\ In (L, b) fresh.

Lemma pack_fold E es st : (forall e, In e es -> In e E /\ wf_line (snd e)) ->
  placed_ok E st -> placed_ok E (fold_left pack_step es st).
Proof.
  intros Hes H0. apply fold_left_inv; [exact H0|]. intros [a placed] e He (fresh & HI & Hpl). cbn [fst snd] in *.
  destruct (Hes e He) as [HeE Hewf]. cbn [pack_step]. destruct (place a (snd e)) as [a1 base] eqn:Epl.
  destruct (place_inv _ _ _ _ _ HI Hewf Epl) as (fresh1 & HI1 & Hincl & Hin1). exists fresh1. split; [exact HI1|].
  intros i b [[= <- <-]|Hib].
  - exists (snd e). split; [now rewrite <- surjective_pairing|exact Hin1].
  - destruct (Hpl _ _ Hib) as (L & HL1 & HL2). exists L. split; [exact HL1|exact (Hincl _ HL2)].
Qed.

Theorem pack_correct lines indices table check :
  Forall wf_line lines -> pack lines = (indices, table, check) ->
  length indices = length lines /\ zlength check = zlength table /\
  forall i L, nth_error lines i = Some L ->
    0 <= nth i indices 0 + first_pos L /\
    forall p, 0 <= p ->
      (forall v, In (p, v) L ->
         0 <= nth i indices 0 + p < zlength table /\
         zn check (nth i indices 0 + p) = p /\ zn table (nth i indices 0 + p) = v) /\
      ((forall v, ~ In (p, v) L) -> 0 <= nth i indices 0 + p < zlength table ->
         zn check (nth i indices 0 + p) <> p).
Proof.
  intros Hwf. unfold pack.
  set (E := combine (seq 0 (length lines)) lines).
  set (delta := fold_left _ lines 0).
  change (fold_left _ (sort_desc E) (mkAlloc 0 delta [] [] [] [], []))
    with (fold_left pack_step (sort_desc E) (mkAlloc 0 delta [] [] [] [], [])).
  assert (HE : forall i L, In (i, L) E <-> nth_error lines i = Some L).
  { intros i L. unfold E. rewrite <- (map_id (seq 0 _)), (combine_seq (fun i => i) lines [] 0), in_map_iff.
    setoid_rewrite in_seq. setoid_rewrite Nat.sub_0_r. split.
    - intros (j & [= <- <-] & Hj). apply nth_error_nth'. lia.
    - intro H. exists i. split; [f_equal; now apply nth_error_nth|]. assert (i < length lines)%nat; [|lia].
      apply nth_error_Some. congruence. }
  pose proof (pack_fold_keys (sort_desc E) (mkAlloc 0 delta [] [] [] [], [])) as Hall.
  destruct (pack_fold E (sort_desc E) (mkAlloc 0 delta [] [] [] [], [])) as (fresh & HI & Hpl).
  { intros e He. rewrite sort_desc_In in He. split; [exact He|]. destruct e as [i L]. apply HE, nth_error_In in He.
    rewrite Forall_forall in Hwf. exact (Hwf _ He). }
  { exists []. split; [apply Inv_init|intros i b []]. }
  destruct (fold_left pack_step (sort_desc E) (mkAlloc 0 delta [] [] [] [], [])) as [a placed].
  cbn [fst snd map] in HI, Hpl, Hall. rewrite app_nil_r in Hall.
  intros [= <- <- <-].
  pose proof (I_size _ _ HI) as Hsz.
  split; [now rewrite map_length, seq_length|].
  assert (Hlt : zlength (map (fun i => fst (cell (a_cells a) i)) (zseq (a_size a))) = a_size a)
    by (unfold zlength; now apply zlength_map_zseq).
  split; [unfold zlength; now rewrite !zlength_map_zseq|].
  intros i L HiL. rewrite Hlt.
  assert (Hi : (i < length lines)%nat) by (apply nth_error_Some; congruence).
  rewrite map_seq_nth by exact Hi.
  assert (Hfind : exists pb, find (fun pb => Nat.eqb (fst pb) i) placed = Some pb).
  { destruct (find (fun pb => Nat.eqb (fst pb) i) placed) as [pb|] eqn:Ef; [now exists pb|].
    exfalso. assert (Hin : In i (map fst placed)).
    { rewrite Hall, <- in_rev. apply (in_map fst _ (i, L)). now apply sort_desc_In, HE. }
    apply in_map_iff in Hin. destruct Hin as [pb [Hpb1 Hpb2]].
    pose proof (find_none _ _ Ef _ Hpb2) as Hf. cbn in Hf. rewrite Hpb1, Nat.eqb_refl in Hf. discriminate. }
  destruct Hfind as [[i' b] Hfind]. rewrite Hfind. cbn [snd].
  apply find_some in Hfind. destruct Hfind as [Hin Heq]. cbn in Heq. apply Nat.eqb_eq in Heq. subst i'.
  destruct (Hpl _ _ Hin) as [L' [HL'1 HL'2]].
  assert (L' = L) by (apply HE in HL'1; congruence).
  subst L'. split; [exact (I_base _ _ HI _ _ HL'2)|].
  intros p Hp. destruct (inv_decode _ _ _ _ HI HL'2 p Hp) as [D1 D2]. split.
  - intros v Hv. destruct (D1 v Hv) as [Hr Hc]. split; [exact Hr|].
    rewrite !zn_map_zseq by exact Hr. rewrite Hc. cbn. split; [lia|reflexivity].
  - intros Hno Hr. rewrite zn_map_zseq by exact Hr. specialize (D2 Hno). lia.
Qed.
