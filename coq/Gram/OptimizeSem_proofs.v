(* C05: the uncompressed lines of [optimize] ([state_next], [goto_line]) are the non-optimized decoders
   ([action_default], [goto_state]) on well-formed tables; hence its output passes both validators. *)
From Coq Require Import List ZArith Bool Lia.
From TM Require Import Lib.ListX Gram.PTables Gram.Optimize Gram.OptimizeSpec Gram.ZTab_proofs Gram.OptimizeSpec_proofs
  Gram.OptimizeGen_proofs Gram.OptimizeWf Gram.MinimizeWf Gram.MinGoto_proofs.
Import ListNotations.
Local Open Scope Z_scope.

Lemma nodupz_NoDup l : nodupz l = true -> NoDup l.
Proof.
  induction l as [|x l IH]; intro H; [constructor|]. cbn [nodupz] in H. apply andb_true_iff in H.
  destruct H as [H1 H2]. apply negb_true_iff, memz_nIn in H1. constructor; [exact H1|exact (IH H2)].
Qed.

Lemma decode_raw_shift q : 0 <= q -> decode_raw (-2 - q) = Shift q.
Proof.
  intro H. unfold decode_raw. replace (-2 - q >=? 0) with false by lia.
  replace (-2 - q <? -1) with true by lia. f_equal. lia.
Qed.

Record row_ok (t : default_enc) (terms rules s : Z) (row : list (Z * Z)) : Prop := {
  ro_term : zn (d_lalr t) (- zn (d_action t) s - 3 + 2 * Z.of_nat (length row) + 1) = -2;
  ro_nodup : NoDup (map fst row);
  ro_ent : forall e, In e row -> 0 <= fst e < terms /\ -2 <= snd e < rules /\
             (snd e = -1 -> 0 <= goto_state t s (fst e) < zlength (d_action t))
}.

Lemma wf_row_ok t terms rules s : wf_row t terms rules s = true -> zn (d_action t) s < -2 ->
  row_ok t terms rules s (row_of t (zn (d_action t) s)).
Proof.
  unfold wf_row. intros H Hlt. replace (zn (d_action t) s <? -2) with true in H by lia.
  rewrite !andb_true_iff, forallb_forall in H. destruct H as [[H1 H2] H3]. constructor.
  - now apply Z.eqb_eq.
  - now apply nodupz_NoDup.
  - intros e He. specialize (H3 e He). pose proof (lalr_row_terms _ _ _ _ He).
    rewrite !andb_true_iff in H3. destruct H3 as [[[H4 H5] H6] H7].
    split; [lia|]. split; [lia|]. intro E. rewrite E in H7. cbn in H7. apply andb_true_iff in H7. lia.
Qed.

Definition row_val (t : default_enc) (s : Z) (e : Z * Z) : Z :=
  if snd e =? -1 then -2 - goto_state t s (fst e) else if snd e =? -2 then -1 else snd e.

(* the most common reduction of a row (smallest rule on ties), -1 when there is none *)
Definition dr_step (reds : list Z) : Z * Z -> Z -> Z * Z :=
  fun '(def, mx) rule => let v := count_of rule reds in if v >? mx then (rule, v) else (def, mx).

Definition dr_def (rules : Z) (reds : list Z) : Z := fst (fold_left (dr_step reds) (zseq rules) (-1, 0)).

(* the row written over a line of markers; with defaultReduce the markers left become the default reduction *)
Lemma state_next_row t terms rules states dr s : zn (d_action t) s < -2 ->
  state_next t terms rules states dr s =
  let undef := if dr then -2 - states else -1 in
  let next := fold_left (fun next e => set_at next (fst e) (row_val t s e))
                (row_of t (zn (d_action t) s)) (map (fun _ => undef) (zseq terms)) in
  inr (if dr then map (fun v => if v =? undef then dr_def rules (row_reductions t s) else v) next else next).
Proof.
  intro H. unfold state_next, row_reductions, dr_def, row_of.
  replace (zn (d_action t) s >=? 0) with false by lia. replace (zn (d_action t) s <? -2) with true by lia.
  replace (zn (d_action t) s =? -1) with false by lia. replace (zn (d_action t) s =? -2) with false by lia.
  set (row := lalr_row _ _ _). cbv zeta.
  rewrite (fold_left_ext _ (fun next e => set_at next (fst e) (row_val t s e))) by (intros next [term a]; reflexivity).
  destruct dr; [|reflexivity].
  change (fold_left _ (zseq rules) (-1, 0))
    with (fold_left (dr_step (filter (fun a => 0 <=? a) (map snd row))) (zseq rules) (-1, 0)).
  destruct (fold_left (dr_step _) (zseq rules) (-1, 0)) as [def mx]. reflexivity.
Qed.

Lemma state_next_simple t terms rules states dr s : -2 <= zn (d_action t) s ->
  state_next t terms rules states dr s =
  if zn (d_action t) s >=? 0 then inl (zn (d_action t) s)
  else if zn (d_action t) s =? -1 then
    inr (map (fun i => let q := goto_state t s i in if q >=? 0 then -2 - q else -1) (zseq terms))
  else inl (-1).
Proof.
  intro H. unfold state_next. destruct (zn (d_action t) s >=? 0) eqn:E0; [reflexivity|].
  destruct (zn (d_action t) s =? -1) eqn:E1; [reflexivity|]. now replace (zn (d_action t) s =? -2) with true by lia.
Qed.

Lemma state_next_len t terms rules states dr s next : 0 <= terms ->
  state_next t terms rules states dr s = inr next -> zlength next = terms.
Proof.
  intros Ht. destruct (Z_lt_le_dec (zn (d_action t) s) (-2)) as [Hlt|Hge].
  - rewrite state_next_row by exact Hlt. cbv zeta. intros [= <-]. unfold zlength.
    destruct dr; rewrite ?map_length, fold_set_at_length; now apply zlength_map_zseq.
  - rewrite state_next_simple by exact Hge. destruct (_ >=? 0); [discriminate|]. destruct (_ =? -1); [|discriminate].
    intros [= <-]. unfold zlength. now apply zlength_map_zseq.
Qed.

Lemma state_val_row t terms rules dr s a : 0 <= terms -> wf_row t terms rules s = true ->
  zn (d_action t) s < -2 -> 0 <= a < terms ->
  state_val t terms rules dr s a =
  match find (fun e => fst e =? a) (row_of t (zn (d_action t) s)) with
  | Some e => row_val t s e
  | None => if dr then dr_def rules (row_reductions t s) else -1
  end.
Proof.
  intros Ht Hwf Hlt Ha. destruct (wf_row_ok _ _ _ _ Hwf Hlt) as [_ R2 R3]. clear Hwf. unfold state_val.
  rewrite state_next_row by exact Hlt. cbv zeta. set (row := row_of _ _) in *.
  set (undef := if dr then -2 - zlength (d_action t) else -1).
  assert (Hinit : zlength (map (fun _ => undef) (zseq terms)) = terms) by (unfold zlength; now apply zlength_map_zseq).
  assert (Hcell : zn (fold_left (fun next e => set_at next (fst e) (row_val t s e)) row (map (fun _ => undef) (zseq terms))) a =
                  match find (fun e => fst e =? a) row with Some e => row_val t s e | None => undef end).
  { rewrite fold_set_at_find; [|exact R2|lia]. destruct (find _ row); [reflexivity|]. now apply zn_map_zseq. }
  unfold undef in *. destruct dr; [|exact Hcell].
  rewrite zn_map, Hcell by (unfold zlength in *; rewrite fold_set_at_length; lia).
  destruct (find _ row) as [e|] eqn:Ef; [|now rewrite Z.eqb_refl].
  (* an entry never writes the marker *)
  apply find_some in Ef. destruct (R3 e (proj1 Ef)) as (_ & H2 & H3). pose proof (zlength_nonneg (d_action t)).
  unfold row_val. destruct (Z.eqb_spec (snd e) (-1)) as [E1|E1]; [specialize (H3 E1)|destruct (Z.eqb_spec (snd e) (-2))];
    now replace (_ =? -2 - zlength (d_action t)) with false by lia.
Qed.

Lemma action_default_row t terms rules s a : wf_row t terms rules s = true -> zn (d_action t) s < -2 ->
  action_default t s a =
  match find (fun e => fst e =? a) (row_of t (zn (d_action t) s)) with
  | Some e => decode_raw (row_val t s e)
  | None => Err
  end.
Proof.
  intros Hwf Hlt. destruct (wf_row_ok _ _ _ _ Hwf Hlt) as [R1 _ R3]. clear Hwf. unfold action_default.
  replace (zn (d_action t) s <? -2) with true by lia. rewrite lalr_lookup_terminated by (lia || exact R1).
  destruct (find _ _) as [e|] eqn:Ef; [|reflexivity].
  apply find_some in Ef. destruct Ef as [He Hfa]. apply Z.eqb_eq in Hfa. destruct (R3 e He) as (_ & H2 & H3).
  unfold row_val. destruct (Z.eqb_spec (snd e) (-1)) as [E1|E1].
  - specialize (H3 E1). rewrite decode_raw_shift, E1, <- Hfa by lia. cbn. now replace (_ >=? 0) with true by lia.
  - replace (snd e =? -1) with false by lia. unfold decode_raw.
    destruct (Z.eqb_spec (snd e) (-2)) as [->|E2]; [reflexivity|]. now replace (snd e >=? 0) with true by lia.
Qed.

Theorem state_val_default t terms rules s a : 0 <= terms -> wf_row t terms rules s = true -> 0 <= a < terms ->
  decode_raw (state_val t terms rules false s a) = action_default t s a.
Proof.
  intros Ht Hwf Ha. destruct (Z_lt_le_dec (zn (d_action t) s) (-2)) as [Hlt|Hge].
  - rewrite (state_val_row _ _ _ _ _ _ Ht Hwf Hlt Ha), (action_default_row _ _ _ _ _ Hwf Hlt). now destruct (find _ _).
  - unfold state_val, action_default. rewrite state_next_simple by lia. replace (zn (d_action t) s <? -2) with false by lia.
    destruct (zn (d_action t) s >=? 0) eqn:E0; [unfold decode_raw; now rewrite E0|].
    destruct (zn (d_action t) s =? -1) eqn:E1.
    + rewrite zn_map_zseq by lia. cbv zeta. destruct (goto_state t s a >=? 0) eqn:Eq; [|reflexivity].
      apply decode_raw_shift. lia.
    + now replace (zn (d_action t) s =? -2) with true by lia.
Qed.

Section Fill.
Variables (ft : list Z) (mx : Z).
Fixpoint gl_fill (fuel : nat) (i : Z) (arr : list Z) : list Z :=
  match fuel with
  | O => arr
  | S f => if i <? mx then gl_fill f (i + 2) (set_at arr (zn ft i) (zn ft (i + 1))) else arr
  end.
End Fill.

Lemma goto_line_eq t terms states nt :
  goto_line t terms states nt =
  gl_fill (d_from_to t) (zn (d_goto t) (terms + nt + 1)) (S (length (d_from_to t)))
          (zn (d_goto t) (terms + nt)) (map (fun _ => -1) (zseq states)).
Proof. reflexivity. Qed.

Lemma gl_fill_pairs ft : forall c fuel i arr, (c < fuel)%nat ->
  gl_fill ft (i + 2 * Z.of_nat c) fuel i arr = fold_left (fun a e => set_at a (fst e) (snd e)) (pairs_from ft i c) arr.
Proof.
  induction c as [|c IH]; intros fuel i arr Hf; (destruct fuel as [|f]; [lia|]); cbn [gl_fill pairs_from fold_left fst snd].
  - now replace (i <? i + 2 * Z.of_nat 0) with false by lia.
  - replace (i <? i + 2 * Z.of_nat (S c)) with true by lia.
    replace (i + 2 * Z.of_nat (S c)) with (i + 2 + 2 * Z.of_nat c) by lia. apply IH. lia.
Qed.

Lemma wf_seg_layout t x : wf_seg t x = true ->
  goto_layout_ok t x /\
  let c := Z.to_nat ((zn (d_goto t) (x + 1) - zn (d_goto t) x) / 2) in
  zn (d_goto t) (x + 1) = zn (d_goto t) x + 2 * Z.of_nat c /\ (c < S (length (d_from_to t)))%nat.
Proof.
  unfold wf_seg, goto_layout_ok. rewrite seg_pairs_from. cbv zeta.
  set (mn := zn (d_goto t) x). set (mx := zn (d_goto t) (x + 1)). set (c := Z.to_nat ((mx - mn) / 2)).
  rewrite !andb_true_iff, forallb_zseq, !Z.even_spec. unfold zlength. intros [[[[[H1 H2] H3] [a Ha]] [b Hb]] H6].
  assert (Hd : (mx - mn) / 2 = b - a) by (rewrite Ha, Hb, <- Z.mul_sub_distr_l, Z.mul_comm; apply Z_div_mult; lia).
  rewrite Hd in H6. unfold c. rewrite Hd.
  assert (He : forall k, (2 * k) mod 2 = 0) by (intro k; rewrite Z.mul_comm; apply Z_mod_mult).
  split; [|split; lia]. split; [lia|]. split; [lia|]. split; [rewrite Ha; apply He|]. split; [rewrite Hb; apply He|].
  apply si_pairs_from_adjacent. intros k Hk Hk1. specialize (H6 k ltac:(lia)). cbv zeta in H6.
  replace (mn + 2 * k + 2 <? mx) with true in H6 by lia. replace (mn + 2 * (k + 1)) with (mn + 2 * k + 2) by lia. lia.
Qed.

(* both sides are the lookup in the segment *)
Theorem goto_line_state t terms nt s : wf_seg t (terms + nt) = true -> 0 <= s < zlength (d_action t) ->
  zn (goto_line t terms (zlength (d_action t)) nt) s = goto_state t s (terms + nt).
Proof.
  intros Hwf Hs. destruct (wf_seg_layout _ _ Hwf) as [Hlay [Hmx Hc]]. clear Hwf. cbv zeta in Hmx, Hc.
  apply (goto_rel_functional (seg t (terms + nt)) s); [apply Hlay| |now apply goto_state_spec].
  rewrite goto_line_eq, Hmx, gl_fill_pairs, <- seg_pairs_from by exact Hc.
  destruct (fold_set_at_zn fst snd (seg t (terms + nt)) s (map (fun _ => -1) (zseq (zlength (d_action t)))))
    as [(e & He & <- & ->)|[Hno ->]].
  { unfold zlength at 1. now rewrite zlength_map_zseq by apply zlength_nonneg. }
  - left. now destruct e.
  - right. split; [now apply zn_map_zseq|]. intros q' Hq. now apply (Hno _ Hq).
Qed.

Lemma goto_line_zlength t terms states nt : 0 <= states -> zlength (goto_line t terms states nt) = states.
Proof.
  intro H. rewrite goto_line_eq. unfold zlength.
  assert (Hl : forall fuel i arr, length (gl_fill (d_from_to t) (zn (d_goto t) (terms + nt + 1)) fuel i arr) = length arr).
  { induction fuel as [|f IH]; intros i arr; cbn [gl_fill]; [reflexivity|]. destruct (i <? _); [|reflexivity].
    now rewrite IH, set_at_length. }
  rewrite Hl. now apply zlength_map_zseq.
Qed.

Lemma wf_enc_parts t terms rules : wf_enc t terms rules = true ->
  0 <= terms /\
  (forall s, 0 <= s < zlength (d_action t) -> wf_row t terms rules s = true) /\
  (forall nt, 0 <= nt < zlength (d_goto t) - 1 - terms ->
     wf_seg t (terms + nt) = true /\
     exists s0, 0 <= s0 < zlength (d_action t) /\
       (goto_state t s0 (terms + nt) < 0 \/ goto_state t s0 (terms + nt) <> goto_state t 0 (terms + nt))).
Proof.
  unfold wf_enc, wf_enc_nogap. rewrite !andb_true_iff, forallb_zseq, !forallb_zseq_from. intros [[[H1 H2] H3] H4].
  split; [lia|]. split; [exact H2|]. intros nt Hnt. split; [apply H3; lia|].
  specialize (H4 (terms + nt) ltac:(lia)). unfold seg_fallback_ok, seg_has_gap, seg_not_constant in H4.
  apply orb_true_iff in H4. destruct H4 as [H4|H4]; apply existsb_exists in H4;
    destruct H4 as [s0 [Hs0 Hp]]; apply in_zseq in Hs0; exists s0; (split; [exact Hs0|]).
  - left. lia.
  - right. apply negb_true_iff, Z.eqb_neq in Hp. exact Hp.
Qed.

Theorem optimize_gotos_agree t terms rules dr : wf_enc t terms rules = true ->
  forall s x q, 0 <= s < zlength (d_action t) -> terms <= x < zlength (d_goto t) - 1 ->
  goto_state t s x = q -> 0 <= q -> goto_opt (optimize t terms rules dr) terms s x = q.
Proof.
  intros Hwf s x q Hs Hx Hq Hq0. destruct (wf_enc_parts _ _ _ Hwf) as [Ht [_ Hsegs]]. clear Hwf.
  destruct (Hsegs (x - terms) ltac:(lia)) as [Hseg [s0 [Hs0 Hgap]]].
  pose proof (goto_opt_optimize t terms rules dr s (x - terms) Ht Hs ltac:(lia)
                (goto_line_zlength _ _ _ _ (zlength_nonneg _))) as Hdec. cbv zeta in Hdec.
  pose proof (fun s' => goto_line_state t terms (x - terms) s' Hseg) as Hst.
  replace (terms + (x - terms)) with x in * by lia.
  destruct Hdec as [Hdec|Hall].
  - now rewrite Hdec, Hst.
  - (* a constant line gets no packed line: excluded by the fallback condition *)
    exfalso. pose proof (Hall s0 Hs0) as H1. pose proof (Hall 0 ltac:(lia)) as H2. rewrite !Hst in H1, H2 by lia. lia.
Qed.

Theorem optimize_actions_agree t terms rules : wf_enc t terms rules = true ->
  forall s a, 0 <= s < zlength (d_action t) -> 0 <= a < terms ->
  action_opt (optimize t terms rules false) s a = action_default t s a.
Proof.
  intros Hwf s a Hs Ha. destruct (wf_enc_parts _ _ _ Hwf) as [Ht [Hrows _]].
  rewrite action_opt_raw, raw_act_optimize; [|intros next; now apply state_next_len|exact Hs|exact Ha].
  apply state_val_default; [exact Ht|exact (Hrows s Hs)|exact Ha].
Qed.

Corollary optimize_decodes_identically t terms rules : wf_enc t terms rules = true ->
  (forall s a, 0 <= s < zlength (d_action t) -> 0 <= a < terms ->
     action_opt (optimize t terms rules false) s a = action_default t s a) /\
  (forall s x q, 0 <= s < zlength (d_action t) -> terms <= x < zlength (d_goto t) - 1 ->
     goto_state t s x = q -> 0 <= q -> goto_opt (optimize t terms rules false) terms s x = q).
Proof. intro H. split; [now apply optimize_actions_agree|now apply optimize_gotos_agree]. Qed.

Theorem optimize_passes_check_enc t terms rules : wf_enc t terms rules = true ->
  check_enc t (optimize t terms rules false) terms = true.
Proof. intro H. now apply check_enc_iff, optimize_decodes_identically. Qed.

Lemma dr_fold_spec reds : forall l d0 m0,
  let r := fold_left (dr_step reds) l (d0, m0) in
  m0 <= snd r /\ (forall x, In x l -> count_of x reds <= snd r) /\
  (r = (d0, m0) \/ (In (fst r) l /\ count_of (fst r) reds = snd r /\ m0 < snd r)).
Proof.
  induction l as [|x l IH]; intros d0 m0; cbn [fold_left].
  - cbn. split; [lia|]. split; [tauto|now left].
  - cbn [dr_step]. cbv zeta. destruct (count_of x reds >? m0) eqn:E.
    + destruct (IH x (count_of x reds)) as [H1 [H2 H3]]. cbv zeta in *.
      set (r := fold_left (dr_step reds) l (x, count_of x reds)) in *.
      split; [lia|]. split.
      * intros y [<-|Hy]; [lia|exact (H2 y Hy)].
      * right. destruct H3 as [->|[H3 [H4 H5]]].
        -- cbn. split; [now left|]. split; [reflexivity|lia].
        -- split; [now right|]. split; [exact H4|lia].
    + destruct (IH d0 m0) as [H1 [H2 H3]]. cbv zeta in *.
      set (r := fold_left (dr_step reds) l (d0, m0)) in *.
      split; [lia|]. split.
      * intros y [<-|Hy]; [lia|exact (H2 y Hy)].
      * destruct H3 as [H3|[H3 [H4 H5]]]; [now left|]. right. split; [now right|]. split; [exact H4|lia].
Qed.

Lemma count_of_pos r l : In r l -> 0 < count_of r l.
Proof.
  unfold count_of. induction l as [|x l IH]; intro H; [contradiction|]. cbn [filter].
  destruct H as [->|H].
  - rewrite Z.eqb_refl. cbn [length]. lia.
  - specialize (IH H). destruct (r =? x); cbn [length]; lia.
Qed.

Lemma count_of_nonneg r l : 0 <= count_of r l.
Proof. unfold count_of. lia. Qed.

Lemma dr_def_spec rules reds : (forall r, In r reds -> 0 <= r < rules) ->
  (dr_def rules reds = -1 /\ reds = []) \/
  (0 <= dr_def rules reds < rules /\ is_most_frequent (dr_def rules reds) reds = true).
Proof.
  intro Hr. unfold dr_def. destruct (dr_fold_spec reds (zseq rules) (-1) 0) as [H1 [H2 H3]]. cbv zeta in *.
  set (r := fold_left (dr_step reds) (zseq rules) (-1, 0)) in *.
  destruct H3 as [H3|[H3 [H4 H5]]].
  - left. rewrite H3. cbn [fst]. split; [reflexivity|]. rewrite H3 in H2. cbn [snd] in H2.
    destruct reds as [|x reds]; [reflexivity|]. exfalso.
    pose proof (count_of_pos x (x :: reds) (or_introl eq_refl)).
    specialize (H2 x (proj2 (in_zseq _ _) (Hr x (or_introl eq_refl)))). lia.
  - right. apply in_zseq in H3. split; [exact H3|].
    unfold is_most_frequent. apply andb_true_iff. split; [lia|].
    apply forallb_forall. intros x Hx. specialize (H2 x (proj2 (in_zseq _ _) (Hr x Hx))). lia.
Qed.

(* a cell that decodes as without defaultReduce is accepted, unless it is an implicit error of a row *)
Lemma cell_ok_dr_same t o s a : action_opt o s a = action_default t s a ->
  (zn (d_action t) s < -2 -> action_default t s a = Err ->
   lalr_find (S (length (d_lalr t))) (d_lalr t) (- zn (d_action t) s - 3) a <> None) ->
  cell_ok_dr t o s a = true.
Proof.
  unfold cell_ok_dr. intros -> H. destruct (action_default t s a); try (now apply act_eqb_eq).
  destruct (Z.ltb_spec (zn (d_action t) s) (-2)); [|reflexivity]. now destruct (lalr_find _ _ _ a); [|destruct H].
Qed.

Theorem optimize_cell_ok_dr t terms rules : wf_enc t terms rules = true ->
  forall s a, 0 <= s < zlength (d_action t) -> 0 <= a < terms ->
  cell_ok_dr t (optimize t terms rules true) s a = true.
Proof.
  intros Hwf s a Hs Ha. destruct (wf_enc_parts _ _ _ Hwf) as [Ht [Hrows _]]. clear Hwf. pose proof (Hrows s Hs) as Hrow.
  pose proof (state_val_default t terms rules s a Ht Hrow Ha) as Hplain.
  assert (Hopt : action_opt (optimize t terms rules true) s a = decode_raw (state_val t terms rules true s a)).
  { rewrite action_opt_raw, raw_act_optimize; [reflexivity|intros next; now apply state_next_len|exact Hs|exact Ha]. }
  destruct (Z_lt_le_dec (zn (d_action t) s) (-2)) as [Hlt|Hge].
  - rewrite state_val_row in Hplain, Hopt by assumption. pose proof (action_default_row _ _ _ _ a Hrow Hlt) as Hd.
    pose proof (lalr_find_row (d_lalr t) a (S (length (d_lalr t))) (- zn (d_action t) s - 3)) as Hf.
    destruct (find _ _) as [e|]; cbn [option_map] in Hf.
    + apply cell_ok_dr_same; [congruence|]. rewrite Hf. discriminate.
    + unfold cell_ok_dr. rewrite Hd, Hf, Hopt. replace (_ <? -2) with true by lia.
      assert (Hreds : forall r, In r (row_reductions t s) -> 0 <= r < rules).
      { intros r Hr. unfold row_reductions in Hr. replace (_ <? -2) with true in Hr by lia.
        apply filter_In in Hr. destruct Hr as [Hr Hr0]. apply in_map_iff in Hr. destruct Hr as [e [<- He]].
        destruct (wf_row_ok _ _ _ _ Hrow Hlt) as [_ _ R3]. destruct (R3 e He) as [_ [H2 _]]. lia. }
      destruct (dr_def_spec rules _ Hreds) as [[-> ->]|[Hd' Hmf]]; [reflexivity|].
      unfold decode_raw. now replace (_ >=? 0) with true by lia.
  - apply cell_ok_dr_same; [|lia]. rewrite Hopt, <- Hplain. unfold state_val. now rewrite !state_next_simple by lia.
Qed.

Theorem optimize_passes_check_enc_dr t terms rules : wf_enc t terms rules = true ->
  check_enc_dr t (optimize t terms rules true) terms = true.
Proof.
  intro Hwf. apply check_enc_dr_iff. split; [now apply optimize_cell_ok_dr|now apply optimize_gotos_agree].
Qed.

Corollary optimize_default_reduce_ok t terms rules : wf_enc t terms rules = true ->
  forall s a, 0 <= s < zlength (d_action t) -> 0 <= a < terms ->
  match action_default t s a with
  | Shift q => action_opt (optimize t terms rules true) s a = Shift q
  | Reduce r => action_opt (optimize t terms rules true) s a = Reduce r
  | Deep r => action_opt (optimize t terms rules true) s a = Deep r
  | Err =>
      (forall q, action_opt (optimize t terms rules true) s a <> Shift q) /\
      (zn (d_action t) s < -2 ->
       (exists v, lalr_find (S (length (d_lalr t))) (d_lalr t) (- zn (d_action t) s - 3) a = Some v) ->
       action_opt (optimize t terms rules true) s a = Err) /\
      (forall r, action_opt (optimize t terms rules true) s a = Reduce r ->
                 is_most_frequent r (row_reductions t s) = true)
  end.
Proof. intros H s a Hs Ha. now apply cell_ok_dr_sound, optimize_cell_ok_dr. Qed.
