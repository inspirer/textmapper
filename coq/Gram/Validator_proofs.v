(* C01: check = true implies, for every token sequence, soundness, completeness, crash-freedom and error position of
   the parser main loop; check && check_live imply the correct-prefix property.  Section Clauses: what each clause of
   the check says; section Proofs: the instances of LRLoop_proofs for a machine that looks at one token. *)
From Coq Require Import List ZArith Bool Lia.
From TM Require Import Lib.ListX Gram.Cfg Gram.Cfg_proofs Gram.PTables Gram.Run Gram.Derive Gram.LalrSpec Gram.LalrSpec_proofs Gram.Validator Gram.ValidatorLive Gram.LRLoop_proofs.
Import ListNotations.
Local Open Scope Z_scope.

Local Notation top st := (snd (hd (0, -1) st)).

Lemma in_zrange0 n x : In x (zrange0 n) <-> 0 <= x < n.
Proof. apply in_map_of_nat_seq. Qed.

Lemma input_index_lt g i x : nth_error (g_inputs g) i = Some x -> (i < ninputs g)%nat.
Proof. intros H. apply nth_error_Some. unfold ninputs. rewrite H. discriminate. Qed.

Lemma subset_incl a b : subset a b = true -> incl a b.
Proof. unfold subset. rewrite forallb_forall. intros H x Hx. apply mem_In. auto. Qed.

Lemma forallb_cells n k (Q : Z -> Z -> bool) :
  forallb (fun p => forallb (Q p) (zrange0 k)) (zrange0 n) = true -> forall p x, 0 <= p < n -> 0 <= x < k -> Q p x = true.
Proof.
  intros H p x Hp Hx. rewrite forallb_forall in H. specialize (H p (proj2 (in_zrange0 _ _) Hp)).
  rewrite forallb_forall in H. exact (H x (proj2 (in_zrange0 _ _) Hx)).
Qed.

Lemma forallb_items {A} (its : Z -> list A) n (P : Z -> A -> bool) :
  (forall q it, In it (its q) -> 0 <= q < n) ->
  forallb (fun q => forallb (P q) (its q)) (zrange0 n) = true -> forall q it, In it (its q) -> P q it = true.
Proof.
  intros Hst H q it Hin. rewrite forallb_forall in H. specialize (H q (proj2 (in_zrange0 _ _) (Hst _ _ Hin))).
  rewrite forallb_forall in H. exact (H it Hin).
Qed.

Lemma forallb_seq n (P : nat -> bool) : forallb P (seq 0 n) = true -> forall i, (i < n)%nat -> P i = true.
Proof. intros H i Hi. rewrite forallb_forall in H. apply H. apply in_seq. lia. Qed.

Lemma nth_state {A} (l : list (list A)) n q x :
  Z.of_nat (length l) <= n -> In x (if q <? 0 then [] else nth (Z.to_nat q) l []) -> 0 <= q < n.
Proof.
  intros Hl. destruct (q <? 0) eqn:E; [intros []|]. apply Z.ltb_ge in E.
  intros Hin. destruct (lt_dec (Z.to_nat q) (length l)) as [Hlt|Hge]; [lia|].
  rewrite nth_overflow in Hin by lia. destruct Hin.
Qed.

Lemma rule_index_lt g r rl : nth_error (g_rules g) r = Some rl -> (r <? nrules g)%nat = true.
Proof. intros H. apply Nat.ltb_lt, nth_error_Some. rewrite H. discriminate. Qed.

Definition trans_closed (g : grammar) (nstates : Z) (ann : cert) (tr : Z -> Z -> Z) : bool :=
  forallb (fun p => forallb (fun X =>
      let q := tr p X in
      if q <? 0 then true else
      (Z.of_nat (ninputs g) <=? q) && (q <? nstates) &&
      forallb (fun it : citem => let '(r, d, _) := it in
          match d with
          | O => true
          | S d' => match arule g r with
                    | Some rl => match nth_error (r_rhs rl) d' with Some Y => Y =? X | None => false end && has_item ann p r d'
                    | None => false end
          end) (items ann q)) (zrange0 (vNS g))) (zrange0 nstates).

(* a lemma depends on the clauses it uses, so check_k shares those of its clauses *)
Section Clauses.
Variable g : grammar.
Variable m : machine.
Variable nstates : Z.
Variable finals : list Z.
Variable nl : list Z.
Variable ft : first_table.
Variable ann : cert.

Notation T := (vT g).
Notation NS := (vNS g).
Notation NR := (nrules g).
Notation NI := (ninputs g).
Notation items := (items ann).
Notation has_item := (has_item ann).
Notation item_la_incl := (item_la_incl ann).
Notation trans := (trans g m).
Notation arule := (arule g).
Notation final_of := (final_of finals).

Lemma chk_rules_ok : chk_rules g = true -> grammar_ok g.
Proof.
  unfold chk_rules. rewrite !andb_true_iff, !forallb_forall, !Z.leb_le. intros [[[H1 H0] H2] H3].
  split; [exact H1|]. split; [exact H0|]. split.
  - intros rl Hrl. specialize (H2 _ Hrl). rewrite !andb_true_iff, forallb_forall in H2. destruct H2 as [H2 Hs].
    split; [lia|]. intros s Hin. specialize (Hs _ Hin). rewrite andb_true_iff in Hs. lia.
  - intros inp Hin. specialize (H3 _ Hin). rewrite andb_true_iff in H3. lia.
Qed.

Hypothesis Hlen : chk_ann_len nstates ann = true.

Lemma item_state q it : In it (items q) -> 0 <= q < nstates.
Proof. apply nth_state. apply Z.leb_le. exact Hlen. Qed.

Lemma item_la_incl_In q r d L : item_la_incl q r d L = true -> exists L', In (r, d, L') (items q) /\ incl L L'.
Proof.
  unfold Validator.item_la_incl. rewrite existsb_exists.
  intros ([[r' d'] L'] & Hin & E). rewrite !andb_true_iff in E. destruct E as [[E1 E2] E3].
  apply Nat.eqb_eq in E1. apply Nat.eqb_eq in E2. subst. exists L'. split; [exact Hin|]. apply subset_incl. exact E3.
Qed.

Hypothesis Hitems : chk_items g nstates ann = true.

Lemma L_items q r d L : In (r, d, L) (items q) ->
  exists rl, arule r = Some rl /\ (d <= length (r_rhs rl))%nat /\ forall a, In a L -> 0 <= a < T.
Proof.
  intros Hin. apply (forallb_items _ _ _ item_state Hitems) in Hin. simpl in Hin.
  destruct (arule r) as [rl|]; [|discriminate]. exists rl. rewrite andb_true_iff, forallb_forall in Hin.
  destruct Hin as [H1 H2]. apply Nat.leb_le in H1. split; [reflexivity|]. split; [exact H1|].
  intros a Ha. apply H2 in Ha. rewrite andb_true_iff in Ha. lia.
Qed.

Hypothesis Hstart : chk_start g ann = true.
Hypothesis Hfinal : chk_final g nstates finals ann = true.

Lemma ninputs_le : Z.of_nat NI <= nstates.
Proof. unfold chk_final in Hfinal. rewrite !andb_true_iff in Hfinal. apply Z.leb_le. tauto. Qed.

Lemma L_start i r d L : (i < NI)%nat -> In (r, d, L) (items (Z.of_nat i)) -> d = O.
Proof.
  intros Hi Hin. apply (forallb_seq _ _ Hstart) in Hi. rewrite forallb_forall in Hi.
  apply Hi in Hin. apply Nat.eqb_eq. exact Hin.
Qed.

Lemma L_final i nt eoi : nth_error (g_inputs g) i = Some (nt, eoi) ->
  has_item (final_of i) (NR + i) (if eoi : bool then 2 else 1) = true /\
  forall q, has_item q (NR + i) 0 = true -> q = Z.of_nat i.
Proof.
  intros Hi. unfold chk_final in Hfinal. rewrite !andb_true_iff in Hfinal. destruct Hfinal as [_ H].
  pose proof (forallb_seq _ _ H i (input_index_lt _ _ _ Hi)) as H'. cbv beta in H'. rewrite Hi in H'.
  rewrite andb_true_iff, forallb_forall in H'. destruct H' as [H1 H2]. split; [exact H1|].
  intros q Hq. destruct (proj1 (has_item_In _ _ _ _) Hq) as (L & Hin). apply item_state in Hin.
  specialize (H2 q (proj2 (in_zrange0 _ _) Hin)). rewrite Hq in H2. apply Z.eqb_eq. exact H2.
Qed.

Lemma auto_ok_of tr : trans_closed g nstates ann tr = true -> auto_ok g nstates ann tr.
Proof.
  intros H. split; [exact ninputs_le| |exact L_start].
  intros p X Hp HX Hq. apply (forallb_cells _ _ _ H) with (p := p) (x := X) in Hp; [|exact HX]. cbv zeta in Hp.
  destruct (tr p X <? 0) eqn:E; [apply Z.ltb_lt in E; lia|].
  rewrite !andb_true_iff, forallb_forall in Hp. destruct Hp as [[H1 H2] H3]. split; [lia|].
  intros r d' L Hin. specialize (H3 _ Hin). simpl in H3.
  destruct (arule r) as [rl|]; [|discriminate]. exists rl. rewrite andb_true_iff in H3. destruct H3 as [H3 H4].
  destruct (nth_error (r_rhs rl) d') as [Y|]; [|discriminate]. apply Z.eqb_eq in H3. subst. auto.
Qed.

Hypothesis Hgoto : chk_goto_def g m nstates ann = true.

Lemma goto_defined b r L rl : In (r, O, L) (items b) -> nth_error (g_rules g) r = Some rl -> 0 <= m_goto m b (r_lhs rl).
Proof.
  intros Hin Hr. apply (forallb_items _ _ _ item_state Hgoto) in Hin. simpl in Hin.
  rewrite (rule_index_lt _ _ _ Hr), Hr in Hin. apply Z.leb_le. exact Hin.
Qed.

Hypothesis Hreduce : chk_reduce g m nstates ann = true.

Lemma L_cell p a : 0 <= p < nstates -> 0 <= a < T ->
  match m_act m p a [] with
  | Reduce r => exists rn rl, r = Z.of_nat rn /\ nth_error (g_rules g) rn = Some rl /\
                  has_item p rn (length (r_rhs rl)) = true /\
                  m_rule_len m r = Z.of_nat (length (r_rhs rl)) /\ m_rule_sym m r = r_lhs rl
  | Shift q => 0 <= q
  | Deep _ => False
  | Err => True
  end.
Proof.
  intros Hp Ha. apply (forallb_cells _ _ _ Hreduce) with (p := p) (x := a) in Hp; [|exact Ha].
  destruct (m_act m p a []) as [q|r| |row]; [apply Z.leb_le; exact Hp| |exact I|discriminate].
  rewrite !andb_true_iff in Hp. destruct Hp as [[H1 H2] H3]. apply Z.leb_le in H1.
  destruct (nth_error (g_rules g) (Z.to_nat r)) as [rl|] eqn:E; [|discriminate].
  rewrite !andb_true_iff in H3. destruct H3 as [[H3 H4] H5]. apply Z.eqb_eq in H4. apply Z.eqb_eq in H5.
  exists (Z.to_nat r), rl. repeat split; auto. lia.
Qed.

Lemma trans_shift q a : 0 <= a < T -> 0 <= trans q a -> m_act m q a [] = Shift (trans q a).
Proof.
  intros Ha. unfold Validator.trans. destruct (a <? T) eqn:E; [|apply Z.ltb_ge in E; lia].
  destruct (m_act m q a []); intros H; try lia. reflexivity.
Qed.

Lemma trans_goto q X : T <= X -> trans q X = m_goto m q X.
Proof. intros H. unfold Validator.trans. destruct (X <? T) eqn:E; [apply Z.ltb_lt in E; lia|reflexivity]. Qed.

Hypothesis Hadvance : chk_advance g m nstates ann = true.

Lemma L_advance q r d L rl X : In (r, d, L) (items q) -> arule r = Some rl -> nth_error (r_rhs rl) d = Some X ->
  0 <= trans q X /\ exists L', In (r, S d, L') (items (trans q X)) /\ incl L L'.
Proof.
  intros Hin Hr HX. apply (forallb_items _ _ _ item_state Hadvance) in Hin. simpl in Hin.
  rewrite Hr, HX, andb_true_iff in Hin. destruct Hin as [H1 H2]. apply Z.leb_le in H1.
  split; [exact H1|]. apply item_la_incl_In. exact H2.
Qed.

Hypothesis Hreduce_la : chk_reduce_la g m nstates ann = true.

Lemma L_reduce_la q r d L rl a : In (r, d, L) (items q) -> nth_error (g_rules g) r = Some rl -> d = length (r_rhs rl) ->
  In a L -> m_act m q a [] = Reduce (Z.of_nat r).
Proof.
  intros Hin Hr -> Ha. apply (forallb_items _ _ _ item_state Hreduce_la) in Hin. simpl in Hin.
  rewrite (rule_index_lt _ _ _ Hr), Hr, Nat.eqb_refl, forallb_forall in Hin. specialize (Hin _ Ha).
  destruct (m_act m q a []); simpl in Hin; try discriminate. apply Z.eqb_eq in Hin. subst. reflexivity.
Qed.

Hypothesis Hinputs : chk_inputs g m finals ann = true.

Lemma L_inputs i nt eoi : nth_error (g_inputs g) i = Some (nt, eoi) ->
  (exists L, In ((NR + i)%nat, O, L) (items (Z.of_nat i)) /\ (eoi = false -> forall a, 0 <= a < T -> In a L)) /\
  (if eoi : bool then trans (trans (Z.of_nat i) nt) 0 = final_of i else trans (Z.of_nat i) nt = final_of i).
Proof.
  intros Hinp. pose proof (forallb_seq _ _ Hinputs i (input_index_lt _ _ _ Hinp)) as H'. cbv beta in H'.
  rewrite Hinp, andb_true_iff in H'. destruct H' as [H1 H2].
  apply item_la_incl_In in H1. destruct H1 as (L & Hin & Hinc). split.
  - exists L. split; [exact Hin|]. intros -> a Ha. apply Hinc. unfold all_terms_z. apply in_zrange0. exact Ha.
  - destruct eoi; apply Z.eqb_eq; exact H2.
Qed.

Hypothesis G : grammar_ok g.
Hypothesis Hnull : chk_nullable g nl = true.
Hypothesis Hfirst : chk_first g nl ft = true.

(* the two clauses are the closure tests of LalrSpec, whose proofs say that closed tables are complete *)
Lemma rules_wf_lhs : wf_lhs g = true.
Proof.
  apply forallb_forall. intros r Hr. pose proof (rule_lhs_range g G _ Hr) as Hl.
  destruct (is_term g (r_lhs r)) eqn:E; [apply is_term_iff in E; lia|reflexivity].
Qed.

Lemma chk_nullable_closed : nullable_closed g nl = true.
Proof.
  unfold chk_nullable in Hnull. rewrite andb_true_iff, !forallb_forall in Hnull. destruct Hnull as [H _].
  apply forallb_forall. intros r Hr. specialize (H r Hr).
  destruct (forallb (fun s => negb (is_term g s) && mem s nl) (r_rhs r)) eqn:E; [|reflexivity].
  rewrite forallb_forall in E. replace (forallb (fun s => mem s nl) (r_rhs r)) with true in H; [exact H|].
  symmetry. apply forallb_forall. intros s Hs. apply E in Hs. apply andb_true_iff in Hs. apply Hs.
Qed.

Definition sfirst (gamma L : list Z) (a : Z) : Prop :=
  (exists u, derives_seq g gamma (a :: u)) \/ (derives_seq g gamma [] /\ In a L).

Lemma sfirst_incl gamma L L' a : incl L L' -> sfirst gamma L a -> sfirst gamma L' a.
Proof. intros Hi' [H|[H1 H2]]; [left; exact H|right; split; auto]. Qed.

Lemma sfirst_app xs w2 rest L inp :
  derives_seq g xs w2 -> sfirst rest L (hd 0 inp) -> sfirst (xs ++ rest) L (hd 0 (w2 ++ inp)).
Proof.
  intros Hxs Hf. destruct w2 as [|b u]; simpl.
  - destruct Hf as [(u' & H)|[H1 H2]].
    + left. exists u'. apply (derives_seq_app g _ _ [] _ Hxs H).
    + right. split; [|exact H2]. apply (derives_seq_app g _ _ [] [] Hxs H1).
  - left. destruct Hf as [(u' & H)|[H1 H2]].
    + exists (u ++ hd 0 inp :: u'). apply (derives_seq_app g _ _ (b :: u) _ Hxs H).
    + exists u. rewrite <- (app_nil_r (b :: u)). apply derives_seq_app; assumption.
Qed.

Hypothesis Hclosure : chk_closure g nstates nl ft ann = true.

Lemma L_closure q r d L rl X r' rl' a :
  In (r, d, L) (items q) -> arule r = Some rl -> nth_error (r_rhs rl) d = Some X -> T <= X ->
  nth_error (g_rules g) r' = Some rl' -> r_lhs rl' = X -> sfirst (skipn (S d) (r_rhs rl)) L a ->
  exists L0, In (r', O, L0) (items q) /\ In a L0.
Proof.
  intros Hin Hr HX HT Hr' Hl Ha. apply (forallb_items _ _ _ item_state Hclosure) in Hin. cbv beta iota in Hin.
  rewrite Hr, HX in Hin. destruct (X <? T) eqn:E; [apply Z.ltb_lt in E; lia|].
 destruct (first_seq g nl (ft_get ft) (skipn (S d) (r_rhs rl))) as [f n] eqn:Ef.
  apply forallb_seq with (i := r') in Hin; [|apply Nat.ltb_lt; eapply rule_index_lt; exact Hr'].
  rewrite Hr', Hl, Z.eqb_refl in Hin.
  apply item_la_incl_In in Hin. destruct Hin as (L0 & Hin0 & Hinc). exists L0. split; [exact Hin0|].
  apply Hinc. destruct Ha as [(u & Hd)|[Hd Hb]].
  - pose proof (first_seq_complete g nl rules_wf_lhs chk_nullable_closed ft Hfirst _ _
                  (proj2 (proj2 (derives_first_nullable g) _ _ Hd) _ _ eq_refl)) as Hf. rewrite Ef in Hf. simpl in Hf.
    destruct n; [apply in_or_app; left|]; exact Hf.
  - pose proof (first_seq_nullable g nl rules_wf_lhs chk_nullable_closed (ft_get ft) _
                  (proj1 (proj2 (derives_first_nullable g) _ _ Hd) eq_refl)) as Hn. rewrite Ef in Hn. simpl in Hn. subst n. apply in_or_app. right. exact Hb.
Qed.
End Clauses.

Section Proofs.
Variable g : grammar.
Variable m : machine.
Variable nstates : Z.
Variable finals : list Z.
Variable nl : list Z.
Variable ft : first_table.
Variable ann : cert.

Hypothesis Hm : forall s a more, m_act m s a more = m_act m s a [].
Hypothesis Hchk : check g m nstates finals nl ft ann = true.

Notation T := (vT g).
Notation NS := (vNS g).
Notation NR := (nrules g).
Notation NI := (ninputs g).
Notation items := (items ann).
Notation has_item := (has_item ann).
Notation trans := (trans g m).
Notation arule := (arule g).
Notation final_of := (final_of finals).

Lemma check_parts :
  chk_rules g = true /\ chk_ann_len nstates ann = true /\ chk_items g nstates ann = true /\
  chk_trans g m nstates ann = true /\ chk_reduce g m nstates ann = true /\ chk_start g ann = true /\
  chk_final g nstates finals ann = true /\ chk_goto_def g m nstates ann = true /\
  chk_advance g m nstates ann = true /\ chk_closure g nstates nl ft ann = true /\
  chk_reduce_la g m nstates ann = true /\ chk_nullable g nl = true /\ chk_first g nl ft = true /\
  chk_inputs g m finals ann = true.
Proof. generalize Hchk. unfold check. rewrite !andb_true_iff. tauto. Qed.

Lemma L_rules : grammar_ok g.
Proof. apply chk_rules_ok, check_parts. Qed.

Definition check_cell := L_cell g m nstates ann (proj1 (proj2 (proj2 (proj2 (proj2 check_parts))))).

Lemma L_reduce p a r : 0 <= p < nstates -> 0 <= a < T -> m_act m p a [] = Reduce r ->
  exists rn rl, r = Z.of_nat rn /\ nth_error (g_rules g) rn = Some rl /\ has_item p rn (length (r_rhs rl)) = true /\
    m_rule_len m r = Z.of_nat (length (r_rhs rl)) /\ m_rule_sym m r = r_lhs rl.
Proof.
  intros Hp Ha Hact. pose proof (check_cell p a Hp Ha) as Hc. rewrite Hact in Hc. exact Hc.
Qed.

Lemma L_nodeep p a row : 0 <= p < nstates -> 0 <= a < T -> m_act m p a [] <> Deep row.
Proof.
  intros Hp Ha Hact. pose proof (check_cell p a Hp Ha) as Hc. rewrite Hact in Hc. exact Hc.
Qed.

Lemma L_shift p a q : 0 <= p < nstates -> 0 <= a < T -> m_act m p a [] = Shift q -> 0 <= q.
Proof.
  intros Hp Ha Hact. pose proof (check_cell p a Hp Ha) as Hc. rewrite Hact in Hc. exact Hc.
Qed.

Lemma check_auto : auto_ok g nstates ann trans.
Proof. destruct check_parts as (_ & Hl & _ & Ht & _ & Hs & Hf & _). exact (auto_ok_of g nstates finals ann Hs Hf trans Ht). Qed.

Lemma check_lr0 : lr0_cert_ok g nstates ann trans m finals.
Proof.
  destruct check_parts as (_ & Hl & _ & _ & _ & _ & Hf & Hg & _).
  split; [exact check_auto|exact L_rules|apply trans_goto|exact (goto_defined g m nstates ann Hl Hg)| | |
          exact (L_final g nstates finals ann Hl Hf)].
  - intros p a more r Hp Ha Hact. rewrite Hm in Hact. exact (L_reduce _ _ _ Hp Ha Hact).
  - intros p a more q Hp Ha Hact. rewrite Hm in Hact. pose proof (L_shift _ _ _ Hp Ha Hact) as Hq. split; [|exact Hq].
    unfold Validator.trans. destruct (a <? T) eqn:E; [rewrite Hact; reflexivity|apply Z.ltb_ge in E; lia].
Qed.

Variable i : nat.
Hypothesis Hi : (i < NI)%nat.

Inductive stk : list (Z * Z) -> list Z -> Prop :=
| stk_bot s : stk [(s, Z.of_nat i)] []
| stk_cons X q b rest w1 w2 :
    stk (b :: rest) w1 -> 0 <= X < NS -> trans (snd b) X = q -> 0 <= q -> derives g X w2 ->
    stk ((X, q) :: b :: rest) (w1 ++ w2).

Lemma stk_path st w : stk st w <-> path g trans i st w.
Proof.
  split.
  - induction 1 as [s | X q b rest w1 w2 Hs IH HX Hq Hq0 Hd]; [constructor|]. subst q. apply (path_cons g trans i X (b :: rest)); assumption.
  - induction 1 as [s | X st w1 w2 Hs IH HX Hq0 Hd]; [constructor|].
    destruct st as [|b rest]; [inversion IH|]. apply stk_cons; auto.
Qed.

Lemma spelled d : forall st w r L rl, stk st w -> In (r, d, L) (items (snd (hd (0, -1) st))) -> arule r = Some rl ->
  (d < length st)%nat /\ rev (map fst (firstn d st)) = firstn d (r_rhs rl) /\ has_item (snd (nth d st (0, -1))) r 0 = true.
Proof. intros st w r L rl Hs. apply stk_path in Hs. exact (path_spelled g nstates ann trans i check_auto Hi d st w r L rl Hs). Qed.

Definition toks_ok (inp : list Z) : Prop := Forall (fun a => 1 <= a < T) inp.

Definition sentence (nt : Z) (eoi : bool) (w : list Z) : Prop :=
  if eoi then derives g nt w else exists p s, w = p ++ s /\ derives g nt p.

Theorem parse_sound ws fuel nt eoi :
  toks_ok ws -> nth_error (g_inputs g) i = Some (nt, eoi) -> fst (parse fuel m finals i ws) = Accept -> sentence nt eoi ws.
Proof. intros Hws. exact (lr_sound g nstates ann trans m finals check_lr0 i Hi ws Hws fuel nt eoi). Qed.

Theorem parse_never_crashes ws fuel why : toks_ok ws -> fst (parse fuel m finals i ws) <> Crash why.
Proof. intros Hws. exact (lr_no_crash g nstates ann trans m finals check_lr0 i Hi ws Hws fuel why). Qed.

Theorem parse_complete ws nt eoi :
  toks_ok ws -> nth_error (g_inputs g) i = Some (nt, eoi) -> sentence nt eoi ws ->
  exists fuel, fst (parse fuel m finals i ws) = Accept.
Proof.
  destruct check_parts as (_ & Hl & _ & _ & _ & _ & _ & _ & Hadv & Hclo & Hrla & Hnull & Hfirst & Hinputs).
  pose proof L_rules as G. pose proof (proj1 G) as HT.
  pose proof (L_advance g m nstates ann Hl Hadv) as Hadv'.
  apply (lr_complete g m finals trans Z items
           (fun rest L inp => sfirst g rest L (hd 0 inp)) G (trans_goto g m)).
  - intros rest L L' inp. apply sfirst_incl.
  - intros xs w rest L inp. apply sfirst_app.
  - exact Hadv'.
  - intros q r d L rl X r' rl' inp Hin Hr HX HX' Hr' Hlhs Hf.
    destruct (L_closure g nstates nl ft ann Hl G Hnull Hfirst Hclo _ _ _ _ _ _ _ _ _ Hin Hr HX HX' Hr' Hlhs Hf) as (L0 & Hin0 & Ha).
    exists L0. split; [exact Hin0|]. right. split; [constructor|exact Ha].
  - intros q r d L rl inp Hin Hr HX Hok _. rewrite Hm. apply trans_shift; [apply (hd_range g G _ Hok)|].
    apply (Hadv' _ _ _ _ _ _ Hin Hr HX).
  - intros q r d L rl inp Hin Hr Hd Hok [(u & Hf)|[_ Hf]]; [inversion Hf|]. rewrite Hm.
    pose proof (L_reduce_la g m nstates ann Hl Hrla _ _ _ _ _ _ Hin Hr Hd Hf) as Hact. split; [exact Hact|].
    pose proof (hd_range g G _ Hok) as Ha.
    destruct (L_reduce _ _ _ (item_state nstates ann Hl _ _ Hin) Ha Hact) as (rn & rl2 & Ern & Hrn & _ & Hlen2 & Hsym2).
    apply Nat2Z.inj in Ern. subst rn. rewrite Hr in Hrn. injection Hrn as <-. auto.
  - intros j nt' eoi' Hinp. destruct (L_inputs g m finals ann Hinputs j nt' eoi' Hinp) as ((L & Hin & HL) & Hwire).
    split; [|exact Hwire]. exists L. split; [exact Hin|]. destruct eoi'.
    + left. exists []. simpl. apply derives_seq_one, derives_tok. lia.
    + intros s Hs. right. split; [constructor|]. apply HL; [reflexivity|]. apply (hd_range g G _ Hs).
Qed.

Local Notation stream_inv := (stream_inv g trans i).

Lemma arun_error_pos ws fuel c' : toks_ok ws -> aparsek fuel m finals i ws = (AError, c') ->
  (Z.to_nat (snd c') < length ws)%nat -> snd (fst c') = skipn (Z.to_nat (snd c')) ws /\ 0 <= snd c'.
Proof.
  unfold aparsek. intros Hws Hrun Hlt.
  destruct (arun_inv g nstates ann trans m finals check_lr0 i Hi ws _ _ _ _ _ (inv_init g trans i ws Hws) Hrun) as [Hinv _].
  destruct c' as [[st inp] n]. destruct Hinv as (Hok & cons & k & Hs & Hstream & Hk & Hn). simpl in *. subst n.
  rewrite Nat2Z.id in *. split; [|lia].
  destruct k as [|k].
  - simpl in Hstream. rewrite app_nil_r in Hstream. subst ws. rewrite skipn_app, skipn_all, Nat.sub_diag. reflexivity.
  - rewrite (Hk ltac:(discriminate)) in Hstream. rewrite app_nil_r in Hstream. subst cons.
    rewrite app_length in Hlt. lia.
Qed.

Lemma astep_prefix st a u v1 v2 n :
  match astepk m (st, (a :: u) ++ v1, n) with
  | ANext (st', inp', n') =>
      (inp' = (a :: u) ++ v1 /\ astepk m (st, (a :: u) ++ v2, n) = ANext (st', (a :: u) ++ v2, n')) \/
      (inp' = u ++ v1 /\ astepk m (st, (a :: u) ++ v2, n) = ANext (st', u ++ v2, n'))
  | AFail b => astepk m (st, (a :: u) ++ v2, n) = AFail b
  end.
Proof.
  unfold astepk. simpl. rewrite (Hm _ _ (u ++ v1)), (Hm _ _ (u ++ v2)).
  destruct (m_act m (top st) a []) as [q|r| |row]; try reflexivity.
  - destruct (a =? 0); [left|right]; split; reflexivity.
  - destruct (length st <=? Z.to_nat (m_rule_len m r))%nat; [reflexivity|].
    destruct (m_goto m _ (m_rule_sym m r) =? -1); [reflexivity|]. left. split; reflexivity.
Qed.

Lemma astep_input_len c c' : astepk m c = ANext c' -> (length (snd (fst c')) <= length (snd (fst c)))%nat.
Proof.
  destruct c as [[st inp] n]. unfold astepk.
  destruct (m_act m (top st) (hd 0 inp) (tl inp)) as [q|r| |row]; try discriminate.
  - intros E. injection E as <-. simpl. destruct (_ =? 0); [lia|]. destruct inp; simpl; lia.
  - destruct (length st <=? Z.to_nat (m_rule_len m r))%nat; [discriminate|].
    destruct (m_goto m _ (m_rule_sym m r) =? -1); [discriminate|]. intros E. injection E as <-. simpl. lia.
Qed.

Lemma arun_input_len e fuel : forall c o c', arunk fuel m e c = (o, c') -> (length (snd (fst c')) <= length (snd (fst c)))%nat.
Proof.
  induction fuel as [|f IH]; intros c o c'; simpl.
  - intros E. injection E as <- <-. lia.
  - destruct (_ =? e); [intros E; injection E as <- <-; lia|].
    destruct (astepk m c) as [c1|[|]] eqn:Es; try (intros E; injection E as <- <-; lia).
    intros E. apply IH in E. apply astep_input_len in Es. lia.
Qed.

Lemma arun_prefix e fuel : forall st u v1 v2 n o st' inp' n',
  arunk fuel m e (st, u ++ v1, n) = (o, (st', inp', n')) -> (length v1 < length inp')%nat ->
  exists u', inp' = u' ++ v1 /\ arunk fuel m e (st, u ++ v2, n) = (o, (st', u' ++ v2, n')).
Proof.
  induction fuel as [|f IH]; intros st u v1 v2 n o st' inp' n'.
  - simpl. intros E Hl. injection E as <- <- <- <-. exists u. split; reflexivity.
  - cbn [arunk]. cbn [fst snd]. destruct (top st =? e).
    + intros E Hl. injection E as <- <- <- <-. exists u. split; reflexivity.
    + destruct u as [|a u].
      * simpl app. intros E Hl. exfalso.
        assert (H : (length inp' <= length v1)%nat).
        { destruct (astepk m (st, v1, n)) as [c1|[|]] eqn:Es.
          - apply arun_input_len in E. apply astep_input_len in Es. simpl in *. lia.
          - injection E as _ _ <- _. lia.
          - injection E as _ _ <- _. lia. }
        lia.
      * pose proof (astep_prefix st a u v1 v2 n) as Hp.
        destruct (astepk m (st, (a :: u) ++ v1, n)) as [[[st1 inp1] n1]|b] eqn:Es.
        -- destruct Hp as [[-> Hp]|[-> Hp]]; rewrite Hp; intros E Hl.
           ++ apply (IH st1 (a :: u) v1 v2 n1 o st' inp' n' E Hl).
           ++ apply (IH st1 u v1 v2 n1 o st' inp' n' E Hl).
        -- rewrite Hp. destruct b; intros E Hl; injection E as <- <- <- <-; exists (a :: u); split; reflexivity.
Qed.

Lemma arun_fuel_mono e f1 : forall c o c', arunk f1 m e c = (o, c') -> o <> AFuel ->
  forall f2, (f1 <= f2)%nat -> arunk f2 m e c = (o, c').
Proof.
  induction f1 as [|f IH]; intros c o c'; simpl.
  - intros E Hne. injection E as <- _. congruence.
  - intros E Hne f2 Hle. destruct f2 as [|f2]; [lia|]. simpl.
    destruct (_ =? e); [exact E|].
    destruct (astepk m c) as [c1|[|]]; try exact E. apply IH; [exact E|exact Hne|lia].
Qed.

Lemma error_run_not_sentence ws fuel nt eoi c' :
  toks_ok ws -> nth_error (g_inputs g) i = Some (nt, eoi) -> aparsek fuel m finals i ws = (AError, c') ->
  ~ sentence nt eoi ws.
Proof.
  intros Hws Hinp Hrun Hs. destruct (parse_complete ws nt eoi Hws Hinp Hs) as (f2 & Hacc).
  pose proof (parse_sim m finals i ws f2) as Hsim. rewrite Hacc in Hsim. unfold aparsek in *.
  destruct (arunk f2 _ _ _) as [o2 c2] eqn:E2. simpl in Hsim. subst o2.
  pose proof (arun_fuel_mono _ _ _ _ _ Hrun ltac:(discriminate) (Nat.max fuel f2) (Nat.le_max_l _ _)) as H1.
  pose proof (arun_fuel_mono _ _ _ _ _ E2 ltac:(discriminate) (Nat.max fuel f2) (Nat.le_max_r _ _)) as H2.
  rewrite H1 in H2. discriminate.
Qed.

Theorem parse_error_position ws fuel nt eoi off eoff k :
  toks_ok ws -> nth_error (g_inputs g) i = Some (nt, eoi) ->
  fst (parse fuel m finals i ws) = SyntaxError off eoff k ->
  ~ sentence nt eoi ws /\
  ((Z.to_nat k < length ws)%nat -> forall z, toks_ok z -> ~ sentence nt eoi (firstn (S (Z.to_nat k)) ws ++ z)).
Proof.
  intros Hws Hinp Hp. pose proof (parse_sim m finals i ws fuel) as Hsim. rewrite Hp in Hsim. destruct Hsim as [H1 H2].
  destruct (aparsek fuel m finals i ws) as [o [[st inp] n]] eqn:Hrun. simpl in H1, H2. subst o k.
  split; [exact (error_run_not_sentence ws fuel nt eoi _ Hws Hinp Hrun)|].
  intros Hlt z Hz.
  destruct (arun_error_pos ws fuel _ Hws Hrun Hlt) as [Hinp' _]. simpl in Hinp', Hlt.
  set (kk := Z.to_nat n) in *.
  assert (Hne : (length (skipn (S kk) ws) < length inp)%nat) by (subst inp; rewrite !skipn_length; lia).
  unfold aparsek in Hrun. rewrite <- (firstn_skipn (S kk) ws) in Hrun.
  destruct (arun_prefix _ _ _ _ _ z _ _ _ _ _ Hrun Hne) as (u' & _ & Hrun2).
  apply (error_run_not_sentence _ fuel nt eoi (st, u' ++ z, n)); [|exact Hinp|exact Hrun2].
  apply Forall_app. split; [apply Forall_firstn'; exact Hws|exact Hz].
Qed.

End Proofs.

Lemma lalr1_machine_nomore t rl rs s a more : m_act (lalr1_machine t rl rs) s a more = m_act (lalr1_machine t rl rs) s a [].
Proof. reflexivity. Qed.
Lemma opt_machine_nomore o terms rl rs s a more : m_act (opt_machine o terms rl rs) s a more = m_act (opt_machine o terms rl rs) s a [].
Proof. reflexivity. Qed.

Section Productive.
Variable g : grammar.

Definition ps_ok (ps : list Z) : Prop := forall x, In x ps -> exists w, derives g x w.

Lemma productive_seq ps xs : ps_ok ps -> forallb (is_productive g ps) xs = true -> exists w, derives_seq g xs w.
Proof.
  intros Hps. induction xs as [|x xs IH]; simpl; intros H; [exists []; constructor|].
  apply andb_true_iff in H. destruct H as [H1 H2]. destruct (IH H2) as [w2 Hw2].
  unfold is_productive in H1. apply orb_true_iff in H1. destruct H1 as [H1|H1].
  - exists ([x] ++ w2). constructor; auto. constructor. exact H1.
  - apply mem_In in H1. destruct (Hps x H1) as [w1 Hw1]. exists (w1 ++ w2). constructor; auto.
Qed.

Lemma productive_set_ok : ps_ok (productive_set g).
Proof.
  unfold productive_set. apply iterate_inv; [intros x []|].
  intros ps Hps. unfold productive_step. apply fold_left_inv; auto.
  intros ps' r Hr Hps'. destruct (forallb _ (r_rhs r)) eqn:E; auto.
  intros x Hx. apply ins_In in Hx. destruct Hx as [->|Hx]; auto.
  destruct (productive_seq ps' (r_rhs r) Hps' E) as [w Hw]. exists w. constructor; auto.
Qed.
End Productive.

Section Live.
Variable g : grammar.
Variable m : machine.
Variable nstates : Z.
Variable finals : list Z.
Variable nl : list Z.
Variable ft : first_table.
Variable ann : cert.
Variable rk : rank_tbl.

Hypothesis Hm : forall s a more, m_act m s a more = m_act m s a [].
Hypothesis Hchk : check g m nstates finals nl ft ann = true.
Hypothesis Hlive : check_live g nstates ann rk = true.

Notation T := (vT g).
Notation NS := (vNS g).
Notation NR := (nrules g).
Notation NI := (ninputs g).

Notation top st := (snd (hd (0, -1) st)).
Notation trans := (trans g m).

Let LR := check_lr0 g m nstates finals nl ft ann Hm Hchk.

Lemma check_len_items : chk_ann_len nstates ann = true /\ chk_items g nstates ann = true.
Proof. destruct (check_parts g m nstates finals nl ft ann Hchk) as (_ & Hl & Hit & _). auto. Qed.

Lemma live_state q : 0 <= q < nstates -> items ann q <> [].
Proof.
  intros Hq. unfold check_live in Hlive. rewrite forallb_forall in Hlive.
  assert (Hin : In q (states nstates)) by (apply in_zrange0; exact Hq).
  apply Hlive in Hin. apply andb_true_iff in Hin. destruct Hin as [H _].
  destruct (items ann q); [discriminate|discriminate].
Qed.

Lemma live_item q r d L rl : In (r, d, L) (items ann q) -> arule g r = Some rl ->
  (exists u, derives_seq g (skipn d (r_rhs rl)) u) /\
  (d = O -> (r < NR)%nat ->
     exists r' d' L' rl', In (r', d', L') (items ann q) /\ arule g r' = Some rl' /\
                          nth_error (r_rhs rl') d' = Some (r_lhs rl) /\
                          (d' <> O \/ 0 <= lrank rk q r' < lrank rk q r)).
Proof.
  intros Hin Hr. pose proof (item_state nstates ann (proj1 check_len_items) q _ Hin) as Hq.
  unfold check_live in Hlive. rewrite forallb_forall in Hlive.
  assert (Hqs : In q (states nstates)) by (apply in_zrange0; exact Hq).
  apply Hlive in Hqs. apply andb_true_iff in Hqs. destruct Hqs as [_ H].
  rewrite forallb_forall in H. specialize (H _ Hin). cbv beta iota in H. rewrite Hr in H.
  apply andb_true_iff in H. destruct H as [H1 H2]. split.
  - apply (productive_seq g (productive_set g)); [apply productive_set_ok|exact H1].
  - intros -> Hlt. simpl in H2. apply Nat.ltb_lt in Hlt. rewrite Hlt in H2.
    apply existsb_exists in H2. destruct H2 as ([[r' d'] L'] & Hin' & H2).
    apply andb_true_iff in H2. destruct H2 as [H2 H3]. unfold dot_sym_is in H2.
    destruct (arule g r') as [rl'|] eqn:Er'; [|discriminate].
    destruct (nth_error (r_rhs rl') d') as [Y|] eqn:EY; [|discriminate]. apply Z.eqb_eq in H2. subst Y.
    exists r', d', L', rl'. repeat split; auto.
    apply orb_true_iff in H3. destruct H3 as [H3|H3].
    + left. apply negb_true_iff in H3. apply Nat.eqb_neq in H3. exact H3.
    + right. apply andb_true_iff in H3. destruct H3 as [H3 H4]. apply Z.leb_le in H3. apply Z.ltb_lt in H4. lia.
Qed.

Variable i : nat.
Hypothesis Hi : (i < NI)%nat.
Variables (nt : Z) (eoi : bool).
Hypothesis Hinp : nth_error (g_inputs g) i = Some (nt, eoi).
Notation path := (path g trans i).

Definition augrhs : list Z := if eoi then [nt; 0] else [nt].

Definition meas (q : Z) (r d : nat) : nat :=
  match d with O => S (Z.to_nat (lrank rk q r)) | S _ => O end.

(* Induction on the stack length and, for a fixed stack, on [meas]: the fresh item [r, 0] d symbols down is justified by
   an item of the same state there; for d > 0 that state is lower in the stack, for d = 0 the justifying item has the dot
   moved (meas 0) or a smaller rank *)
Lemma live_core : forall n k st cons r d L rl u,
  length st = n -> meas (top st) r d = k ->
  path st cons -> In (r, d, L) (items ann (top st)) -> arule g r = Some rl ->
  derives_seq g (skipn d (r_rhs rl)) u ->
  exists z, derives_seq g augrhs (cons ++ u ++ z).
Proof.
  induction n as [n IHn] using lt_wf_ind. induction k as [k IHk] using lt_wf_ind.
  intros st cons r d L rl u Hn Hk Hs Hin Hr Hu.
  destruct (path_item g nstates ann trans i (ok_auto _ _ _ _ _ _ LR) Hi d st cons r L rl Hs Hin Hr)
    as (Hlen & c1 & c2 & -> & Hs1 & Hd2 & Hh0).
  assert (Hfull : derives_seq g (r_rhs rl) (c2 ++ u)).
  { rewrite <- (firstn_skipn d (r_rhs rl)). apply derives_seq_app; auto. }
  apply has_item_In in Hh0. destruct Hh0 as (L0 & Hin0).
  destruct (lt_dec r NR) as [Hreal|Haug].
  - assert (Hnth : nth_error (g_rules g) r = Some rl).
    { unfold arule in Hr. apply Nat.ltb_lt in Hreal. rewrite Hreal in Hr. exact Hr. }
    assert (Hlhs : derives g (r_lhs rl) (c2 ++ u)) by (constructor; [eapply nth_error_In; eauto|exact Hfull]).
    destruct (live_item _ _ _ _ _ Hin0 Hr) as [_ Hj].
    destruct (Hj eq_refl Hreal) as (r' & d' & L' & rl' & Hin' & Hr' & HX & Hrank).
    destruct (live_item _ _ _ _ _ Hin' Hr') as [[v0 Hv0] _].
    rewrite (nth_error_skipn_cons _ _ _ HX) in Hv0.
    inversion Hv0 as [|x xs w1 v Hx Hv]; subst.
    assert (Hu' : derives_seq g (skipn d' (r_rhs rl')) ((c2 ++ u) ++ v)).
    { rewrite (nth_error_skipn_cons _ _ _ HX). constructor; auto. }
    assert (Hrec : exists z', derives_seq g augrhs (c1 ++ ((c2 ++ u) ++ v) ++ z')).
    { destruct d as [|d0].
      - simpl skipn in *.
        apply (IHk (meas (top st) r' d')) with (st := st) (r := r') (d := d') (L := L') (rl := rl'); auto.
        unfold meas. destruct d' as [|d1]; [|lia].
        destruct Hrank as [Hrank|Hrank]; [congruence|]. lia.
      - apply (IHn (length (skipn (S d0) st))) with (k := meas (top (skipn (S d0) st)) r' d')
                                                     (st := skipn (S d0) st) (r := r') (d := d') (L := L') (rl := rl'); auto.
        rewrite skipn_length. lia. }
    destruct Hrec as [z' Hz']. exists (v ++ z').
    replace ((c1 ++ c2) ++ u ++ v ++ z') with (c1 ++ ((c2 ++ u) ++ v) ++ z') by (rewrite <- !app_assoc; reflexivity).
    exact Hz'.
  - assert (Haugr : aug_rule g (r - NR) = Some rl).
    { unfold arule in Hr. assert (E : (r <? NR)%nat = false) by (apply Nat.ltb_ge; lia). rewrite E in Hr. exact Hr. }
    unfold aug_rule in Haugr. destruct (nth_error (g_inputs g) (r - NR)) as [[nt' eoi']|] eqn:Einp'; [|discriminate].
    destruct (ok_final _ _ _ _ _ _ LR _ _ _ Einp') as (_ & Huniq).
    assert (Hp : top (skipn d st) = Z.of_nat (r - NR)).
    { apply Huniq. apply has_item_In. replace (NR + (r - NR))%nat with r by lia. eauto. }
    destruct (path_bottom g nstates ann trans i (ok_auto _ _ _ _ _ _ LR) Hi _ _ Hs1) as [Hb ->].
    { pose proof (input_index_lt _ _ _ Einp'). lia. }
    rewrite Hb in Hp. apply Nat2Z.inj in Hp. rewrite <- Hp, Hinp in Einp'.
    injection Einp' as <- <-. injection Haugr as <-. exists []. rewrite app_nil_r. exact Hfull.
Qed.

Theorem parse_error_viable ws fuel off eoff k :
  toks_ok g ws -> fst (parse fuel m finals i ws) = SyntaxError off eoff k ->
  exists z, toks_ok g z /\ sentence g nt eoi (firstn (Z.to_nat k) ws ++ z).
Proof.
  intros Hws Hp. pose proof (parse_sim m finals i ws fuel) as Hsim. rewrite Hp in Hsim. destruct Hsim as [_ H2].
  unfold aparsek in H2. destruct (arunk fuel m _ _) as [o [[st inp] n]] eqn:Hrun. simpl in H2. subst k.
  destruct (arun_inv g nstates ann trans m finals LR i Hi ws _ _ _ _ _ (inv_init g trans i ws Hws) Hrun) as [Hinv _].
  destruct Hinv as (Hok & cons & k & Hs & Hstream & Hk & ->). rewrite Nat2Z.id.
  pose proof (path_state g nstates ann trans i (ok_auto _ _ _ _ _ _ LR) Hi _ _ Hs) as Hq.
  pose proof (live_state _ Hq) as Hne.
  destruct (items ann (top st)) as [|[[r d] L] its] eqn:Eits; [congruence|].
  assert (Hin : In (r, d, L) (items ann (top st))) by (rewrite Eits; left; reflexivity).
  destruct (L_items g nstates ann (proj1 check_len_items) (proj2 check_len_items) _ _ _ _ Hin) as (rl & Hr & _).
  destruct (live_item _ _ _ _ _ Hin Hr) as [[u Hu] _].
  destruct (live_core _ _ st cons r d L rl u eq_refl eq_refl Hs Hin Hr Hu) as [z Hz].
  destruct (aug_yield g (ok_rules _ _ _ _ _ _ LR) nt eoi _ (nth_error_In _ _ Hinp) Hz) as (v & Hv & Hnz & E).
  assert (Hc : exists j, cons = firstn (length cons) ws ++ repeat 0 j).
  { destruct k as [|k].
    - exists O. simpl in Hstream. rewrite app_nil_r in *. subst ws. rewrite firstn_app, firstn_all, Nat.sub_diag, !app_nil_r. reflexivity.
    - exists (S k). rewrite (Hk ltac:(discriminate)), app_nil_r in Hstream. subst cons.
      rewrite firstn_all2 by (rewrite app_length; lia). reflexivity. }
  destruct Hc as (j & Hc). rewrite Hc, <- app_assoc in E.
  destruct (app_prefix_repeat _ _ _ _ (fun H0 => toks_no_zero g ws Hws (In_firstn _ _ _ H0)) E) as (z' & ->).
  exists z'. split; [apply Forall_app in Hnz; apply Hnz|]. destruct eoi; [exact Hv|]. exists (firstn (length cons) ws ++ z'), []. rewrite app_nil_r. auto.
Qed.
End Live.
