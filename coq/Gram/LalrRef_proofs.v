(* C03: the LALR(1) theorems for the reference construction under the light certificate (wf_grammar, ref_done,
   la_stable), and the lookahead sets shown in its state views (compared with textmapper, used by the cell oracle). *)
From Coq Require Import List ZArith Bool.
From TM Require Import Gram.LalrRef Gram.LalrTables Gram.LalrSpec Gram.LalrSpec_proofs Gram.LalrCert Gram.LalrSpec_proofs2 Gram.LalrCert_proofs Gram.LalrDone Gram.LalrBuild_proofs.
Import ListNotations.
Local Open Scope Z_scope.

Theorem ref_la_sound g fuel : wf_grammar g = true -> ref_done g fuel = true ->
  let a := fst (build_automaton g fuel) in
  forall fuel' q it x, In x (la_get (lalr_la g a fuel') q it) -> lalr1 g a q it x.
Proof. intros Hwf Hd a. destruct (build_automaton_ok g fuel Hwf Hd). apply lalr_la_sound; auto. Qed.

Lemma ref_light_hyps g fuel : ref_cert_light g fuel = true -> la_hyps g (fst (build_automaton g fuel)) fuel.
Proof.
  unfold ref_cert_light. intros H. apply andb_true_iff in H. destruct H as [H Hst].
  apply andb_true_iff in H. destruct H as [Hwf Hd]. destruct (wf_grammar_range g Hwf) as (_ & Hr & _).
  constructor; [apply range_wf_lhs, Hr|apply nullable_set_closed, Hr|apply first_sets_closed, Hr|exact Hst|].
  apply build_automaton_ok; assumption.
Qed.

Theorem ref_la_exact g fuel : ref_cert_light g fuel = true ->
  let a := fst (build_automaton g fuel) in
  forall q it x, In x (la_get (lalr_la g a fuel) q it) <-> lalr1 g a q it x.
Proof. intros H. apply la_exact, ref_light_hyps, H. Qed.

Theorem ref_la_covers g fuel : ref_cert_light g fuel = true ->
  let a := fst (build_automaton g fuel) in
  forall i gamma it x, lr1_valid g i gamma it x ->
  exists q, reach a i gamma q /\ In x (la_get (lalr_la g a fuel) q it).
Proof. intros H. apply la_covers, ref_light_hyps, H. Qed.

Theorem ref_la_exact_small g fuel :
  wf_grammar g = true -> ref_done g fuel = true ->
  let a := fst (build_automaton g fuel) in
  (length (lalr_la g a fuel) + la_size (lalr_la g a fuel) < fuel)%nat ->
  forall q it x, In x (la_get (lalr_la g a fuel) q it) <-> lalr1 g a q it x.
Proof.
  intros Hwf Hd a Hsmall. apply ref_la_exact. unfold ref_cert_light. fold a.
  rewrite Hwf, Hd. simpl. apply lalr_la_stable_if_small. exact Hsmall.
Qed.

Lemma views_la_all g a la q v j r L :
  nth_error (views g a la) q = Some v -> nth_error (v_reduce v) j = Some r -> nth_error (v_la_all v) j = Some L ->
  L = la_get la (Z.of_nat q) (r, rule_len g r).
Proof.
  unfold views. rewrite nth_error_map, nth_error_combine_zrange. intros Hv Hr HL.
  destruct (nth_error (a_states a) q) as [st|]; [|discriminate]. simpl in Hv. injection Hv as <-.
  match goal with H : nth_error (v_reduce (let '(_, _) := ?p in _)) _ = _ |- _ => destruct p as [sh lr0] end.
  cbn [v_reduce v_la_all] in Hr, HL. rewrite nth_error_map, Hr in HL. simpl in HL. injection HL as <-. reflexivity.
Qed.

Lemma ro_views_reference g fuel :
  ro_views (reference g fuel) = let a := fst (build_automaton g fuel) in views g a (lalr_la g a fuel).
Proof.
  unfold reference. destruct (build_automaton g fuel) as [a finals]. simpl fst.
  destruct (build_goto g (views g a (lalr_la g a fuel))). reflexivity.
Qed.

Lemma ref_cert_la_cert g fuel : ref_cert g fuel = true -> la_cert g (fst (build_automaton g fuel)) fuel = true.
Proof. unfold ref_cert. destruct (build_automaton g fuel). auto. Qed.

Lemma views_la_exact g fuel : la_hyps g (fst (build_automaton g fuel)) fuel ->
  let a := fst (build_automaton g fuel) in
  forall q v, nth_error (ro_views (reference g fuel)) q = Some v ->
  forall j r L, nth_error (v_reduce v) j = Some r -> nth_error (v_la_all v) j = Some L ->
  forall x, In x L <-> lalr1 g a (Z.of_nat q) (r, rule_len g r) x.
Proof.
  intros H a q v Hv j r L Hr HL. rewrite ro_views_reference in Hv. rewrite (views_la_all _ _ _ _ _ _ _ _ Hv Hr HL).
  apply la_exact, H.
Qed.

Theorem reference_views_la g fuel : ref_cert g fuel = true ->
  let a := fst (build_automaton g fuel) in
  forall q v, nth_error (ro_views (reference g fuel)) q = Some v ->
  forall j r L, nth_error (v_reduce v) j = Some r -> nth_error (v_la_all v) j = Some L ->
  forall x, In x L <-> lalr1 g a (Z.of_nat q) (r, rule_len g r) x.
Proof. intros Hc. apply views_la_exact, la_cert_hyps, ref_cert_la_cert, Hc. Qed.

Theorem reference_views_la_light g fuel : ref_cert_light g fuel = true ->
  let a := fst (build_automaton g fuel) in
  forall q v, nth_error (ro_views (reference g fuel)) q = Some v ->
  forall j r L, nth_error (v_reduce v) j = Some r -> nth_error (v_la_all v) j = Some L ->
  forall x, In x L <-> lalr1 g a (Z.of_nat q) (r, rule_len g r) x.
Proof. intros Hc. apply views_la_exact, ref_light_hyps, Hc. Qed.
