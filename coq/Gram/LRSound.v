(* C07: the vocabulary of the LALR(k) statements (terminal lists, the next terminal), and the certified paths of
   LRLoop_proofs.v for an automaton whose transition function is the goto function of the machine. *)
From Coq Require Import List ZArith Lia.
From TM Require Import Gram.Cfg Gram.Run Gram.Derive Gram.Validator Gram.LRLoop_proofs.
Import ListNotations.
Local Open Scope Z_scope.

Section K.
Variable g : grammar.
Variable m : machine.
Variable nstates : Z.
Variable ann : cert.

Notation T := (vT g).
Notation NS := (vNS g).
Notation NI := (ninputs g).
Notation items := (items ann).
Notation has_item := (has_item ann).
Notation trans := (m_goto m).
Notation arule := (arule g).

Hypothesis L_ninputs : Z.of_nat NI <= nstates.
Hypothesis L_trans : forall p X, 0 <= p < nstates -> 0 <= X < NS -> 0 <= trans p X ->
  Z.of_nat NI <= trans p X < nstates /\
  forall r d' L, In (r, S d', L) (items (trans p X)) ->
    exists rl, arule r = Some rl /\ nth_error (r_rhs rl) d' = Some X /\ has_item p r d' = true.
Hypothesis L_start : forall i r d L, (i < NI)%nat -> In (r, d, L) (items (Z.of_nat i)) -> d = O.

Variable i : nat.
Hypothesis Hi : (i < NI)%nat.

Inductive stk : list (Z * Z) -> list Z -> Prop :=
| stk_bot s : stk [(s, Z.of_nat i)] []
| stk_cons X q b rest w1 w2 :
    stk (b :: rest) w1 -> 0 <= X < NS -> trans (snd b) X = q -> 0 <= q -> derives g X w2 ->
    stk ((X, q) :: b :: rest) (w1 ++ w2).

Lemma stk_path st w : stk st w -> path g trans i st w.
Proof.
  induction 1 as [s | X q b rest w1 w2 Hs IH HX Hq Hq0 Hd]; [constructor|].
  subst q. apply (path_cons g trans i X (b :: rest)); assumption.
Qed.

Lemma spelled d : forall st w r L rl, stk st w -> In (r, d, L) (items (snd (hd (0, -1) st))) -> arule r = Some rl ->
  (d < length st)%nat /\ rev (map fst (firstn d st)) = firstn d (r_rhs rl) /\ has_item (snd (nth d st (0, -1))) r 0 = true.
Proof.
  intros st w r L rl Hs. apply stk_path in Hs.
  exact (path_spelled g nstates ann trans i (Build_auto_ok g nstates ann trans L_ninputs L_trans L_start) Hi d st w r L rl Hs).
Qed.

Definition nxt (inp : list Z) : Z := match inp with x :: _ => x | [] => 0 end.
Definition toks_ok (inp : list Z) : Prop := Forall (fun a => 1 <= a < T) inp.

End K.
