(* C19: progress after error recovery.  After recoverFromError succeeds with next token t, the main loop performs
   exactly the reductions reduceAll simulated on its state stack (stack2) and then shifts t (or reaches the end
   state); hence every recovery episode consumes at least one input token or ends the parse, and the recovering
   loop terminates whenever the reductions of the plain loop do. *)
From Coq Require Import List ZArith Bool Lia.
From TM Require Import Gram.PTables Gram.Run Gram.Validator Gram.Events Gram.XStep_proofs Gram.Recover Gram.Recover_proofs.
Import ListNotations.
Local Open Scope Z_scope.

Section P.
Variable p : rparams.
Variable eh : nat -> bool.

Notation m := (rp_m p).
Notation eoi := (rp_eoi_off p).
Notation next input := (next_tok eoi input).
Notation rlen rule := (Z.to_nat (m_rule_len m rule)).
Notation act1 x := (m_act m (xc_state x) (t_sym (next (xc_input x))) []).
Notation halts f c := (fst (rrun_loop f p eh c) <> RFuel).
Notation dep c := (length (xc_stack (rc_x c))).

(* LALR(1): the action does not look beyond the next terminal (lalr1_machine, opt_machine) *)
Definition lalr1 : Prop := forall s a more, m_act m s a more = m_act m s a [].
(* reduceAll's final test is the loop's shift test *)
Definition shift_ok_sound : Prop := forall s a, rp_shift_ok p s a = true -> exists q, m_act m s a [] = Shift q.

Hypothesis Hnm : lalr1.
Hypothesis Hso : shift_ok_sound.
Hypothesis Hend : 0 <= rp_end p.

Inductive rsteps : nat -> rconfig -> rconfig -> Prop :=
| rs_O c : rsteps O c c
| rs_S k c c1 c' : xc_state (rc_x c) <> rp_end p -> rstep p eh c = RContinue c1 -> rsteps k c1 c' -> rsteps (S k) c c'.

Lemma rsteps_loop k c c' : rsteps k c c' -> forall g, rrun_loop (k + g) p eh c = rrun_loop g p eh c'.
Proof.
  induction 1 as [c | k c c1 c' Hne Hst _ IH]; intros g; [reflexivity|].
  simpl. apply Z.eqb_neq in Hne. rewrite Hne, Hst. apply IH.
Qed.

Lemma rsteps_trans k1 k2 c1 c2 c3 : rsteps k1 c1 c2 -> rsteps k2 c2 c3 -> rsteps (k1 + k2) c1 c3.
Proof. induction 1; intros H2; simpl; [exact H2|]. econstructor; eauto. Qed.

Definition plain_reduce (x : xconfig) : option xconfig :=
  match m_act m (xc_state x) (t_sym (next_tok eoi (xc_input x))) (map t_sym (tl (xc_input x))) with
  | Reduce _ => match xstep m (rp_evt p) (rp_fixws p) eoi x with XContinue x' => Some x' | XStop _ => None end
  | _ => None
  end.
Fixpoint reduces_for (n : nat) (x : xconfig) : bool :=
  match n with
  | O => true
  | S k => match plain_reduce x with Some x' => reduces_for k x' | None => false end
  end.

Lemma reduces_for_mono n : forall x n', reduces_for n x = false -> (n <= n')%nat -> reduces_for n' x = false.
Proof.
  induction n as [|n IH]; intros x n' H Hle; [discriminate|]. destruct n' as [|n']; [lia|]. simpl in *.
  destruct (plain_reduce x) as [x'|]; [apply IH; [exact H|lia]|reflexivity].
Qed.

Lemma reduces_for_lt k n x : reduces_for k x = true -> reduces_for n x = false -> (k < n)%nat.
Proof.
  intros Hk Hn. destruct (le_lt_dec n k) as [Hle|Hlt]; [|exact Hlt].
  rewrite (reduces_for_mono n x k Hn Hle) in Hk. discriminate.
Qed.

Definition pr_of (a : act) (xr : xstep_result) : option xconfig :=
  match a with Reduce _ => match xr with XContinue x' => Some x' | XStop _ => None end | _ => None end.

(* rstep_cases with its indices named: each case comes with equations for the action, the result of the iteration
   and plain_reduce *)
Lemma rstep_cases1 x r errs l : exists a res xr, act1 x = a /\ rstep p eh (mkRC x r errs l) = res /\
  plain_reduce x = pr_of a xr /\ rstep_view p eh x r errs l a res xr.
Proof.
  eexists _, _, _. split; [reflexivity|]. split; [reflexivity|]. rewrite <- (Hnm _ _ (map t_sym (tl (xc_input x)))).
  split; [reflexivity|apply rstep_cases].
Qed.

Inductive reduce_view (x : xconfig) : Prop :=
| PV_reduce rule e evs : act1 x = Reduce rule -> (rlen rule < length (xc_stack x))%nat -> goto_after m (xc_stack x) rule <> -1 ->
    x_sym e = m_rule_sym m rule -> x_state e = goto_after m (xc_stack x) rule ->
    plain_reduce x = Some (reduced m x rule e evs) ->
    reduce_view x
| PV_stuck : (forall rule, act1 x = Reduce rule ->
                (length (xc_stack x) <= rlen rule)%nat \/ goto_after m (xc_stack x) rule = -1) ->
    plain_reduce x = None -> reduce_view x.

Lemma plain_reduce_cases x : reduce_view x.
Proof.
  pose proof (xstep_cases m (rp_evt p) (rp_fixws p) eoi x) as V. rewrite Hnm in V.
  assert (Epr : plain_reduce x = match act1 x with
                                 | Reduce _ => match xstep m (rp_evt p) (rp_fixws p) eoi x with XContinue x' => Some x' | XStop _ => None end
                                 | _ => None end) by (unfold plain_reduce; rewrite Hnm; reflexivity).
  remember (act1 x) as a eqn:Ea. revert Epr. destruct V as [q e _ _|rule e evs Hl Hg Hs Hq|a o _ Hr _]; intros Epr.
  - apply PV_stuck; [rewrite <- Ea; discriminate|exact Epr].
  - eapply PV_reduce; eauto.
  - apply PV_stuck; [rewrite <- Ea; exact Hr|]. rewrite Epr. destruct a; reflexivity.
Qed.

Lemma plain_reduce_input x x' : plain_reduce x = Some x' -> xc_input x' = xc_input x.
Proof. intros E. destruct (plain_reduce_cases x) as [? ? ? _ _ _ _ _ Epr|_ Epr]; rewrite Epr in E; [|discriminate]. injection E as <-. reflexivity. Qed.

Lemma rstep_of_plain_reduce x x' r errs l : plain_reduce x = Some x' ->
  rstep p eh (mkRC x r errs l) = RContinue (mkRC x' r errs l).
Proof.
  unfold plain_reduce. destruct (rstep_cases p eh x r errs l) as [| | | |a]; try destruct a; intros E; try discriminate E. injection E as <-. reflexivity.
Qed.

Lemma reduce_all_state f stack stack2 state symbol res :
  reduce_all f p stack stack2 state symbol = Some res -> state <> -1.
Proof.
  destruct f as [|f]; [discriminate|]. simpl.
  destruct (state =? rp_end p) eqn:E; [apply Z.eqb_eq in E; lia|].
  destruct (state <? 0) eqn:E0; [discriminate|]. apply Z.ltb_ge in E0. lia.
Qed.

Definition vstack (S stack : list xentry) (stack2 : list Z) : Prop :=
  exists new, S = new ++ stack /\ map x_state new = stack2.

Lemma hd_map_state (l : list xentry) : l <> [] -> hd 0 (map x_state l) = x_state (hd xdummy l).
Proof. destruct l; [congruence|reflexivity]. Qed.

(* One round of reduceAll next to the loop's stack `real` (vstack): it answers, or walks below the stack (exactly
   when the loop's reduction would pop the bottom entry), or goes on with the state the loop's reduction pushes,
   again next to the loop's stack. *)
Inductive ra_view (f : nat) (state symbol : Z) (real : list xentry) : option (Z * bool) -> Prop :=
| RA_end : state = rp_end p -> ra_view f state symbol real (Some (state, symbol =? 0))
| RA_neg : state < 0 -> ra_view f state symbol real None
| RA_deep : ra_view f state symbol real (Some (0, false))
| RA_other : state <> rp_end p -> (forall rule, m_act m state symbol [] <> Reduce rule) ->
    ra_view f state symbol real (Some (state, rp_shift_ok p state symbol))
| RA_under rule : m_act m state symbol [] = Reduce rule -> (length real <= rlen rule)%nat ->
    ra_view f state symbol real None
| RA_pop rule stack' stack2' st : state <> rp_end p -> m_act m state symbol [] = Reduce rule ->
    (rlen rule < length real)%nat -> st = goto_after m real rule ->
    (forall e, x_state e = st -> vstack (e :: skipn (rlen rule) real) stack' (st :: stack2')) ->
    ra_view f state symbol real (reduce_all f p stack' (st :: stack2') st symbol).

Lemma reduce_all_cases f stack stack2 state symbol real : vstack real stack stack2 -> stack2 <> [] -> hd 0 stack2 = state ->
  ra_view f state symbol real (reduce_all (S f) p stack stack2 state symbol).
Proof.
  intros (new & -> & Enew) Hne Hhd. cbn [reduce_all].
  destruct (Z.eqb_spec state (rp_end p)) as [Eend|Eend]; [apply RA_end; exact Eend|].
  destruct (Z.ltb_spec state 0) as [Eneg|Eneg]; [apply RA_neg; exact Eneg|].
  destruct (rp_deep p state symbol); [apply RA_deep|].
  destruct (m_act m state symbol []) as [q|rule| |row] eqn:Eact; try (apply RA_other; [exact Eend|rewrite Eact; discriminate]).
  assert (Hlen : length new = length stack2) by (rewrite <- Enew; symmetry; apply map_length).
  destruct (rlen rule) as [|n] eqn:Eln.
  - (* empty rule: push *)
    destruct new as [|e0 new0]; [simpl in Enew; congruence|].
    eapply (RA_pop _ _ _ _ rule stack stack2); try eassumption.
    + rewrite Eln. simpl. lia.
    + unfold goto_after. rewrite Eln. simpl. rewrite <- Hhd, <- Enew. reflexivity.
    + intros e He. rewrite Eln. exists (e :: e0 :: new0). split; [reflexivity|]. simpl. rewrite He. simpl in Enew. rewrite Enew. reflexivity.
  - rewrite <- Hlen. destruct (Nat.ltb_spec (S n) (length new)) as [Hlt|Hge].
    + (* pops inside stack2 *)
      assert (Esk : skipn (S n) (new ++ stack) = skipn (S n) new ++ stack).
      { rewrite skipn_app. replace (S n - length new)%nat with O by lia. reflexivity. }
      assert (Hb : hd 0 (skipn (S n) stack2) = match skipn (S n) (new ++ stack) with b :: _ => x_state b | [] => -1 end).
      { rewrite Esk, <- Enew, skipn_map. destruct (skipn (S n) new) as [|b0 r0] eqn:E0; [|reflexivity].
        apply (f_equal (@length _)) in E0. rewrite skipn_length in E0. simpl in E0. lia. }
      eapply (RA_pop _ _ _ _ rule stack (skipn (S n) stack2)); try eassumption.
      * rewrite Eln, app_length. lia.
      * unfold goto_after. rewrite Eln, <- Hb. reflexivity.
      * intros e He. rewrite Eln, Esk. exists (e :: skipn (S n) new). split; [reflexivity|].
        cbn [map]. rewrite He, <- Enew, skipn_map. reflexivity.
    + (* pops into the real stack *)
      assert (Esk : skipn (S n) (new ++ stack) = skipn (S n - length new) stack).
      { rewrite skipn_app, skipn_all2 by lia. reflexivity. }
      destruct (skipn (S n - length new) stack) as [|b rest] eqn:Erest.
      * apply (RA_under _ _ _ _ rule Eact). apply (f_equal (@length _)) in Erest.
        rewrite skipn_length in Erest. cbn [length] in Erest. rewrite Eln, app_length. lia.
      * eapply (RA_pop _ _ _ _ rule (b :: rest) []); try eassumption.
        -- apply (f_equal (@length _)) in Erest. rewrite skipn_length in Erest. cbn [length] in Erest. rewrite Eln, app_length. lia.
        -- unfold goto_after. rewrite Eln, Esk. reflexivity.
        -- intros e He. rewrite Eln, Esk. exists [e]. split; [reflexivity|]. simpl. rewrite He. reflexivity.
Qed.

Lemma reduce_all_sim f : forall stack stack2 state symbol s',
  reduce_all f p stack stack2 state symbol = Some (s', true) ->
  forall x r errs l,
  vstack (xc_stack x) stack stack2 -> stack2 <> [] -> hd 0 stack2 = state -> xc_state x = state ->
  t_sym (next_tok eoi (xc_input x)) = symbol ->
  exists k x', (k <= f)%nat /\ rsteps k (mkRC x r errs l) (mkRC x' r errs l) /\ xc_input x' = xc_input x /\
    reduces_for k x = true /\
    (xc_state x' = rp_end p \/ exists q, m_act m (xc_state x') symbol [] = Shift q).
Proof.
  induction f as [|f IH]; intros stack stack2 state symbol s' Hra x r errs l Hv Hne Hhd Hst Hsym; [discriminate|].
  revert Hra. destruct (reduce_all_cases f stack stack2 state symbol (xc_stack x) Hv Hne Hhd)
    as [Eend|_| |_ Hact|rule _ _|rule stack' stack2' st Eend Hact Hlen Est Hv']; intros Hra; try discriminate.
  1, 2: exists O, x; split; [lia|]; split; [constructor|]; split; [reflexivity|]; split; [reflexivity|].
  - left. congruence.
  - injection Hra as _ Hok. right. rewrite Hst. exact (Hso _ _ Hok).
  - pose proof (reduce_all_state _ _ _ _ _ _ Hra) as Hst1.
    rewrite <- Hst, <- Hsym in Hact.
    destruct (plain_reduce_cases x) as [rule0 e evs Hact0 _ _ _ He Epr|Hstuck _];
      [rewrite Hact in Hact0; injection Hact0 as <-; rewrite <- Est in *|destruct (Hstuck rule Hact); [lia|congruence]].
    destruct (IH _ _ _ _ _ Hra (reduced m x rule e evs) r errs l)
      as (k & x' & Hk & Hsteps & Hin & Hrf & Hfin); [apply Hv'; exact He|discriminate|reflexivity|symmetry; exact Est|exact Hsym|].
    exists (S k), x'. split; [lia|]. split.
    + econstructor; [cbn [rc_x]; congruence|apply rstep_of_plain_reduce; exact Epr|exact Hsteps].
    + split; [exact Hin|]. split; [simpl; rewrite Epr; exact Hrf|exact Hfin].
Qed.

Definition shifts (c c' : rconfig) : Prop :=
  exists q e, act1 (rc_x c) = Shift q /\ rstep p eh c = RContinue c' /\ rc_errors c' = rc_errors c /\
    rc_x c' = shifted eoi (rc_x c) q e.

Lemma rstep_shift c q : act1 (rc_x c) = Shift q -> exists c', shifts c c'.
Proof.
  destruct c as [x r errs l]. cbn [rc_x]. intros Hact. destruct (rstep_cases1 x r errs l) as (a & res & xr & Ea & Er & _ & V).
  rewrite Hact in Ea. destruct V as [q0 e _ _| | | |a o Hs]; try discriminate; [|destruct (Hs q); symmetry; exact Ea].
  injection Ea as ->. eexists. exists q0, e. split; [exact Hact|]. split; [exact Er|]. split; reflexivity.
Qed.

(* Progress after recovery: when handle_error continues, the loop performs at most 4 * (|stack| + 1) + 64
   iterations -- the reductions reduceAll simulated, input untouched, no error reported -- and then is in the end state or
   shifts the next token. *)
Theorem recovery_progress c0 stack events c1 : handle_error p eh c0 stack events = RContinue c1 ->
  is_suffix (xc_input (rc_x c1)) (xc_input (rc_x c0)) /\ (dep c1 <= S (length stack))%nat /\
  exists k c2, (k <= S (length stack) * 4 + 64)%nat /\ rsteps k c1 c2 /\
    xc_input (rc_x c2) = xc_input (rc_x c1) /\ rc_errors c2 = rc_errors c1 /\ reduces_for k (rc_x c1) = true /\
    (xc_state (rc_x c2) = rp_end p \/ exists c3, shifts c2 c3).
Proof.
  intros H. destruct (handle_error_spec p eh c0 stack events) as (Hsuf & _ & Hc). rewrite H in *. cbn [result_config] in *.
  destruct Hc as (st & e0 & s' & Hin & Hstk & _ & He0 & Hst & Hra).
  split; [exact Hsuf|]. split.
  { destruct (positions_suffix p _ _ Hin) as (n & _ & -> & _). rewrite Hstk. simpl. rewrite skipn_length. lia. }
  destruct c1 as [x1 r1 errs1 l1]. cbn [rc_x rc_errors] in *.
  destruct (reduce_all_sim _ _ _ _ _ _ Hra x1 r1 errs1 l1) as (k & x' & Hk & Hsteps & Hin' & Hrf & Hfin); try reflexivity.
  - exists [e0]. split; [exact Hstk|]. simpl. rewrite He0. reflexivity.
  - discriminate.
  - exact Hst.
  - exists k, (mkRC x' r1 errs1 l1). split; [exact Hk|]. split; [exact Hsteps|]. cbn [rc_x rc_errors].
    split; [exact Hin'|]. split; [reflexivity|]. split; [exact Hrf|].
    destruct Hfin as [Hfin|(q & Hq)]; [left; exact Hfin|right]. apply (rstep_shift _ q). cbn [rc_x]. rewrite Hin'. exact Hq.
Qed.

Lemma rstep_stop c o c' : rstep p eh c = RStop o c' -> o <> RFuel.
Proof.
  destruct c as [x r errs l].
  destruct (rstep_cases p eh x r errs l) as [| | |rule e evs c0 o' _ _ _ _ _ _|a o' _ _ _]; try discriminate.
  - intros E. injection E as <- _. discriminate.
  - intros E. pose proof (handle_error_spec p eh c0 (e :: skipn (rlen rule) (xc_stack x)) (xc_events x ++ evs)) as (_ & _ & H).
    rewrite E in H. intros ->. exact H.
  - intros E. pose proof (handle_error_spec p eh (mkRC x r errs l) (xc_stack x) (xc_events x)) as (_ & _ & H).
    rewrite E in H. intros ->. exact H.
Qed.

Lemma halts_end c g : xc_state (rc_x c) = rp_end p -> halts (S g) c.
Proof. intros H. simpl. apply Z.eqb_eq in H. rewrite H. discriminate. Qed.

Lemma halts_stop c o c' g : rstep p eh c = RStop o c' -> halts (S g) c.
Proof. intros H. simpl. destruct (_ =? rp_end p); [discriminate|]. rewrite H. exact (rstep_stop _ _ _ H). Qed.

Lemma halts_step c c' f : rstep p eh c = RContinue c' -> halts f c' -> halts (S f) c.
Proof. intros H Hf. simpl. destruct (_ =? rp_end p); [discriminate|]. rewrite H. exact Hf. Qed.

Lemma halts_steps k c c' f : rsteps k c c' -> halts f c' -> halts (k + f) c.
Proof. intros H Hf. rewrite (rsteps_loop _ _ _ H). exact Hf. Qed.

Lemma rrun_fuel_mono f : forall c o c', rrun_loop f p eh c = (o, c') -> o <> RFuel ->
  forall g, rrun_loop (f + g) p eh c = (o, c').
Proof.
  induction f as [|f IH]; intros c o c' H Ho g; simpl in *; [injection H as <- _; congruence|].
  destruct (_ =? rp_end p); [exact H|]. destruct (rstep p eh c) as [c1|o1 c1]; [apply IH; assumption|exact H].
Qed.

Lemma halts_le f g c : (f <= g)%nat -> halts f c -> halts g c.
Proof.
  intros Hle Hf. destruct (rrun_loop f p eh c) as [o c'] eqn:E. replace g with (f + (g - f))%nat by lia.
  rewrite (rrun_fuel_mono f c o c' E Hf). exact Hf.
Qed.

Definition reductions_terminate : Prop := forall x, exists n, reduces_for n x = false.
Definition eoi_ends : Prop := forall s q, m_act m s 0 [] = Shift q -> q = rp_end p.
Definition reductions_bounded (R : nat) : Prop := forall x, reduces_for (S R) x = false.

Fixpoint fuelT (R T : nat) : nat := match T with O => R + 3 | S T' => 2 * R + 3 + fuelT R T' end.

Lemma fuelT_ge R T : (R + 3 <= fuelT R T)%nat.
Proof. induction T; simpl; lia. Qed.

Lemma fuelT_mono R T : forall T', (T <= T')%nat -> (fuelT R T <= fuelT R T')%nat.
Proof.
  induction T as [|T IH]; intros T' H; [apply fuelT_ge|]. destruct T' as [|T']; [lia|]. simpl.
  specialize (IH T' ltac:(lia)). lia.
Qed.

End P.

Definition fuel_w (F K d n : nat) : nat := F * d + K + (2 * F + K + 3) + n * (3 * F + 2 * K + 2).

Lemma mul_le_add F a b c : (a <= b + c -> F * a <= F * b + F * c)%nat.
Proof. intros H. rewrite <- Nat.mul_add_distr_l. apply Nat.mul_le_mono_l. exact H. Qed.

Section T.
Variable p : rparams.
Variable eh : nat -> bool.
Notation m := (rp_m p).
Notation next input := (next_tok (rp_eoi_off p) input).
Hypothesis Hnm : lalr1 p.
Hypothesis Hso : shift_ok_sound p.
Hypothesis Hend : 0 <= rp_end p.
Variable Inv : rconfig -> Prop.
Hypothesis Hstep : forall c c', Inv c -> rstep p eh c = RContinue c' -> Inv c'.
(* end-of-input is only shifted into the end state, on the configurations of the invariant *)
Hypothesis Heoi : forall c q, Inv c -> m_act m (xc_state (rc_x c)) 0 [] = Shift q -> q = rp_end p.

Notation rsteps := (rsteps p eh).
Notation shifts := (shifts p eh).
Notation halts f c := (fst (rrun_loop f p eh c) <> RFuel).
Notation dep c := (length (xc_stack (rc_x c))).
Notation inlen c := (length (xc_input (rc_x c))).

Lemma rsteps_inv k c c' : rsteps k c c' -> Inv c -> Inv c'.
Proof. induction 1 as [c | k c c1 c' Hne Hst _ IH]; intros H; [exact H|]. apply IH. eapply Hstep; eauto. Qed.

Lemma shift_consumes c c' : Inv c -> shifts c c' ->
  (dep c' = S (dep c) /\ Inv c') /\ (xc_state (rc_x c') = rp_end p \/ (inlen c' < inlen c)%nat).
Proof.
  intros Hc (q & e & Hact & Hs & _ & Ex). rewrite Ex. cbn [shifted xc_stack xc_state xc_input length].
  split; [split; [reflexivity|exact (Hstep _ _ Hc Hs)]|]. unfold after_shift.
  destruct (Z.eqb_spec (t_sym (next (xc_input (rc_x c)))) 0) as [E0|E0].
  - left. rewrite E0 in Hact. exact (Heoi _ _ Hc Hact).
  - right. destruct (xc_input (rc_x c)); simpl in *; [congruence|lia].
Qed.

Definition recovers (c c1 : rconfig) : Prop :=
  rstep p eh c = RContinue c1 /\ (inlen c1 <= inlen c)%nat /\ (dep c1 <= dep c + 2)%nat /\
  exists k c2, rsteps k c1 c2 /\ reduces_for p k (rc_x c1) = true /\ inlen c2 = inlen c1 /\
    (xc_state (rc_x c2) = rp_end p \/ exists c3, shifts c2 c3).

Lemma error_branch c c0 stack events : rstep p eh c = handle_error p eh c0 stack events ->
  xc_input (rc_x c0) = xc_input (rc_x c) -> (length stack <= S (dep c))%nat ->
  halts 1 c \/ exists c1, recovers c c1.
Proof.
  intros Hs Hin Hlen. destruct (handle_error p eh c0 stack events) as [c1|o c1] eqn:Ehe; [|left; exact (halts_stop p eh _ _ _ _ Hs)].
  right. exists c1. destruct (recovery_progress p eh Hnm Hso Hend _ _ _ _ Ehe) as (Hsuf & Hd & k & c2 & _ & Hsteps & Hin2 & _ & Hrf & Hfin).
  apply is_suffix_length in Hsuf. rewrite Hin in Hsuf.
  split; [exact Hs|]. split; [exact Hsuf|]. split; [lia|]. exists k, c2. rewrite Hin2. auto.
Qed.

Lemma no_reduction c : plain_reduce p (rc_x c) = None ->
  halts 1 c \/ (exists c2, shifts c c2) \/ (exists c2, recovers c c2).
Proof.
  destruct c as [x r errs l]. cbn [rc_x]. intros Epr. destruct (rstep_cases1 p eh Hnm x r errs l) as (a & res & xr & Ea & Er & Epr' & V).
  rewrite Epr in Epr'. destruct V as [q e _ _|rule e evs _ _ _ _|rule _|rule e evs c0 o Hl _ _ Hin _ _|a o _ _ _].
  - right. left. exact (rstep_shift p eh Hnm (mkRC x r errs l) q Ea).
  - discriminate.
  - left. exact (halts_stop p eh _ _ _ _ Er).
  - destruct (error_branch _ c0 _ _ Er Hin) as [H|H]; auto. cbn [rc_x length]. rewrite skipn_length. lia.
  - destruct (error_branch _ _ _ _ Er eq_refl) as [H|H]; auto.
Qed.

(* the reductions at the head of a run: fewer than k, then the loop stops, shifts, or recovers from an error *)
Lemma phase k : forall c, Inv c ->
  (forall j c', rsteps j c c' -> reduces_for p j (rc_x c) = true -> (j < k)%nat) ->
  exists j c1, rsteps j c c1 /\ reduces_for p j (rc_x c) = true /\ inlen c1 = inlen c /\
    (halts 1 c1 \/ (exists c2, shifts c1 c2) \/ (exists c2, recovers c1 c2)).
Proof.
  induction k as [|k IH]; intros c Hc Hk; [specialize (Hk O c (rs_O p eh c) eq_refl); lia|].
  destruct (Z.eq_dec (xc_state (rc_x c)) (rp_end p)) as [Eend|Eend]; [|destruct (plain_reduce p (rc_x c)) as [x1|] eqn:Epr].
  1, 3: exists O, c; split; [constructor|]; split; [reflexivity|]; split; [reflexivity|].
  { left. apply halts_end. exact Eend. }
  { apply no_reduction. exact Epr. }
  destruct c as [x r errs l]. cbn [rc_x] in *.
  pose proof (rstep_of_plain_reduce p eh x x1 r errs l Epr) as Hs.
  destruct (IH (mkRC x1 r errs l) (Hstep _ _ Hc Hs)) as (j & c1 & Hsteps & Hrf & Hin & Hfin).
  { intros j c' Hj Hr. apply Nat.succ_lt_mono. apply (Hk (S j) c'); [econstructor; eassumption|]. simpl. rewrite Epr. exact Hr. }
  exists (S j), c1. split; [econstructor; eassumption|]. split; [simpl; rewrite Epr; exact Hrf|].
  split; [|exact Hfin]. rewrite Hin. cbn [rc_x]. rewrite (plain_reduce_input p Hnm _ _ Epr). reflexivity.
Qed.

(* by induction on the input left: a phase, then a shift, or a recovery, its reductions and a shift *)
Theorem rrun_terminates_inv : (forall c, Inv c -> exists n, reduces_for p n (rc_x c) = false) ->
  forall c, Inv c -> exists f, halts f c.
Proof.
  intros Hred c. remember (inlen c) as n eqn:En. revert c En. induction n as [n IHn] using lt_wf_ind. intros c -> Hc.
  assert (Hshift : forall c1 c2, Inv c1 -> (inlen c1 <= inlen c)%nat -> shifts c1 c2 -> exists f, halts f c1).
  { intros c1 c2 H1 Hle Hs. destruct (shift_consumes c1 c2 H1 Hs) as [[_ H2] [He|Hlt]]; destruct Hs as (q & e & _ & Hs & _).
    - exists 2%nat. eapply halts_step; [exact Hs|]. apply halts_end. exact He.
    - destruct (IHn (inlen c2) ltac:(lia) c2 eq_refl H2) as (f & Hf). exists (S f). eapply halts_step; eauto. }
  destruct (Hred c Hc) as (k & Hk).
  destruct (phase k c Hc) as (j & c1 & Hsteps & _ & Hin & Hfin); [intros j c' _ Hr; exact (reduces_for_lt p _ _ _ Hr Hk)|].
  pose proof (rsteps_inv _ _ _ Hsteps Hc) as H1.
  assert (exists f, halts f c1) as (f & Hf); [|exists (j + f)%nat; eapply halts_steps; eauto].
  destruct Hfin as [H|[(c2 & H)|(c2 & Hs & Hle & _ & k2 & c3 & Hsteps2 & _ & Hin3 & Hfin3)]].
  - exists 1%nat. exact H.
  - apply (Hshift c1 c2); auto. lia.
  - pose proof (rsteps_inv _ _ _ Hsteps2 (Hstep _ _ H1 Hs)) as H3.
    assert (exists f, halts f c3) as (f3 & Hf3).
    { destruct Hfin3 as [He|(c4 & H4)]; [exists 1%nat; apply halts_end; exact He|apply (Hshift c3 c4); auto; lia]. }
    exists (S (k2 + f3)). eapply halts_step; [exact Hs|]. eapply halts_steps; eauto.
Qed.

(* The potential F * height pays for the reductions: every run of j reductions from height d to height d' has
   j + F d' <= F d + K; a shift raises the potential by F, a recovery by at most 2 F. *)
Theorem rrun_fuel_weighted F K :
  (forall c, Inv c -> forall j c', rsteps j c c' -> reduces_for p j (rc_x c) = true -> (j + F * dep c' <= F * dep c + K)%nat) ->
  forall n c, Inv c -> (inlen c <= n)%nat -> exists f, (f <= fuel_w F K (dep c) n)%nat /\ halts f c.
Proof.
  intros Hpot. induction n as [n IHn] using lt_wf_ind. intros c Hc Hn.
  assert (Hshift : forall c1 c2, Inv c1 -> (inlen c1 <= n)%nat -> shifts c1 c2 ->
            exists f, (f <= F * dep c1 + 2 + n * (3 * F + 2 * K + 2))%nat /\ halts f c1).
  { intros c1 c2 H1 Hle Hs. destruct (shift_consumes c1 c2 H1 Hs) as [[Hd H2] [He|Hlt]]; destruct Hs as (q & e & _ & Hs & _).
    - exists 2%nat. split; [lia|]. eapply halts_step; [exact Hs|]. apply halts_end. exact He.
    - destruct n as [|n']; [lia|]. destruct (IHn n' ltac:(lia) c2 H2 ltac:(lia)) as (f & Hfb & Hf).
      exists (S f). split; [|eapply halts_step; eauto]. unfold fuel_w in Hfb. rewrite Hd in Hfb. lia. }
  destruct (phase (S (F * dep c + K)) c Hc) as (j & c1 & Hsteps & Hrf & Hin & Hfin);
    [intros j c' Hj Hr; specialize (Hpot c Hc j c' Hj Hr); lia|].
  pose proof (rsteps_inv _ _ _ Hsteps Hc) as H1. pose proof (Hpot c Hc j c1 Hsteps Hrf) as Hj.
  assert (exists f, (j + f <= fuel_w F K (dep c) n)%nat /\ halts f c1) as (f & Hfb & Hf);
    [|exists (j + f)%nat; split; [exact Hfb|eapply halts_steps; eauto]].
  unfold fuel_w.
  destruct Hfin as [H|[(c2 & H)|(c2 & Hs & Hle & Hd2 & k2 & c3 & Hsteps2 & Hrf2 & Hin3 & Hfin3)]].
  - exists 1%nat. split; [lia|exact H].
  - destruct (Hshift c1 c2) as (f & Hfb & Hf); auto; [lia|]. exists f. split; [lia|exact Hf].
  - pose proof (Hstep _ _ H1 Hs) as H2. pose proof (rsteps_inv _ _ _ Hsteps2 H2) as H3.
    pose proof (Hpot c2 H2 k2 c3 Hsteps2 Hrf2) as Hk2. apply (mul_le_add F) in Hd2.
    assert (exists f, (f <= F * dep c3 + 2 + n * (3 * F + 2 * K + 2))%nat /\ halts f c3) as (f3 & Hfb3 & Hf3).
    { destruct Hfin3 as [He|(c4 & H4)]; [exists 1%nat; split; [lia|apply halts_end; exact He]|apply (Hshift c3 c4); auto; lia]. }
    exists (S (k2 + f3)). split; [lia|]. eapply halts_step; [exact Hs|]. eapply halts_steps; eauto.
Qed.

End T.

Lemma conditions_default p t rl rs :
  rp_m p = Validator.lalr1_machine t rl rs -> rp_shift_ok p = shift_ok_default t -> lalr1 p /\ shift_ok_sound p.
Proof.
  intros Hm Hs. split; [intros s a more; rewrite Hm; reflexivity|].
  intros s a H. rewrite Hm, Hs in *. unfold shift_ok_default in H. simpl. unfold action_default.
  set (a0 := zn (d_action t) s) in *. set (a1 := if a0 <? -2 then lalr_lookup t a0 a else a0) in *.
  apply andb_true_iff in H. destruct H as [H1 H2]. apply Z.eqb_eq in H1. rewrite H1. simpl. rewrite H2. eauto.
Qed.

Lemma conditions_opt p o terms rl rs :
  rp_m p = opt_machine o terms rl rs -> rp_shift_ok p = shift_ok_opt o -> lalr1 p /\ shift_ok_sound p.
Proof.
  intros Hm Hs. split; [intros s a more; rewrite Hm; reflexivity|].
  intros s a H. rewrite Hm, Hs in *. unfold shift_ok_opt in H. simpl. destruct (action_opt o s a); try discriminate. eauto.
Qed.
