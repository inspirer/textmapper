(* C19: the invariant of the recovering loop on tables that pass RedTerm.check_range: the loop keeps the stack states
   inside the table and the tokens inside the terminals (rinv), also across recoverFromError. *)
From Coq Require Import List ZArith Lia.
From TM Require Import Lib.ListX Gram.Run Gram.Events Gram.XStep_proofs Gram.Recover
  Gram.Recover_proofs Gram.Recover_progress Gram.RedTerm Gram.RedTerm_proofs.
Import ListNotations.
Local Open Scope Z_scope.

Section I.
Variable p : rparams.
Variable eh : nat -> bool.
Variables nstates T NS : Z.
Notation m := (rp_m p).
Notation eoi := (rp_eoi_off p).
Hypothesis Hnm : lalr1 p.
Hypothesis Hrg : check_range m nstates T NS = true.
(* the 'error' symbol is a symbol of the tables, and there is no transition on it from the state -1 that a
   failed goto leaves on the stack (gotoState(-1, errSymbol) = -1) *)
Hypothesis Herr : 0 <= rp_err_sym p < NS.
Hypothesis Hm1 : m_goto m (-1) (rp_err_sym p) = -1.

Definition st_in (e : xentry) : Prop := 0 <= x_state e < nstates.
Definition tok_in (t : tok) : Prop := 0 <= t_sym t < T.

Definition rinv (c : rconfig) : Prop :=
  xc_stack (rc_x c) <> [] /\ Forall st_in (xc_stack (rc_x c)) /\
  xc_state (rc_x c) = x_state (hd xdummy (xc_stack (rc_x c))) /\ Forall tok_in (xc_input (rc_x c)).

Lemma nsym_in input : Forall tok_in input -> 0 <= t_sym (next_tok eoi input) < T.
Proof.
  destruct (range_parts p nstates T NS Hrg) as (HT & _).
  intros H. destruct input as [|t r]; simpl; [lia|]. inversion H; subst. assumption.
Qed.

Lemma rinv_xinv c : rinv c -> xinv p nstates T (rc_x c).
Proof. intros (H1 & H2 & H3 & H4). split; [exact H1|]. split; [exact H2|]. split; [exact H3|]. apply nsym_in. exact H4. Qed.

Lemma positions_top e rest : x_state e = -1 -> recover_positions p (e :: rest) = recover_positions p rest.
Proof. intros H. cbn [recover_positions]. rewrite H, Hm1. reflexivity. Qed.

Definition stack_in (stack : list xentry) : Prop :=
  Forall st_in stack \/ exists e rest, stack = e :: rest /\ x_state e = -1 /\ Forall st_in rest.

Lemma handle_error_inv c0 stack events c1 : handle_error p eh c0 stack events = RContinue c1 ->
  stack_in stack -> Forall tok_in (xc_input (rc_x c0)) -> rinv c1.
Proof.
  intros H Hstk Htok. destruct (handle_error_spec p eh c0 stack events) as (Hsuf & _ & Hc). rewrite H in Hsuf, Hc.
  cbn [result_config] in Hsuf, Hc. destruct Hc as (st & e0 & s' & Hin & Hs & _ & He0 & Hst & _).
  assert (Hall : exists rest, Forall st_in rest /\ In st (recover_positions p rest)).
  { destruct Hstk as [Hall|(e & rest & -> & He & Hall)]; [|rewrite (positions_top e rest He) in Hin]; eauto. }
  destruct Hall as (rest & Hall & Hin'). destruct (positions_suffix p _ _ Hin') as (k & Hk & -> & Hgo).
  apply (Forall_skipn' _ k) in Hall.
  unfold rinv. rewrite Hs, Hst. cbn [hd]. split; [discriminate|]. split; [|split; [symmetry; exact He0|eapply is_suffix_Forall; eauto]].
  constructor; [|exact Hall]. unfold st_in. rewrite He0.
  destruct (range_parts p nstates T NS Hrg) as (_ & _ & Hgoto).
  assert (Hh : 0 <= x_state (hd xdummy (skipn k rest)) < nstates).
  { destruct (skipn k rest) eqn:E; [|inversion Hall; subst; assumption].
    apply (f_equal (@length _)) in E. rewrite skipn_length in E. simpl in E. lia. }
  destruct (Hgoto _ _ Hh Herr) as [E|E]; [contradiction|exact E].
Qed.

Lemma rstep_rinv c c' : rinv c -> rstep p eh c = RContinue c' -> rinv c'.
Proof.
  destruct c as [x r errs l]. intros Hinv E. pose proof (rinv_xinv _ Hinv) as Hx. destruct Hinv as (Hne & Hall & Hst & Htok).
  cbn [rc_x] in *.
  destruct (range_parts p nstates T NS Hrg) as (_ & Hact & _).
  specialize (Hact _ _ (xinv_top p nstates T x Hx) (nsym_in _ Htok)).
  destruct (rstep_cases1 p eh Hnm x r errs l) as (a & res & xr & Ea & Er & Epr & V). rewrite Er in E. rewrite Ea in Hact.
  destruct V as [q e _ Hq|rule e evs _ _ _ _|rule _|rule e evs c0 o _ _ He Hin _ _|a o _ _ _]; cbn [pr_of] in Epr.
  - injection E as <-. unfold rinv. cbn [rc_x shifted xc_stack xc_state xc_input hd].
    split; [discriminate|]. split; [constructor; [unfold st_in; rewrite Hq; exact Hact|exact Hall]|]. split; [symmetry; exact Hq|].
    eapply is_suffix_Forall; [apply after_shift_suffix|exact Htok].
  - injection E as <-. destruct (plain_reduce_inv p nstates T NS Hnm Hrg x _ Hx Epr) as ((H1 & H2 & H3 & _) & _).
    split; [exact H1|]. split; [exact H2|]. split; [exact H3|exact Htok].
  - discriminate.
  - eapply handle_error_inv; [exact E| |rewrite Hin; exact Htok].
    right. eexists _, _. split; [reflexivity|]. split; [exact He|apply Forall_skipn'; exact Hall].
  - eapply handle_error_inv; [exact E|left; exact Hall|exact Htok].
Qed.

Lemma rinv_init start input : 0 <= start < nstates -> Forall tok_in input ->
  rinv (mkRC (mkXC [mkX 0 0 0 start (TLeaf 0 0 0)] start input []) 0 [] (0, 0)).
Proof.
  intros Hs Ht. unfold rinv. cbn [rc_x xc_stack xc_state xc_input]. split; [discriminate|].
  split; [constructor; [exact Hs|constructor]|]. split; [reflexivity|exact Ht].
Qed.

End I.
