(* The parse loop over a certified LR automaton, from abstract conditions on the machine and an item certificate.
   The action may look at the tokens after the next one (LALR(k) rows); the transition function [tr] is a parameter
   that agrees with m_goto on nonterminals (the displacement encoding answers -1 for gotoState on a terminal it shifts).
   Soundness and crash-freedom: lr0_cert_ok.  Completeness: section Complete. *)
From Coq Require Import List ZArith Bool Lia.
From TM Require Import Lib.ListX Gram.Cfg Gram.Cfg_proofs Gram.PTables Gram.Run Gram.Derive Gram.LalrSpec_proofs Gram.Validator.
Import ListNotations.
Local Open Scope Z_scope.

Local Notation top st := (snd (hd (0, -1) st)).

Lemma app_prefix_repeat (a x b : list Z) k : ~ In 0 a -> a ++ x = b ++ repeat 0 k -> exists s, b = a ++ s.
Proof.
  revert b. induction a as [|h a IH]; intros b Ha E; simpl in *.
  - exists b. reflexivity.
  - destruct b as [|h' b]; simpl in E.
    + destruct k; simpl in E; [discriminate|]. injection E as -> _. exfalso. apply Ha. left. reflexivity.
    + injection E as -> E. destruct (IH b) as (s & ->); auto. exists s. reflexivity.
Qed.

Lemma app_zero_eq (a x b : list Z) k : ~ In 0 a -> ~ In 0 b -> a ++ 0 :: x = b ++ repeat 0 k -> a = b.
Proof.
  intros Ha Hb E. destruct (app_prefix_repeat _ _ _ _ Ha E) as (s & ->). rewrite <- app_assoc in E. apply app_inv_head in E.
  destruct s as [|h s]; [symmetry; apply app_nil_r|]. injection E as <- _. exfalso. apply Hb. apply in_or_app. right. left. reflexivity.
Qed.

Definition grammar_ok (g : grammar) : Prop :=
  1 <= vT g /\ 0 <= g_nonterms g /\
  (forall rl, In rl (g_rules g) -> vT g <= r_lhs rl < vNS g /\ forall s, In s (r_rhs rl) -> 1 <= s < vNS g) /\
  (forall inp, In inp (g_inputs g) -> vT g <= fst inp < vNS g).

Lemma is_term_iff g x : is_term g x = true <-> 0 <= x < vT g.
Proof. apply is_term_spec. Qed.

Lemma derives_tok g a : 0 <= a < vT g -> derives g a [a].
Proof. intros H. constructor. apply is_term_iff. exact H. Qed.

Lemma derives_seq_app g xs ys w1 w2 : derives_seq g xs w1 -> derives_seq g ys w2 -> derives_seq g (xs ++ ys) (w1 ++ w2).
Proof.
  induction 1 as [|x xs' u1 u2 Hx Hxs IH]; simpl; intros Hy; [exact Hy|].
  rewrite <- app_assoc. constructor; auto.
Qed.

Lemma derives_seq_one g X w : derives g X w -> derives_seq g [X] w.
Proof. intros H. rewrite <- (app_nil_r w). constructor; [exact H|constructor]. Qed.

Lemma arule_real g r rl : nth_error (g_rules g) r = Some rl -> arule g r = Some rl.
Proof.
  intros H. unfold arule.
  assert (Hlt : (r <? nrules g)%nat = true) by (apply Nat.ltb_lt, nth_error_Some; rewrite H; discriminate).
  rewrite Hlt. exact H.
Qed.

Lemma arule_aug g i nt eoi : nth_error (g_inputs g) i = Some (nt, eoi) ->
  arule g (nrules g + i) = Some (mkRule (vNS g + Z.of_nat i) (if eoi : bool then [nt; 0] else [nt]) 0).
Proof.
  intros H. unfold arule. assert (E : (nrules g + i <? nrules g)%nat = false) by (apply Nat.ltb_ge; lia). rewrite E.
  replace (nrules g + i - nrules g)%nat with i by lia. unfold aug_rule. rewrite H. reflexivity.
Qed.

Lemma toks_no_zero g ws : Forall (fun a => 1 <= a < vT g) ws -> ~ In 0 ws.
Proof. intros Hws H0. rewrite Forall_forall in Hws. apply Hws in H0. lia. Qed.

Section Grammar.
Variable g : grammar.
Hypothesis G : grammar_ok g.

Lemma rule_lhs_range rl : In rl (g_rules g) -> vT g <= r_lhs rl < vNS g.
Proof. intros H. apply G in H. apply H. Qed.

Lemma rule_rhs_range rl s : In rl (g_rules g) -> In s (r_rhs rl) -> 1 <= s < vNS g.
Proof. intros H. apply G in H. apply H. Qed.

Lemma hd_range inp : Forall (fun a => 1 <= a < vT g) inp -> 0 <= hd 0 inp < vT g.
Proof. destruct G as (HT & _). intros Hok. destruct Hok as [|a r Ha _]; simpl; lia. Qed.

Lemma derives_term a w : 0 <= a < vT g -> derives g a w -> w = [a].
Proof.
  intros Ha H. inversion H as [a' Hterm | rl w' Hin Hseq]; subst; [reflexivity|].
  pose proof (rule_lhs_range _ Hin). lia.
Qed.

Lemma derives_toks :
  (forall X w, derives g X w -> X <> 0 -> Forall (fun a => 1 <= a < vT g) w) /\
  (forall xs w, derives_seq g xs w -> (forall x, In x xs -> x <> 0) -> Forall (fun a => 1 <= a < vT g) w).
Proof.
  destruct G as (HT & _).
  apply derives_mutind.
  - intros a Ha Hne. apply is_term_iff in Ha. constructor; [lia|constructor].
  - intros rl w Hin _ IH _. apply IH. intros x Hx. pose proof (rule_rhs_range _ _ Hin Hx). lia.
  - intros _. constructor.
  - intros x xs w1 w2 _ IH1 _ IH2 Hall. apply Forall_app. split.
    + apply IH1. apply Hall. left. reflexivity.
    + apply IH2. intros y Hy. apply Hall. right. exact Hy.
Qed.

Lemma aug_yield nt (eoi : bool) y : In (nt, eoi) (g_inputs g) -> derives_seq g (if eoi then [nt; 0] else [nt]) y ->
  exists v, derives g nt v /\ Forall (fun a => 1 <= a < vT g) v /\ y = v ++ repeat 0 (if eoi then 1 else 0).
Proof.
  intros Hin Hy. destruct G as (HT & _ & _ & HI). apply HI in Hin. simpl in Hin.
  assert (Hv : exists v z, derives g nt v /\ y = v ++ z /\ derives_seq g (if eoi then [0] else []) z).
  { destruct eoi; inversion Hy; subst; eauto. }
  destruct Hv as (v & z & Hv & -> & Hz). exists v. split; [exact Hv|]. split; [apply (proj1 derives_toks _ _ Hv); lia|].
  f_equal. destruct eoi; inversion Hz as [|? ? z0 ? Hz0 Hnil]; subst; [|reflexivity].
  inversion Hnil; subst. apply derives_term in Hz0; [subst; reflexivity|lia].
Qed.
End Grammar.

Lemma has_item_In ann q r d : has_item ann q r d = true <-> exists L, In (r, d, L) (items ann q).
Proof.
  unfold has_item. rewrite existsb_exists. split.
  - intros ([[r' d'] L] & Hin & E). apply andb_true_iff in E. destruct E as [E1 E2].
    apply Nat.eqb_eq in E1. apply Nat.eqb_eq in E2. subst. eauto.
  - intros (L & Hin). exists (r, d, L). split; [exact Hin|]. rewrite !Nat.eqb_refl. reflexivity.
Qed.

(* the loop of Run.v without offsets and traces: stack of (symbol, state), remaining terminals, shift count *)
Definition astepk (m : machine) (c : aconfig) : astep_result :=
  let '(st, inp, n) := c in
  match m_act m (top st) (hd 0 inp) (tl inp) with
  | Reduce rule =>
      let ln := Z.to_nat (m_rule_len m rule) in
      if (length st <=? ln)%nat then AFail true
      else let rest := skipn ln st in
           let s := m_goto m (top rest) (m_rule_sym m rule) in
           if s =? -1 then AFail false else ANext ((m_rule_sym m rule, s) :: rest, inp, n)
  | Shift q => ANext ((hd 0 inp, q) :: st, (if hd 0 inp =? 0 then inp else tl inp), n + 1)
  | _ => AFail false
  end.

Fixpoint arunk (fuel : nat) (m : machine) (end_state : Z) (c : aconfig) : aoutcome * aconfig :=
  match fuel with
  | O => (AFuel, c)
  | S f =>
      if top (fst (fst c)) =? end_state then (AAccept, c)
      else match astepk m c with
           | ANext c' => arunk f m end_state c'
           | AFail true => (ACrash, c)
           | AFail false => (AError, c)
           end
  end.

Definition aparsek (fuel : nat) (m : machine) (finals : list Z) (i : nat) (w : list Z) : aoutcome * aconfig :=
  arunk fuel m (nth i finals (-1)) ([(0, Z.of_nat i)], w, 0).

Lemma arun_accept_state m e fuel : forall c c', arunk fuel m e c = (AAccept, c') -> top (fst (fst c')) = e.
Proof.
  induction fuel as [|f IH]; intros c c'; simpl; [discriminate|].
  destruct (top (fst (fst c)) =? e) eqn:E.
  - intros H. injection H as <-. apply Z.eqb_eq. exact E.
  - destruct (astepk m c) as [c1|[|]]; try discriminate. apply IH.
Qed.

Definition strip_config (c : config) : aconfig :=
  (map (fun e => (e_sym e, e_state e)) (c_stack c), map t_sym (c_input c), c_shifted c).

Definition config_wf (c : config) : Prop := c_stack c <> [] /\ c_state c = e_state (hd (mkEntry 0 0 0 0) (c_stack c)).

Lemma proj_top c : config_wf c -> top (fst (fst (strip_config c))) = c_state c.
Proof. intros [Hne Hst]. unfold strip_config. simpl. destruct (c_stack c); [congruence|]. simpl in *. congruence. Qed.

Lemma next_tok_sym eoi_off inp : t_sym (next_tok eoi_off inp) = hd 0 (map t_sym inp).
Proof. destruct inp; reflexivity. Qed.

Lemma step_sim m eoi_off c : config_wf c ->
  match step m eoi_off c with
  | Continue c' => astepk m (strip_config c) = ANext (strip_config c') /\ config_wf c'
  | Stop (Crash _) _ => astepk m (strip_config c) = AFail true
  | Stop (SyntaxError _ _ k) _ => astepk m (strip_config c) = AFail false /\ k = c_shifted c
  | Stop _ _ => False
  end.
Proof.
  intros Hwf. pose proof (proj_top _ Hwf) as Htop. unfold step, astepk. unfold strip_config in *. simpl in Htop.
  rewrite Htop, next_tok_sym, map_tl.
  destruct (m_act m (c_state c) (hd 0 (map t_sym (c_input c))) (tl (map t_sym (c_input c)))) as [q|r| |row].
  - simpl. split; [|split; [discriminate|reflexivity]].
    destruct (hd 0 (map t_sym (c_input c)) =? 0); [reflexivity|]. rewrite map_tl. reflexivity.
  - rewrite map_length.
    destruct (length (c_stack c) <=? Z.to_nat (m_rule_len m r))%nat; [reflexivity|].
    rewrite skipn_map.
    assert (Hb : top (map (fun e => (e_sym e, e_state e)) (skipn (Z.to_nat (m_rule_len m r)) (c_stack c))) =
                 match skipn (Z.to_nat (m_rule_len m r)) (c_stack c) with b :: _ => e_state b | [] => -1 end).
    { destruct (skipn (Z.to_nat (m_rule_len m r)) (c_stack c)); reflexivity. }
    rewrite Hb.
    destruct (m_goto m _ (m_rule_sym m r) =? -1).
    + split; reflexivity.
    + simpl. split; [reflexivity|]. split; [discriminate|reflexivity].
  - split; reflexivity.
  - split; reflexivity.
Qed.

Lemma run_sim m eoi_off e fuel : forall c, config_wf c ->
  match fst (run_loop fuel m eoi_off e c) with
  | Accept => fst (arunk fuel m e (strip_config c)) = AAccept
  | SyntaxError _ _ k => fst (arunk fuel m e (strip_config c)) = AError /\ k = snd (snd (arunk fuel m e (strip_config c)))
  | Crash _ => fst (arunk fuel m e (strip_config c)) = ACrash
  | OutOfFuel => fst (arunk fuel m e (strip_config c)) = AFuel
  end.
Proof.
  induction fuel as [|f IH]; intros c Hwf; [reflexivity|].
  cbn [run_loop arunk]. rewrite (proj_top _ Hwf).
  destruct (c_state c =? e); [reflexivity|].
  pose proof (step_sim m eoi_off c Hwf) as Hs.
  destruct (step m eoi_off c) as [c1|o c1].
  - destruct Hs as [Hs Hwf1]. rewrite Hs. apply IH. exact Hwf1.
  - destruct o as [|off eoff k|why|]; try contradiction.
    + destruct Hs as [Hs ->]. rewrite Hs. simpl. split; reflexivity.
    + rewrite Hs. reflexivity.
Qed.

Lemma toks_from_syms off w : map t_sym (toks_from off w) = w.
Proof. revert off. induction w as [|a w IH]; intros off; simpl; [reflexivity|]. rewrite IH. reflexivity. Qed.

Definition init_config (i : nat) (ws : list Z) : config :=
  mkConfig [mkEntry 0 0 0 (Z.of_nat i)] (Z.of_nat i) (toks_of ws) 0 [].

Lemma init_wf i ws : config_wf (init_config i ws).
Proof. split; [discriminate|reflexivity]. Qed.

Lemma init_proj i ws : strip_config (init_config i ws) = ([(0, Z.of_nat i)], ws, 0).
Proof. unfold strip_config, init_config, toks_of. simpl. rewrite toks_from_syms. reflexivity. Qed.

Lemma parse_sim m finals i ws fuel :
  match fst (parse fuel m finals i ws) with
  | Accept => fst (aparsek fuel m finals i ws) = AAccept
  | SyntaxError _ _ k => fst (aparsek fuel m finals i ws) = AError /\ k = snd (snd (aparsek fuel m finals i ws))
  | Crash _ => fst (aparsek fuel m finals i ws) = ACrash
  | OutOfFuel => fst (aparsek fuel m finals i ws) = AFuel
  end.
Proof.
  unfold aparsek. rewrite <- init_proj. apply (run_sim m (Z.of_nat (length ws))). apply init_wf.
Qed.

Lemma parse_accepts m finals i ws fuel c' :
  aparsek fuel m finals i ws = (AAccept, c') -> fst (parse fuel m finals i ws) = Accept.
Proof.
  intros Hrun. pose proof (parse_sim m finals i ws fuel) as H. rewrite Hrun in H. simpl in H.
  destruct (fst (parse fuel m finals i ws)) as [|off eoff k|why|]; try reflexivity; try discriminate.
  destruct H as [H _]. discriminate.
Qed.

Section LR.
Variable g : grammar.
Variable nstates : Z.
Variable ann : cert.
Variable tr : Z -> Z -> Z.

Local Notation T := (vT g).
Local Notation NS := (vNS g).
Local Notation NR := (nrules g).
Local Notation NI := (ninputs g).
Local Notation items := (items ann).
Local Notation has_item := (has_item ann).
Local Notation arule := (arule g).
Local Notation toks_ok := (Forall (fun a => 1 <= a < T)).

Record auto_ok : Prop := {
  ok_ninputs : Z.of_nat NI <= nstates;
  ok_trans : forall p X, 0 <= p < nstates -> 0 <= X < NS -> 0 <= tr p X ->
    Z.of_nat NI <= tr p X < nstates /\
    forall r d' L, In (r, S d', L) (items (tr p X)) ->
      exists rl, arule r = Some rl /\ nth_error (r_rhs rl) d' = Some X /\ has_item p r d' = true;
  ok_start : forall i r d L, (i < NI)%nat -> In (r, d, L) (items (Z.of_nat i)) -> d = O }.

Section Path.
Variable i : nat.

(* st is a path of the automaton from start state i (top first); its symbols derive w *)
Inductive path : list (Z * Z) -> list Z -> Prop :=
| path_bot s : path [(s, Z.of_nat i)] []
| path_cons X st w1 w2 :
    path st w1 -> 0 <= X < NS -> 0 <= tr (top st) X -> derives g X w2 ->
    path ((X, tr (top st) X) :: st) (w1 ++ w2).

Lemma path_split n : forall st w, path st w -> (n < length st)%nat ->
  exists w1 w2, w = w1 ++ w2 /\ path (skipn n st) w1 /\ derives_seq g (rev (map fst (firstn n st))) w2.
Proof.
  induction n as [|n IH]; intros st w Hs Hlen.
  - exists w, []. rewrite app_nil_r. simpl. repeat split; [exact Hs|constructor].
  - revert Hlen. destruct Hs as [s | X st w1 w2 Hs HX Hq0 Hd]; simpl; intros Hlen; [lia|].
    destruct (IH st w1 Hs) as (u1 & u2 & -> & Hs1 & Hd1); [lia|].
    exists u1, (u2 ++ w2). rewrite app_assoc. split; [reflexivity|]. split; [exact Hs1|].
    simpl. apply derives_seq_app; [exact Hd1|]. apply derives_seq_one. exact Hd.
Qed.

Hypothesis A : auto_ok.
Hypothesis Hi : (i < NI)%nat.

Lemma path_state st w : path st w -> 0 <= top st < nstates.
Proof.
  induction 1 as [s | X st w1 w2 Hs IH HX Hq0 Hd]; simpl.
  - pose proof (ok_ninputs A). lia.
  - destruct (ok_trans A _ _ IH HX Hq0) as [H _]. lia.
Qed.

Lemma path_states st w : path st w -> Forall (fun e => 0 <= snd e < nstates) st.
Proof.
  induction 1 as [s | X st w1 w2 Hs IH HX Hq0 Hd]; (constructor; [|assumption || constructor]).
  - exact (path_state _ _ (path_bot s)).
  - exact (path_state _ _ (path_cons X st w1 w2 Hs HX Hq0 Hd)).
Qed.

Lemma path_bottom st w : path st w -> top st < Z.of_nat NI -> top st = Z.of_nat i /\ w = [].
Proof.
  destruct 1 as [s | X st w1 w2 Hs HX Hq0 Hd]; simpl; [auto|].
  destruct (ok_trans A _ _ (path_state _ _ Hs) HX Hq0) as [H _]. lia.
Qed.

(* an item with the dot at d in the top state: the d topmost symbols spell the rule's prefix, and the state below
   them holds the fresh item *)
Lemma path_spelled d : forall st w r L rl, path st w -> In (r, d, L) (items (top st)) -> arule r = Some rl ->
  (d < length st)%nat /\ rev (map fst (firstn d st)) = firstn d (r_rhs rl) /\ has_item (snd (nth d st (0, -1))) r 0 = true.
Proof.
  induction d as [|d' IH]; intros st w r L rl Hs Hin Hr.
  - destruct Hs; simpl in *; (split; [lia|split; [reflexivity|apply has_item_In; eauto]]).
  - destruct Hs as [s | X st w1 w2 Hs HX Hq0 Hd]; simpl in Hin.
    + apply (ok_start A _ _ _ _ Hi) in Hin. discriminate.
    + destruct (ok_trans A _ _ (path_state _ _ Hs) HX Hq0) as [_ H2].
      destruct (H2 _ _ _ Hin) as (rl' & Hr' & Hnth & Hhas).
      rewrite Hr in Hr'. injection Hr' as <-.
      apply has_item_In in Hhas. destruct Hhas as (L' & Hin').
      destruct (IH st w1 r L' rl Hs Hin' Hr) as (Hlen & Hrev & Hh0).
      split; [simpl; lia|]. split; [|exact Hh0].
      simpl. rewrite Hrev. symmetry. apply firstn_S_nth_error. exact Hnth.
Qed.

Lemma path_item d st w r L rl : path st w -> In (r, d, L) (items (top st)) -> arule r = Some rl ->
  (d < length st)%nat /\
  exists w1 w2, w = w1 ++ w2 /\ path (skipn d st) w1 /\ derives_seq g (firstn d (r_rhs rl)) w2 /\
                has_item (top (skipn d st)) r 0 = true.
Proof.
  intros Hs Hin Hr. destruct (path_spelled d _ _ _ _ _ Hs Hin Hr) as (Hlen & Hrev & Hh0).
  destruct (path_split d _ _ Hs Hlen) as (w1 & w2 & E & Hs1 & Hd2). rewrite Hrev in Hd2.
  rewrite hd_skipn. eauto 8.
Qed.
End Path.

Variable m : machine.
Variable finals : list Z.
Local Notation final_of := (final_of finals).

Record lr0_cert_ok : Prop := {
  ok_auto : auto_ok;
  ok_rules : grammar_ok g;
  ok_tr_goto : forall p X, T <= X -> tr p X = m_goto m p X;
  ok_goto_def : forall b r L rl, In (r, O, L) (items b) -> nth_error (g_rules g) r = Some rl -> 0 <= m_goto m b (r_lhs rl);
  ok_reduce : forall p a more r, 0 <= p < nstates -> 0 <= a < T -> m_act m p a more = Reduce r ->
    exists rn rl, r = Z.of_nat rn /\ nth_error (g_rules g) rn = Some rl /\ has_item p rn (length (r_rhs rl)) = true /\
      m_rule_len m r = Z.of_nat (length (r_rhs rl)) /\ m_rule_sym m r = r_lhs rl;
  ok_shift : forall p a more q, 0 <= p < nstates -> 0 <= a < T -> m_act m p a more = Shift q -> q = tr p a /\ 0 <= q;
  ok_final : forall i nt eoi, nth_error (g_inputs g) i = Some (nt, eoi) ->
    has_item (final_of i) (NR + i) (if eoi : bool then 2 else 1) = true /\
    forall q, has_item q (NR + i) 0 = true -> q = Z.of_nat i }.

Section Sound.
Hypothesis H : lr0_cert_ok.
Variable i : nat.
Hypothesis Hi : (i < NI)%nat.
Local Notation path := (path i).

Lemma path_shift st w a more q :
  path st w -> 0 <= a < T -> m_act m (top st) a more = Shift q -> path ((a, q) :: st) (w ++ [a]).
Proof.
  intros Hs Ha Hact.
  destruct (ok_shift H _ _ _ _ (path_state i (ok_auto H) Hi _ _ Hs) Ha Hact) as [-> Hq].
  destruct (ok_rules H) as (_ & HN & _).
  apply path_cons; [exact Hs|unfold vNS, vT in *; lia|exact Hq|apply derives_tok; exact Ha].
Qed.

Lemma path_reduce st w a more r :
  path st w -> 0 <= a < T -> m_act m (top st) a more = Reduce r ->
  let rest := skipn (Z.to_nat (m_rule_len m r)) st in
  let q := m_goto m (top rest) (m_rule_sym m r) in
  (Z.to_nat (m_rule_len m r) < length st)%nat /\ 0 <= q /\ path ((m_rule_sym m r, q) :: rest) w.
Proof.
  intros Hs Ha Hact.
  destruct (ok_reduce H _ _ _ _ (path_state i (ok_auto H) Hi _ _ Hs) Ha Hact) as (rn & rl & -> & Hrn & Hhas & -> & ->).
  rewrite Nat2Z.id. apply has_item_In in Hhas. destruct Hhas as (L & Hin).
  destruct (path_item i (ok_auto H) Hi _ _ _ _ _ _ Hs Hin (arule_real _ _ _ Hrn))
    as (Hlen & w1 & w2 & -> & Hs1 & Hd2 & Hh0).
  rewrite firstn_all in Hd2. apply has_item_In in Hh0. destruct Hh0 as (L0 & Hin0).
  pose proof (ok_goto_def H _ _ _ _ Hin0 Hrn) as Hg0.
  pose proof (rule_lhs_range g (ok_rules H) rl (nth_error_In _ _ Hrn)) as Hlhs.
  split; [exact Hlen|]. split; [exact Hg0|]. cbv zeta.
  rewrite <- (ok_tr_goto H) in * by lia.
  apply path_cons; [exact Hs1|lia|exact Hg0|]. econstructor; [apply (nth_error_In _ _ Hrn)|exact Hd2].
Qed.

Section WS.
Variable ws : list Z.
Hypothesis Hws : toks_ok ws.

(* the tokens consumed are the yield of the stack; once the input is exhausted the loop may shift EOI *)
Definition stream_inv (c : aconfig) : Prop :=
  let '(st, inp, n) := c in
  toks_ok inp /\ exists cons k, path st cons /\ cons ++ inp = ws ++ repeat 0 k /\ (k <> O -> inp = []) /\ n = Z.of_nat (length cons).

Lemma astep_inv c : stream_inv c -> match astepk m c with ANext c' => stream_inv c' | AFail crash => crash = false end.
Proof.
  destruct c as [[st inp] n]. intros (Hok & cons & k & Hs & Hstream & Hk & Hn). unfold astepk.
  pose proof (hd_range g (ok_rules H) _ Hok) as Ha.
  destruct (m_act m (top st) (hd 0 inp) (tl inp)) as [q|r| |row] eqn:Hact; try reflexivity.
  - pose proof (path_shift _ _ _ _ _ Hs Ha Hact) as Hs'.
    destruct Hok as [|a inp' Ha' Hok']; simpl in *.
    + split; [constructor|]. exists (cons ++ [0]), (S k). split; [exact Hs'|].
      rewrite app_nil_r in *. split; [|split; [reflexivity|rewrite app_length; simpl; lia]].
      rewrite Hstream, <- app_assoc, <- repeat_cons. reflexivity.
    + destruct (a =? 0) eqn:E0; [apply Z.eqb_eq in E0; lia|].
      split; [exact Hok'|]. exists (cons ++ [a]), k. split; [exact Hs'|].
      rewrite <- app_assoc. split; [exact Hstream|]. split; [|rewrite app_length; simpl; lia].
      intros Hk'. discriminate (Hk Hk').
  - destruct (path_reduce _ _ _ _ _ Hs Ha Hact) as (Hlen & Hq & Hs'). cbv zeta in Hq, Hs'.
    destruct (length st <=? _)%nat eqn:El; [apply Nat.leb_le in El; lia|].
    destruct (_ =? -1) eqn:Eg; [reflexivity|].
    split; [exact Hok|]. exists cons, k. auto.
Qed.

Lemma arun_inv e fuel : forall c o c', stream_inv c -> arunk fuel m e c = (o, c') -> stream_inv c' /\ o <> ACrash.
Proof.
  induction fuel as [|f IH]; intros c o c' Hinv; simpl.
  - intros E. injection E as <- <-. split; [exact Hinv|discriminate].
  - destruct (top (fst (fst c)) =? e).
    + intros E. injection E as <- <-. split; [exact Hinv|discriminate].
    + pose proof (astep_inv c Hinv) as Hs. destruct (astepk m c) as [c1|crash].
      * apply IH. exact Hs.
      * subst crash. intros E. injection E as <- <-. split; [exact Hinv|discriminate].
Qed.

Lemma inv_init : stream_inv ([(0, Z.of_nat i)], ws, 0).
Proof.
  split; [exact Hws|]. exists [], O. split; [constructor|]. simpl. rewrite app_nil_r. split; [reflexivity|split; [congruence|reflexivity]].
Qed.

Theorem arun_sound fuel nt eoi c' :
  nth_error (g_inputs g) i = Some (nt, eoi) ->
  aparsek fuel m finals i ws = (AAccept, c') ->
  if eoi : bool then derives g nt ws else exists p s, ws = p ++ s /\ derives g nt p.
Proof.
  intros Hinp Hrun. unfold aparsek in Hrun.
  destruct (arun_inv _ _ _ _ _ inv_init Hrun) as [Hinv _]. apply arun_accept_state in Hrun.
  destruct c' as [[st inp] n]. simpl in Hrun. destruct Hinv as (Hok & cons & k & Hs & Hstream & Hk & _).
  destruct (ok_final H _ _ _ Hinp) as (Hhas & Huniq).
  apply has_item_In in Hhas. destruct Hhas as (L & Hin). fold (final_of i) in Hrun. rewrite <- Hrun in Hin.
  destruct (path_item i (ok_auto H) Hi _ _ _ _ _ _ Hs Hin (arule_aug _ _ _ _ Hinp)) as (_ & w1 & w2 & -> & Hs1 & Hd2 & Hh0).
  apply Huniq in Hh0. destruct (path_bottom i (ok_auto H) Hi _ _ Hs1) as [_ ->]; [lia|].
  destruct (aug_yield g (ok_rules H) nt eoi w2 (nth_error_In _ _ Hinp)) as (v & Hv & Hnz & ->); [destruct eoi; exact Hd2|].
  simpl in Hstream. rewrite <- app_assoc in Hstream. destruct eoi; simpl in Hstream.
  - apply app_zero_eq in Hstream; [subst; exact Hv|exact (toks_no_zero g v Hnz)|exact (toks_no_zero g ws Hws)].
  - destruct (app_prefix_repeat _ _ _ _ (toks_no_zero g v Hnz) Hstream) as (sfx & ->). exists v, sfx. auto.
Qed.

Theorem lr_sound fuel nt eoi :
  nth_error (g_inputs g) i = Some (nt, eoi) ->
  fst (parse fuel m finals i ws) = Accept ->
  if eoi : bool then derives g nt ws else exists p s, ws = p ++ s /\ derives g nt p.
Proof.
  intros Hinp Hacc. pose proof (parse_sim m finals i ws fuel) as Hsim. rewrite Hacc in Hsim.
  destruct (aparsek fuel m finals i ws) as [o c'] eqn:E. simpl in Hsim. subst o.
  eapply arun_sound; eauto.
Qed.

Theorem lr_no_crash fuel why : fst (parse fuel m finals i ws) <> Crash why.
Proof.
  intros Hc. pose proof (parse_sim m finals i ws fuel) as Hsim. rewrite Hc in Hsim.
  unfold aparsek in Hsim. destruct (arunk _ _ _ _) as [o c] eqn:E. simpl in Hsim.
  eapply arun_inv; [apply inv_init|exact E|exact Hsim].
Qed.

End WS.
End Sound.
End LR.

(* Completeness: the parser retraces a derivation.  The lookaheads range over any alphabet E (terminals for LALR(1),
   strings for LALR(k)); the induction only needs an invariant [I rest L inp]: the remaining input can begin a string
   derived from rest followed by a lookahead of L.  sh and red say what the machine answers when I holds. *)
Section Complete.
Variable g : grammar.
Variable m : machine.
Variable finals : list Z.
Variable tr : Z -> Z -> Z.
Variable E : Type.
Variable its : Z -> list (nat * nat * list E).
Variable I : list Z -> list E -> list Z -> Prop.

Local Notation T := (vT g).
Local Notation NR := (nrules g).
Local Notation arule := (arule g).
Local Notation toks_ok := (Forall (fun a => 1 <= a < T)).

Hypothesis G : grammar_ok g.
Hypothesis tr_goto : forall p X, T <= X -> tr p X = m_goto m p X.
Hypothesis I_mono : forall rest L L' inp, incl L L' -> I rest L inp -> I rest L' inp.
Hypothesis I_app : forall xs w rest L inp, derives_seq g xs w -> I rest L inp -> I (xs ++ rest) L (w ++ inp).
Hypothesis adv : forall q r d L rl X, In (r, d, L) (its q) -> arule r = Some rl -> nth_error (r_rhs rl) d = Some X ->
  0 <= tr q X /\ exists L', In (r, S d, L') (its (tr q X)) /\ incl L L'.
Hypothesis clo : forall q r d L rl X r' rl' inp,
  In (r, d, L) (its q) -> arule r = Some rl -> nth_error (r_rhs rl) d = Some X -> T <= X ->
  nth_error (g_rules g) r' = Some rl' -> r_lhs rl' = X -> I (skipn (S d) (r_rhs rl)) L inp ->
  exists L0, In (r', O, L0) (its q) /\ I [] L0 inp.
Hypothesis sh : forall q r d L rl inp,
  In (r, d, L) (its q) -> arule r = Some rl -> nth_error (r_rhs rl) d = Some (hd 0 inp) -> toks_ok inp ->
  I (skipn d (r_rhs rl)) L inp -> m_act m q (hd 0 inp) (tl inp) = Shift (tr q (hd 0 inp)).
Hypothesis red : forall q r d L rl inp,
  In (r, d, L) (its q) -> nth_error (g_rules g) r = Some rl -> d = length (r_rhs rl) -> toks_ok inp -> I [] L inp ->
  m_act m q (hd 0 inp) (tl inp) = Reduce (Z.of_nat r) /\
  m_rule_len m (Z.of_nat r) = Z.of_nat (length (r_rhs rl)) /\ m_rule_sym m (Z.of_nat r) = r_lhs rl.
Hypothesis start : forall i nt eoi, nth_error (g_inputs g) i = Some (nt, eoi) ->
  (exists L, In ((NR + i)%nat, O, L) (its (Z.of_nat i)) /\
             if eoi : bool then I [0] L [] else forall s, toks_ok s -> I [] L s) /\
  (if eoi : bool then tr (tr (Z.of_nat i) nt) 0 = final_of finals i else tr (Z.of_nat i) nt = final_of finals i).

Inductive areach : aconfig -> aconfig -> Prop :=
| ar_refl c : areach c c
| ar_step c c1 c2 : astepk m c = ANext c1 -> areach c1 c2 -> areach c c2.

Lemma areach_trans a b c : areach a b -> areach b c -> areach a c.
Proof. induction 1; eauto using areach. Qed.

Lemma areach_one a b : astepk m a = ANext b -> areach a b.
Proof. intros H. eapply ar_step; [exact H|apply ar_refl]. Qed.

Lemma areach_accept e c c' : areach c c' -> top (fst (fst c')) = e -> exists fuel c'', arunk fuel m e c = (AAccept, c'').
Proof.
  induction 1 as [c|c c1 c2 Hs Hr IH]; intros He.
  - exists 1%nat, c. simpl. rewrite He, Z.eqb_refl. reflexivity.
  - destruct (top (fst (fst c)) =? e) eqn:Ee.
    + exists 1%nat, c. simpl. rewrite Ee. reflexivity.
    + destruct (IH He) as (fuel & c'' & Hrun). exists (S fuel), c''. simpl. rewrite Ee, Hs. exact Hrun.
Qed.

Lemma shift_step st n r d L rl inp :
  In (r, d, L) (its (top st)) -> arule r = Some rl -> nth_error (r_rhs rl) d = Some (hd 0 inp) -> toks_ok inp ->
  I (skipn d (r_rhs rl)) L inp ->
  astepk m (st, inp, n) = ANext ((hd 0 inp, tr (top st) (hd 0 inp)) :: st, tl inp, n + 1).
Proof.
  intros Hin Hr HX Hok Hf. unfold astepk. rewrite (sh _ _ _ _ _ _ Hin Hr HX Hok Hf).
  destruct Hok as [|a inp' Ha _]; simpl; [reflexivity|].
  destruct (a =? 0) eqn:E0; [apply Z.eqb_eq in E0; lia|reflexivity].
Qed.

Definition P_sym (X : Z) (w : list Z) : Prop :=
  forall st n r rl d L inp,
    st <> [] -> In (r, d, L) (its (top st)) -> arule r = Some rl -> nth_error (r_rhs rl) d = Some X ->
    I (skipn (S d) (r_rhs rl)) L inp -> toks_ok (w ++ inp) ->
    exists n' L', areach (st, w ++ inp, n) ((X, tr (top st) X) :: st, inp, n') /\
      In (r, S d, L') (its (tr (top st) X)) /\ incl L L'.

Definition P_seq (xs : list Z) (w : list Z) : Prop :=
  forall st n r rl d L inp rest,
    st <> [] -> In (r, d, L) (its (top st)) -> arule r = Some rl -> skipn d (r_rhs rl) = xs ++ rest ->
    I rest L inp -> toks_ok (w ++ inp) ->
    exists st' n' L', areach (st, w ++ inp, n) (st' ++ st, inp, n') /\ length st' = length xs /\
      In (r, (length xs + d)%nat, L') (its (top (st' ++ st))) /\ incl L L'.

Lemma completeness_core : (forall X w, derives g X w -> P_sym X w) /\ (forall xs w, derives_seq g xs w -> P_seq xs w).
Proof.
  apply derives_mutind; unfold P_sym, P_seq.
  - intros a Ha st n r rl d L inp Hne Hin Hr HX Hf Hok.
    destruct (adv _ _ _ _ _ _ Hin Hr HX) as (_ & L' & Hin' & Hinc).
    exists (n + 1), L'. split; [|split; assumption]. apply areach_one.
    apply (shift_step st n r d L rl (a :: inp) Hin Hr HX Hok).
    rewrite (nth_error_skipn_cons _ _ _ HX). apply (I_app [a] [a]); [|exact Hf].
    apply derives_seq_one. constructor. exact Ha.
  - intros rl' w Hinr Hseq IH st n r rl d L inp Hne Hin Hr HX Hf Hok.
    pose proof (rule_lhs_range g G _ Hinr) as Hlhs.
    destruct (In_nth_error _ _ Hinr) as (r' & Hr').
    destruct (clo _ _ _ _ _ _ _ _ _ Hin Hr HX ltac:(lia) Hr' eq_refl Hf) as (L0 & Hin0 & Hf0).
    destruct (IH st n r' rl' O L0 inp [] Hne Hin0 (arule_real _ _ _ Hr')) as (st' & n' & L0' & Hreach & Hlen & Hitem & Hinc0);
      [symmetry; apply app_nil_r|exact Hf0|exact Hok|].
    destruct (adv _ _ _ _ _ _ Hin Hr HX) as (Hq0 & L' & Hin' & Hinc).
    apply Forall_app in Hok. destruct Hok as [_ Hok2].
    destruct (red _ _ _ _ _ _ Hitem Hr' (Nat.add_0_r _) Hok2 (I_mono _ _ _ _ Hinc0 Hf0)) as (Hact & Hlen2 & Hsym2).
    exists n', L'. split; [|split; assumption].
    eapply areach_trans; [exact Hreach|]. apply areach_one. unfold astepk. rewrite Hact, Hlen2, Hsym2, Nat2Z.id.
    assert (El : (length (st' ++ st) <=? length (r_rhs rl'))%nat = false).
    { apply Nat.leb_gt. rewrite app_length. destruct st; [congruence|simpl; lia]. }
    rewrite El, <- Hlen, skipn_app, skipn_all, Nat.sub_diag. simpl skipn. simpl app.
    rewrite <- tr_goto by lia.
    destruct (tr (top st) (r_lhs rl') =? -1) eqn:Eg; [apply Z.eqb_eq in Eg; lia|reflexivity].
  - intros st n r rl d L inp rest Hne Hin Hr Hsk Hf Hok.
    exists [], n, L. repeat split; [apply ar_refl|exact Hin|apply incl_refl].
  - intros x xs w1 w2 Hx IHx Hxs IHxs st n r rl d L inp rest Hne Hin Hr Hsk Hf Hok.
    simpl in Hsk. apply skipn_nth_error_cons in Hsk. destruct Hsk as [Hnth Hsk].
    rewrite <- app_assoc in Hok.
    destruct (IHx st n r rl d L (w2 ++ inp) Hne Hin Hr Hnth) as (n1 & L1 & Hreach1 & Hin1 & Hinc1);
      [rewrite Hsk; apply I_app; assumption|exact Hok|].
    apply Forall_app in Hok. destruct Hok as [_ Hok2].
    destruct (IHxs ((x, tr (top st) x) :: st) n1 r rl (S d) L1 inp rest) as (st' & n2 & L2 & Hreach2 & Hlen & Hitem & Hinc2);
      [discriminate|exact Hin1|exact Hr|exact Hsk|eapply I_mono; eauto|exact Hok2|].
    exists (st' ++ [(x, tr (top st) x)]), n2, L2.
    rewrite <- !app_assoc. simpl. repeat split.
    + eapply areach_trans; [exact Hreach1|exact Hreach2].
    + rewrite app_length. simpl. lia.
    + rewrite Nat.add_succ_r in Hitem. exact Hitem.
    + eapply incl_tran; eauto.
Qed.

Theorem lr_complete i ws nt eoi :
  toks_ok ws -> nth_error (g_inputs g) i = Some (nt, eoi) ->
  (if eoi : bool then derives g nt ws else exists p s, ws = p ++ s /\ derives g nt p) ->
  exists fuel, fst (parse fuel m finals i ws) = Accept.
Proof.
  intros Hws Hinp Hsent. destruct (start _ _ _ Hinp) as ((L & Hin & HL) & Hwire).
  pose proof (arule_aug _ _ _ _ Hinp) as Har.
  assert (Hacc : exists fuel c', aparsek fuel m finals i ws = (AAccept, c')).
  { unfold aparsek. fold (final_of finals i). destruct eoi.
    - destruct (proj1 completeness_core _ _ Hsent [(0, Z.of_nat i)] 0 (NR + i)%nat _ O L [] ltac:(discriminate) Hin Har eq_refl HL)
        as (n1 & L1 & Hreach & Hin1 & Hinc); [rewrite app_nil_r; exact Hws|].
      rewrite app_nil_r in Hreach. simpl in Hreach, Hin1.
      eapply areach_accept.
      + eapply areach_trans; [exact Hreach|]. apply areach_one.
        apply (shift_step [(nt, tr (Z.of_nat i) nt); (0, Z.of_nat i)] n1 _ _ L1 _ [] Hin1 Har eq_refl); [constructor|]. apply (I_mono _ _ _ _ Hinc HL).
      + exact Hwire.
    - destruct Hsent as (p & s & -> & Hd). pose proof Hws as Hs. apply Forall_app in Hs.
      destruct (proj1 completeness_core _ _ Hd [(0, Z.of_nat i)] 0 (NR + i)%nat _ O L s ltac:(discriminate) Hin Har eq_refl)
        as (n1 & L1 & Hreach & Hin1 & Hinc); [apply HL; tauto|exact Hws|].
      eapply areach_accept; [exact Hreach|exact Hwire]. }
  destruct Hacc as (fuel & c' & Hrun). exists fuel. eapply parse_accepts. exact Hrun.
Qed.
End Complete.
