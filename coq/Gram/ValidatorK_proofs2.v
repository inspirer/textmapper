(* C07: check_k implies the LR(0) conditions of LRLoop_proofs for the goto function of the tables, hence soundness and
   crash-freedom of the LALR(k) loop.  Tables without deep rows run like C01's lalr1_machine, so Validator.check gives
   the exact language; check_k alone does not give completeness (counterexample cx_g). *)
From Coq Require Import List ZArith Bool Lia.
From TM Require Import Gram.Cfg Gram.PTables Gram.Run Gram.Validator Gram.LRLoop_proofs Gram.Validator_proofs Gram.ValidatorK.
Import ListNotations.
Local Open Scope Z_scope.

Lemma lalr_walk_in_row f l i next : In (lalr_walk f l i next) (row_actions f l i).
Proof.
  revert i. induction f as [|f IH]; intros i; simpl; [left; reflexivity|].
  destruct (zn l i >=? 0) eqn:E; simpl.
  - destruct (negb (zn l i =? next)); [right; apply IH|left; reflexivity].
  - left. reflexivity.
Qed.

Lemma all_ok_nonneg n t jst a : 0 <= a -> all_ok n t jst a = jst a.
Proof. intros H. destruct n; simpl; destruct (a >=? 0) eqn:E; try reflexivity; rewrite Z.geb_leb in E; apply Z.leb_gt in E; lia. Qed.

Lemma all_ok_deep n t jst a : a < -2 -> all_ok n t jst a = true ->
  exists n', n = S n' /\ forall x, In x (row_actions (S (length (d_lalr t))) (d_lalr t) (- a - 3)) -> all_ok n' t jst x = true.
Proof.
  intros Ha H. destruct n as [|n']; simpl in H;
    (destruct (a >=? 0) eqn:E0; [rewrite Z.geb_leb in E0; apply Z.leb_le in E0; lia|]);
    (destruct (a >=? -2) eqn:E2; [rewrite Z.geb_leb in E2; apply Z.leb_le in E2; lia|]); [discriminate|].
  exists n'. split; [reflexivity|]. apply forallb_forall. exact H.
Qed.

(* the fuel n of the check and the fuel f of the walk are unrelated: induction on the walk, for every n; a deep cell is
   checked for ALL answers of its row *)
Lemma deep_ok t (jst : Z -> bool) f : forall n a more, all_ok n t jst a = true -> 0 <= deep_walk f t a more ->
  jst (deep_walk f t a more) = true.
Proof.
  induction f as [|f IH]; intros n a more Hok Hge; simpl in *; [rewrite all_ok_nonneg in Hok by exact Hge; exact Hok|].
  destruct (a <? -2) eqn:Ea; [|rewrite all_ok_nonneg in Hok by exact Hge; exact Hok].
  apply Z.ltb_lt in Ea. destruct (all_ok_deep _ _ _ _ Ea Hok) as (n' & _ & Hrow).
  destruct more as [|x more']; (eapply IH; [apply Hrow, lalr_walk_in_row|exact Hge]).
Qed.

Section PK.
Variable g : grammar.
Variable t : default_enc.
Variable rule_len rule_sym : list Z.
Variable nstates : Z.
Variable finals : list Z.
Variable ann : cert.

Notation m := (mk t rule_len rule_sym).

Lemma K_reduce p a more r : chk_cells_k g t rule_len rule_sym nstates ann = true ->
  0 <= p < nstates -> 0 <= a < vT g -> m_act m p a more = Reduce r ->
  exists rn rl, r = Z.of_nat rn /\ nth_error (g_rules g) rn = Some rl /\ has_item ann p rn (length (r_rhs rl)) = true /\
    m_rule_len m r = Z.of_nat (length (r_rhs rl)) /\ m_rule_sym m r = r_lhs rl.
Proof.
  intros H Hp Ha Hact. apply (forallb_cells _ _ _ H) with (p := p) (x := a) in Hp; [|exact Ha]. cbv zeta in Hp.
  simpl in Hact. unfold default_act in Hact.
  set (a0 := zn (d_action t) p) in *. set (a1 := if a0 <? -2 then lalr_lookup t a0 a else a0) in *.
  set (v := if a1 <? -2 then deep_walk (S (S (length more))) t a1 more else a1) in *.
  destruct (v >=? 0) eqn:Ev; [|destruct (v =? -1); [destruct (goto_state t p a >=? 0)|]; discriminate].
  injection Hact as <-. rewrite Z.geb_leb in Ev. apply Z.leb_le in Ev.
  assert (Hj : just g rule_len rule_sym ann p v = true).
  { unfold v in *. destruct (a1 <? -2) eqn:E1.
    - eapply deep_ok; eauto.
    - rewrite all_ok_nonneg in Hp by exact Ev. exact Hp. }
  unfold just in Hj. rewrite !andb_true_iff in Hj. destruct Hj as [[H1 H2] H3]. apply Z.leb_le in H1.
  destruct (nth_error (g_rules g) (Z.to_nat v)) as [rl|] eqn:E; [|discriminate].
  rewrite !andb_true_iff in H3. destruct H3 as [[H3 H4] H5]. apply Z.eqb_eq in H4. apply Z.eqb_eq in H5.
  exists (Z.to_nat v), rl. simpl. repeat split; auto. lia.
Qed.

Lemma K_shift p a more q : m_act m p a more = Shift q -> q = m_goto m p a /\ 0 <= q.
Proof.
  intros Hact. simpl in *. unfold default_act in Hact.
  set (v := if _ <? -2 then _ else _) in Hact.
  destruct (v >=? 0); [discriminate|]. destruct (v =? -1); [|discriminate].
  destruct (goto_state t p a >=? 0) eqn:E; [|discriminate]. injection Hact as <-.
  rewrite Z.geb_leb in E. apply Z.leb_le in E. split; [reflexivity|exact E].
Qed.

Hypothesis Hchk : check_k g t rule_len rule_sym nstates finals ann = true.

Lemma check_k_lr0 : lr0_cert_ok g nstates ann (goto_state t) m finals.
Proof.
  assert (H : chk_rules g = true /\ chk_ann_len nstates ann = true /\ chk_trans_k g t nstates ann = true /\
              chk_cells_k g t rule_len rule_sym nstates ann = true /\ chk_start g ann = true /\
              chk_final g nstates finals ann = true /\ chk_goto_def g m nstates ann = true).
  { generalize Hchk. unfold check_k. rewrite !andb_true_iff. tauto. }
  destruct H as (Hr & Hl & Ht & Hc & Hs & Hf & Hg).
  split; [exact (auto_ok_of g nstates finals ann Hs Hf (goto_state t) Ht)|exact (chk_rules_ok g Hr)|reflexivity|
          exact (goto_defined g m nstates ann Hl Hg)| |intros p a more q _ _; apply K_shift|exact (L_final g nstates finals ann Hl Hf)].
  intros p a more r. apply K_reduce. exact Hc.
Qed.

Theorem parse_sound_k i nt eoi ws fuel :
  nth_error (g_inputs g) i = Some (nt, eoi) -> toks_ok g ws ->
  fst (parse fuel m finals i ws) = Accept -> sentence g nt eoi ws.
Proof.
  intros Hi Hw. exact (lr_sound g nstates ann _ m finals check_k_lr0 i (input_index_lt _ _ _ Hi) ws Hw fuel nt eoi Hi).
Qed.

Theorem parse_no_crash_k i x ws fuel why :
  nth_error (g_inputs g) i = Some x -> toks_ok g ws -> fst (parse fuel m finals i ws) <> Crash why.
Proof.
  intros Hi Hw. exact (lr_no_crash g nstates ann _ m finals check_k_lr0 i (input_index_lt _ _ _ Hi) ws Hw fuel why).
Qed.

End PK.

(* no cell of the table (states 0..nstates-1, terminals 0..T-1) refers to an LALR(k) row *)
Definition no_deep (t : default_enc) (nstates T : Z) : bool :=
  forallb (fun p => forallb (fun a => negb (lalr_deep t p a)) (zrange0 T)) (zrange0 nstates).

Lemma no_deep_act t nstates T p a more :
  no_deep t nstates T = true -> 0 <= p < nstates -> 0 <= a < T ->
  default_act t p a more = m_act (lalr1_machine t [] []) p a more.
Proof.
  intros H Hp Ha. unfold no_deep in H. rewrite forallb_forall in H.
  specialize (H p (proj2 (in_zrange0 _ _) Hp)). rewrite forallb_forall in H.
  specialize (H a (proj2 (in_zrange0 _ _) Ha)). apply negb_true_iff in H.
  unfold lalr_deep in H. simpl. unfold default_act, action_default.
  set (a0 := zn (d_action t) p) in *.
  destruct (a0 <? -2) eqn:E0.
  - rewrite H. set (v := lalr_lookup t a0 a) in *.
    destruct (v >=? 0); [reflexivity|]. destruct (v =? -1); [destruct (goto_state t p a >=? 0); reflexivity|].
    destruct (v =? -2); reflexivity.
  - rewrite E0.
    destruct (a0 >=? 0); [reflexivity|]. destruct (a0 =? -1); [destruct (goto_state t p a >=? 0); reflexivity|].
    destruct (a0 =? -2); reflexivity.
Qed.

Section NoDeep.
Variable g : grammar.
Variable t : default_enc.
Variable rule_len rule_sym : list Z.
Variable nstates : Z.
Variable finals : list Z.
Variable nl : list Z.
Variable ft : first_table.
Variable ann : cert.

Notation m1 := (lalr1_machine t rule_len rule_sym).
Notation mk := (default_machine t rule_len rule_sym).

Hypothesis Hchk : check g m1 nstates finals nl ft ann = true.
Hypothesis Hnd : no_deep t nstates (vT g) = true.

Variable i : nat.
Hypothesis Hi : (i < ninputs g)%nat.
Variable ws : list Z.
Hypothesis Hws : Validator_proofs.toks_ok g ws.

Notation m1_nomore := (lalr1_machine_nomore t rule_len rule_sym).
Notation stream_inv := (stream_inv g (trans g m1) i ws).

Lemma step_same eoi_off c : config_wf c -> stream_inv (strip_config c) -> step mk eoi_off c = step m1 eoi_off c.
Proof.
  intros Hwf Hinv. pose proof (proj_top _ Hwf) as Htop. unfold strip_config in Hinv, Htop. simpl in Htop.
  destruct Hinv as (Hok & cons & k & Hs & _).
  pose proof (path_state g nstates ann _ i (check_auto g m1 nstates finals nl ft ann Hchk) Hi _ _ Hs) as Hq.
  rewrite Htop in Hq.
  pose proof (hd_range g (L_rules g m1 nstates finals nl ft ann Hchk) _ Hok) as Ha. rewrite <- next_tok_sym with (eoi_off := eoi_off) in Ha.
  unfold step. simpl m_act at 1. rewrite (no_deep_act _ _ _ _ _ _ Hnd Hq Ha). reflexivity.
Qed.

Lemma run_same eoi_off e fuel : forall c, config_wf c -> stream_inv (strip_config c) -> run_loop fuel mk eoi_off e c = run_loop fuel m1 eoi_off e c.
Proof.
  induction fuel as [|f IH]; intros c Hwf Hinv; [reflexivity|].
  cbn [run_loop]. destruct (c_state c =? e); [reflexivity|].
  rewrite (step_same eoi_off c Hwf Hinv).
  pose proof (step_sim m1 eoi_off c Hwf) as Hs.
  destruct (step m1 eoi_off c) as [c1|o c1]; [|reflexivity].
  destruct Hs as [Hs Hwf1]. apply IH; [exact Hwf1|].
  pose proof (astep_inv g nstates ann _ m1 finals (check_lr0 g m1 nstates finals nl ft ann m1_nomore Hchk) i Hi ws _ Hinv) as Hinv1.
  rewrite Hs in Hinv1. exact Hinv1.
Qed.

Theorem parse_no_deep_same fuel : parse fuel mk finals i ws = parse fuel m1 finals i ws.
Proof.
  apply (run_same _ _ _ (init_config i ws)); [apply init_wf|]. rewrite init_proj. apply inv_init. exact Hws.
Qed.

Theorem parse_no_deep_exact nt eoi :
  nth_error (g_inputs g) i = Some (nt, eoi) ->
  (exists fuel, fst (parse fuel mk finals i ws) = Accept) <-> sentence g nt eoi ws.
Proof.
  intros Hinp. split.
  - intros (fuel & H). rewrite parse_no_deep_same in H.
    exact (Validator_proofs.parse_sound g m1 nstates finals nl ft ann m1_nomore Hchk i Hi ws fuel nt eoi Hws Hinp H).
  - intros Hs.
    destruct (Validator_proofs.parse_complete g m1 nstates finals nl ft ann m1_nomore Hchk i Hi ws nt eoi Hws Hinp Hs) as (fuel & H).
    exists fuel. rewrite parse_no_deep_same. exact H.
Qed.

End NoDeep.

(* grammar: terminals 0 (EOI), 1 (a); nonterminal 2 (S);  S -> a;  input S with eoi *)
Definition cx_g : grammar := mkGrammar 2 1 [mkRule 2 [1] 0] [(2, true)] [].
(* 4 states; every action is "error"; the gotos are those of the LR(0) automaton *)
Definition cx_t : default_enc := mkDefaultEnc [-2; -2; -2; -2] [] [0; 0; 2; 4] [0; 3; 0; 2].
Definition cx_ann : cert :=
  [ [(1%nat, 0%nat, []); (0%nat, 0%nat, [])];     (* 0: S' -> . S eoi ; S -> . a *)
    [(1%nat, 2%nat, [])];                           (* 1: final, S' -> S eoi . *)
    [(1%nat, 1%nat, [])];                           (* 2: S' -> S . eoi *)
    [(0%nat, 1%nat, [])] ].                         (* 3: S -> a . *)

Lemma cx_check_k : check_k cx_g cx_t [1] [2] 4 [1] cx_ann = true.
Proof. vm_compute. reflexivity. Qed.

Lemma cx_sentence : sentence cx_g 2 true [1].
Proof.
  simpl. change 2 with (r_lhs (mkRule 2 [1] 0)). constructor; [left; reflexivity|].
  simpl. change [1] with ([1] ++ []). constructor; [|constructor]. constructor. reflexivity.
Qed.

Lemma cx_rejects fuel : fst (parse fuel (default_machine cx_t [1] [2]) [1] 0 [1]) <> Accept.
Proof. destruct fuel as [|f]; vm_compute; discriminate. Qed.

Theorem check_k_alone_not_complete :
  exists g t rule_len rule_sym nstates finals ann i nt eoi ws,
    check_k g t rule_len rule_sym nstates finals ann = true /\
    nth_error (g_inputs g) i = Some (nt, eoi) /\ Validator_proofs.toks_ok g ws /\ sentence g nt eoi ws /\
    forall fuel, fst (parse fuel (default_machine t rule_len rule_sym) finals i ws) <> Accept.
Proof.
  exists cx_g, cx_t, [1], [2], 4, [1], cx_ann, 0%nat, 2, true, [1].
  split; [exact cx_check_k|]. split; [reflexivity|]. split; [|split; [exact cx_sentence|exact cx_rejects]].
  constructor; [|constructor]. unfold vT. simpl. lia.
Qed.
