(* C03: the automaton certificate of LalrCert.v implies lr0_ok; with the table clauses of la_cert the lookahead
   table is exactly LALR(1). *)
From Coq Require Import List ZArith Bool Lia.
From TM Require Import Gram.Cfg Gram.LalrRef Gram.LalrSpec Gram.LalrSpec_proofs Gram.LalrCert Gram.LalrClosure_proofs Gram.LalrSpec_proofs2.
Import ListNotations.
Local Open Scope Z_scope.

Section Cert.
Variable g : grammar.
Variable a : automaton.
Hypothesis Hcert : aut_cert g a = true.

Lemma cert_parts : cert_starts g a = true /\ cert_seeds g a = true /\
  forall q st, st_at a q st -> cert_sound_state g a (ranks a) q st = true /\ cert_complete_state g a q st = true.
Proof.
  unfold aut_cert in Hcert. apply andb_true_iff in Hcert. destruct Hcert as [H12 H3].
  apply andb_true_iff in H12. destruct H12 as [H1 H2]. split; [exact H1|]. split; [exact H2|]. intros q st Hst.
  rewrite forallb_forall in H3. apply andb_true_iff, (H3 (q, st)), in_combine_zrange, Hst.
Qed.

Lemma cert_starts_present : starts_present g a.
Proof.
  destruct cert_parts as (H & _ & _). intros i nt e Hi Hinp.
  unfold cert_starts in H. rewrite forallb_forall in H. specialize (H (i, (nt, e))). cbv beta iota in H.
  assert (Hin : In (i, (nt, e)) (indexed (g_inputs g))) by (apply in_combine_zrange; auto).
  apply H in Hin. destruct (nth_error (a_states a) (Z.to_nat i)) as [st|]; [|discriminate].
  exists st. apply andb_true_iff in Hin. destruct Hin as [H1 H2]. apply Z.eqb_eq in H2.
  destruct (s_seed st) as [nt'|]; [|discriminate]. apply Z.eqb_eq in H1. simpl in H1. subst. auto.
Qed.

Lemma cert_seeds_ok : seeds_ok g a.
Proof.
  destruct cert_parts as (_ & H & _). intros q st nt Hq Hst Hseed Hk.
  unfold cert_seeds in H. rewrite forallb_forall in H. specialize (H (q, st)). cbv beta iota in H.
  assert (Hin : In (q, st) (indexed (a_states a))) by (apply in_combine_zrange; auto).
  apply H in Hin. rewrite Hseed, Hk in Hin. simpl in Hin.
  destruct (nth_error (g_inputs g) (Z.to_nat q)) as [[nt' e]|]; [|discriminate].
  apply Z.eqb_eq in Hin. subst. eauto.
Qed.

Lemma cert_sound_spec q st : st_at a q st ->
  match s_seed st with
  | Some _ => if s_kind st =? 0 then s_kernel st = [] else st_items g st = []
  | None => exists f s stf, trans_target a f s = Some q /\ st_at a f stf /\
              0 <= rank_of (ranks a) f < rank_of (ranks a) q /\
              forall it, In it (s_kernel st) ->
                In (fst it, snd it - 1) (st_items g stf) /\ sym_after g (fst it, snd it - 1) = Some s
  end.
Proof.
  intros Hst. destruct cert_parts as (_ & _ & H). destruct (H q st Hst) as [Hs _]. unfold cert_sound_state in Hs.
  destruct (s_seed st).
  - destruct (s_kind st =? 0); [destruct (s_kernel st)|destruct (st_items g st)]; auto; discriminate.
  - apply existsb_exists in Hs. destruct Hs as ([[f s] t] & _ & Hs). exists f, s.
    apply andb_true_iff in Hs. destruct Hs as [Hs Hker]. apply andb_true_iff in Hs. destruct Hs as [Hs Htr].
    apply andb_true_iff in Hs. destruct Hs as [Hs Hrk]. apply andb_true_iff in Hs. destruct Hs as [_ Hf].
    destruct (trans_target a f s) as [t'|]; [|discriminate]. apply Z.eqb_eq in Htr. subst t'.
    destruct (nth_error (a_states a) (Z.to_nat f)) as [stf|] eqn:Estf; [|discriminate].
    exists stf. split; [reflexivity|]. split; [split; [lia|exact Estf]|]. split; [lia|].
    rewrite forallb_forall in Hker. intros it Hit. apply Hker in Hit. apply andb_true_iff in Hit.
    destruct Hit as [Hm Hsym]. split; [apply mem_item_In, Hm|].
    destruct (sym_after g (fst it, snd it - 1)); [|discriminate]. apply Z.eqb_eq in Hsym. congruence.
Qed.

Lemma cert_complete_spec q st it s : st_at a q st -> In it (st_items g st) -> sym_after g it = Some s ->
  (is_term g s = false -> forall r, In r (rules_of g s) -> In (r, 0) (st_items g st)) /\
  exists q' st', trans_target a q s = Some q' /\ st_at a q' st' /\ In (fst it, snd it + 1) (st_items g st').
Proof.
  intros Hst Hit Es. destruct cert_parts as (_ & _ & H). destruct (H q st Hst) as [_ Hc].
  unfold cert_complete_state in Hc. rewrite forallb_forall in Hc. specialize (Hc it Hit). rewrite Es in Hc.
  apply andb_true_iff in Hc. destruct Hc as [Hcl Hc]. split.
  - intros Et r Hr. rewrite Et in Hcl. simpl in Hcl. rewrite forallb_forall in Hcl. apply mem_item_In, Hcl, Hr.
  - destruct (trans_target a q s) as [q'|]; [|discriminate]. apply andb_true_iff in Hc. destruct Hc as [Hq' Hc].
    destruct (nth_error (a_states a) (Z.to_nat q')) as [st'|] eqn:E; [|discriminate].
    exists q', st'. split; [reflexivity|]. split; [split; [lia|exact E]|apply mem_item_In, Hc].
Qed.

(* by induction on the rank of the state: its kernel items are items of a state of smaller rank, advanced *)
Lemma cert_aut_sound : aut_sound g a.
Proof.
  enough (Hgen : forall n q st it, Z.to_nat (rank_of (ranks a) q) = n -> st_at a q st -> In it (st_items g st) ->
                 exists i gamma, reach a i gamma q /\ lr0_valid g i gamma it)
    by (intros q st it Hq Hst; exact (Hgen _ q st it eq_refl (conj Hq Hst))).
  induction n as [n IH] using lt_wf_ind. intros q st it Hn Hst. pose proof (cert_sound_spec q st Hst) as Hs.
  unfold st_items in *. destruct (s_seed st) as [nt|] eqn:Eseed.
  - destruct (Z.eqb_spec (s_kind st) 0) as [Ek|]; [|rewrite Hs; intros []]. rewrite Hs.
    destruct (cert_seeds_ok q st nt (proj1 Hst) (proj2 Hst) Eseed Ek) as [e He].
    exists q, []. split; [constructor|]. eapply closure_valid_start; eauto. apply Hst.
  - destruct Hs as (f & s & stf & Htr & Hstf & Hrk & Hker). revert it.
    apply (closure_sound g (fun it => exists i gamma, reach a i gamma q /\ lr0_valid g i gamma it)); [|discriminate|].
    + intros it Hit. destruct (Hker it Hit) as [Hin Es].
      destruct (IH (Z.to_nat (rank_of (ranks a) f)) ltac:(lia) f stf _ eq_refl Hstf Hin) as (i & gamma & Hr & Hv).
      exists i, (gamma ++ [s]). split; [econstructor; eauto|].
      replace it with (fst (fst it, snd it - 1), snd (fst it, snd it - 1) + 1) by (destruct it; simpl; f_equal; lia).
      apply l0_goto; auto.
    + intros it s0 r (i & gamma & Hr & Hv) Es Et Hrr. exists i, gamma. split; auto. eapply l0_closure; eauto.
Qed.

Theorem cert_lr0_ok : lr0_ok g a.
Proof.
  constructor; [exact cert_seeds_ok|exact cert_aut_sound|exact cert_starts_present| |].
  - apply complete_of_local; [exact cert_starts_present| |].
    + intros q st Hst it s r Hit Es Et Hr. apply (cert_complete_spec q st it s Hst Hit Es); assumption.
    + intros q st it s q' Hst Hit Es Htr. destruct (cert_complete_spec q st it s Hst Hit Es) as (_ & q2 & st' & E & H).
      rewrite Htr in E. injection E as <-. eauto.
  - intros q st it s Hq Hst Hit Es. destruct (cert_complete_spec q st it s (conj Hq Hst) Hit Es) as (_ & q' & _ & E & _).
    eauto.
Qed.
End Cert.

Lemma la_cert_hyps g a fuel : la_cert g a fuel = true -> la_hyps g a fuel.
Proof.
  unfold la_cert. intros H. apply andb_true_iff in H. destruct H as [H H5]. apply andb_true_iff in H. destruct H as [H H4].
  apply andb_true_iff in H. destruct H as [H H3]. apply andb_true_iff in H. destruct H as [H1 H2].
  constructor; auto. apply cert_lr0_ok, H5.
Qed.

Theorem lalr_la_exact g a fuel : la_cert g a fuel = true ->
  forall q it x, In x (la_get (lalr_la g a fuel) q it) <-> lalr1 g a q it x.
Proof. intros H. apply la_exact, la_cert_hyps, H. Qed.

Theorem lalr_la_sound_cert g a fuel : aut_cert g a = true ->
  forall q it x, In x (la_get (lalr_la g a fuel) q it) -> lalr1 g a q it x.
Proof. intros H q it x. apply lalr_la_sound; [apply cert_seeds_ok|apply cert_aut_sound]; auto. Qed.

Theorem lalr_la_covers g a fuel : la_cert g a fuel = true ->
  forall i gamma it x, lr1_valid g i gamma it x ->
  exists q, reach a i gamma q /\ In x (la_get (lalr_la g a fuel) q it).
Proof. intros H. apply la_covers, la_cert_hyps, H. Qed.
