(* C20: builder.addNode builds, from every well-nested event stream, a well-formed forest with exactly the
   reported nodes. *)
From Coq Require Import List ZArith Bool Lia Permutation.
From TM Require Import Lib.ListX Gram.TreeBuilder.
Import ListNotations.
Local Open Scope Z_scope.

Lemma nodes_unfold t o e ch : nodes (BNode t o e ch) = forest_nodes ch ++ [(t, o, e)].
Proof.
  reflexivity.
Qed.

Lemma wf_bnode_unfold t o e ch :
  wf_bnode (BNode t o e ch) =
    (o <=? e) && sorted_disjoint ch && forallb (fun c => (o <=? b_off c) && (b_end c <=? e) && wf_bnode c) ch.
Proof.
  reflexivity.
Qed.

Lemma last_in {A} (l : list A) d : l <> [] -> In (last l d) l.
Proof. apply last_In. Qed.

(* top-first version of sorted_disjoint *)
Fixpoint sdt (l : list bnode) : bool :=
  match l with
  | a :: (b :: _) as rest => (b_end b <=? b_off a) && sdt rest
  | _ => true
  end.

Lemma sorted_disjoint_snoc l x :
  sorted_disjoint (l ++ [x]) = sorted_disjoint l && match l with [] => true | _ => b_end (last l x) <=? b_off x end.
Proof.
  induction l as [|a l IH]; [reflexivity|].
  destruct l as [|b l']; [simpl; rewrite andb_true_r; reflexivity|].
  change (sorted_disjoint ((a :: b :: l') ++ [x])) with ((b_end a <=? b_off b) && sorted_disjoint ((b :: l') ++ [x])).
  rewrite IH. change (sorted_disjoint (a :: b :: l')) with ((b_end a <=? b_off b) && sorted_disjoint (b :: l')).
  rewrite andb_assoc. reflexivity.
Qed.

Lemma sdt_rev l : sorted_disjoint (rev l) = sdt l.
Proof.
  induction l as [|a l IH]; [reflexivity|]. simpl rev. rewrite sorted_disjoint_snoc, IH.
  destruct l as [|b l']; [reflexivity|].
  assert (Hne : rev (b :: l') <> []) by (simpl; destruct (rev l'); discriminate).
  destruct (rev (b :: l')) eqn:E; [congruence|]. rewrite <- E.
  assert (Hl : last (rev (b :: l')) a = b).
  { simpl. rewrite last_last. reflexivity. }
  rewrite Hl. simpl. apply andb_comm.
Qed.

Definition roots_ok (l : list bnode) : Prop := forall n, In n l -> b_off n <= b_end n.

Lemma sdt_head l h : sdt (h :: l) = true -> roots_ok (h :: l) -> forall m, In m l -> b_end m <= b_off h.
Proof.
  revert h. induction l as [|a l IH]; intros h Hs Hr m Hin; [destruct Hin|].
  simpl in Hs. apply andb_true_iff in Hs. destruct Hs as [H1 H2]. apply Z.leb_le in H1.
  destruct Hin as [<-|Hin]; [exact H1|].
  assert (Hra : roots_ok (a :: l)) by (intros n Hn; apply Hr; right; exact Hn).
  specialize (IH a H2 Hra m Hin). pose proof (Hr a (or_intror (or_introl eq_refl))). lia.
Qed.

Lemma sdt_tail h l : sdt (h :: l) = true -> sdt l = true.
Proof. destruct l; [reflexivity|]. simpl. intros H. apply andb_true_iff in H. tauto. Qed.

Lemma sdt_app a b : sdt (a ++ b) = true <->
  sdt a = true /\ sdt b = true /\ (match a, b with [], _ | _, [] => True | _, y :: _ => b_end y <= b_off (last a y) end).
Proof.
  induction a as [|x a IH]; simpl app.
  - simpl. tauto.
  - destruct a as [|x' a'].
    + simpl. destruct b as [|y b']; simpl; [tauto|]. rewrite andb_true_iff, Z.leb_le. tauto.
    + change (sdt ((x :: x' :: a') ++ b)) with (sdt (x :: (x' :: a') ++ b)).
      change (sdt (x :: (x' :: a') ++ b)) with ((b_end x' <=? b_off x) && sdt ((x' :: a') ++ b)).
      change (sdt (x :: x' :: a')) with ((b_end x' <=? b_off x) && sdt (x' :: a')).
      rewrite !andb_true_iff, IH. destruct b as [|y b']; [tauto|].
      change (last (x :: x' :: a') y) with (last (x' :: a') y). tauto.
Qed.

Lemma scan_spec st off : forall s u, scan st off = (s, u) ->
  st = s ++ u /\ (forall n, In n s -> off <= b_off n) /\ match u with [] => True | h :: _ => b_off h < off end.
Proof.
  induction st as [|n rest IH]; intros s u E; simpl in E.
  - injection E as <- <-. simpl. tauto.
  - destruct (b_off n >=? off) eqn:C.
    + destruct (scan rest off) as [s' u'] eqn:E'. injection E as <- <-.
      destruct (IH _ _ eq_refl) as (H1 & H2 & H3). subst rest. repeat split; auto.
      intros m [<-|Hm]; [apply Z.geb_le in C; lia|auto].
    + injection E as <- <-. simpl. repeat split; [tauto|]. rewrite Z.geb_leb in C. apply Z.leb_gt in C. exact C.
Qed.

(* on a top-first list of disjoint roots, the entries that start at or after en are a prefix *)
Lemma filter_off_prefix en l : sdt l = true -> roots_ok l ->
  let k := length (filter (fun n => b_off n >=? en) l) in
  Forall (fun n => en <= b_off n) (firstn k l) /\ Forall (fun n => b_off n < en) (skipn k l).
Proof.
  induction l as [|h l IH]; intros Hs Hr; [split; constructor|].
  assert (Hr' : roots_ok l) by (intros n Hn; apply Hr; right; exact Hn).
  destruct (IH (sdt_tail _ _ Hs) Hr') as [I1 I2]. cbn [filter]. destruct (Z.geb_spec (b_off h) en) as [Ph|Ph].
  - split; [constructor; assumption|exact I2].
  - assert (Hall : Forall (fun n => b_off n < en) l).
    { apply Forall_forall. intros n Hn. pose proof (sdt_head _ _ Hs Hr n Hn). pose proof (Hr' n Hn). lia. }
    assert (Hf : filter (fun n => b_off n >=? en) l = []).
    { clear -Hall. induction Hall as [|n l Hn _ IH]; [reflexivity|]. simpl. rewrite IH. destruct (Z.geb_spec (b_off n) en); [lia|reflexivity]. }
    rewrite Hf. split; constructor; assumption.
Qed.

Definition root_event (n : bnode) : bevent := (b_ty n, b_off n, b_end n).

Lemma root_in_nodes n : In (root_event n) (nodes n).
Proof. destruct n as [t o e ch]. rewrite nodes_unfold. apply in_or_app. right. left. reflexivity. Qed.

Lemma root_in_forest n l : In n l -> In (root_event n) (forest_nodes l).
Proof. intros H. unfold forest_nodes. apply in_flat_map. exists n. split; [exact H|apply root_in_nodes]. Qed.

Lemma forest_nodes_app a b : forest_nodes (a ++ b) = forest_nodes a ++ forest_nodes b.
Proof. apply flat_map_app. Qed.

Lemma forest_nodes_rev l : Permutation (forest_nodes (rev l)) (forest_nodes l).
Proof.
  induction l as [|a l IH]; [constructor|]. simpl rev. rewrite forest_nodes_app. simpl.
  unfold forest_nodes at 2. simpl. rewrite app_nil_r. fold (forest_nodes l).
  eapply Permutation_trans; [apply Permutation_app_comm|]. apply Permutation_app_head. exact IH.
Qed.

Lemma perm_shuffle {A} (a c b : list A) (e : A) (c' seen : list A) :
  Permutation c' c -> Permutation ((a ++ c) ++ b) seen -> Permutation (a ++ (c' ++ [e]) ++ b) (e :: seen).
Proof.
  intros H1 H2. transitivity (e :: a ++ c' ++ b).
  - rewrite <- app_assoc. simpl. rewrite app_assoc. apply Permutation_sym. rewrite <- app_assoc.
    rewrite (app_assoc a c' (e :: b)). rewrite (app_assoc a c' b). apply Permutation_middle.
  - apply perm_skip. transitivity ((a ++ c) ++ b); [|exact H2]. rewrite <- app_assoc.
    apply Permutation_app_head. apply Permutation_app_tail. exact H1.
Qed.

Definition binv (seen : list bevent) (st : list bnode) : Prop :=
  sdt st = true /\ forallb wf_bnode st = true /\ Permutation (forest_nodes st) seen.

Lemma wf_bnode_range n : wf_bnode n = true -> b_off n <= b_end n.
Proof. destruct n as [t o e ch]. rewrite wf_bnode_unfold, !andb_true_iff. intros [[H _] _]. apply Z.leb_le in H. exact H. Qed.

Lemma compatible_iff a b : compatible a b = true <->
  ev_end a <= ev_off b \/ ev_end b <= ev_off a \/ (ev_off b <= ev_off a /\ ev_end a <= ev_end b).
Proof. unfold compatible. rewrite !orb_true_iff, andb_true_iff, !Z.leb_le. tauto. Qed.

(* the top-first roots after ++ children ++ below, with the children made one new node: what add_node leaves *)
Lemma splice_inv seen after children below ty off en :
  binv seen (after ++ children ++ below) -> off <= en ->
  (forall n, In n after -> en <= b_off n) ->
  (forall n, In n children -> off <= b_off n /\ b_end n <= en) ->
  match below with [] => True | h :: _ => b_end h <= off end ->
  binv ((ty, off, en) :: seen) (after ++ BNode ty off en (rev children) :: below).
Proof.
  intros (Hsd & Hwf & Hperm) Hoe Hafter Hchildren Hbelow. rewrite forallb_forall in Hwf.
  apply sdt_app in Hsd. destruct Hsd as (Hsd_a & Hsd_cb & _). apply sdt_app in Hsd_cb. destruct Hsd_cb as (Hsd_c & Hsd_b & _).
  split; [|split].
  - apply sdt_app. split; [exact Hsd_a|]. split.
    + destruct below as [|h below']; [reflexivity|]. simpl. apply andb_true_iff. split; [apply Z.leb_le; exact Hbelow|exact Hsd_b].
    + destruct after as [|a0 after']; [exact I|]. simpl b_end. apply Hafter. apply last_in. discriminate.
  - apply forallb_forall. intros n Hn. apply in_app_or in Hn. destruct Hn as [Hn|[<-|Hn]].
    + apply Hwf. apply in_or_app. left. exact Hn.
    + rewrite wf_bnode_unfold, !andb_true_iff. repeat split.
      * apply Z.leb_le. exact Hoe.
      * rewrite sdt_rev. exact Hsd_c.
      * apply forallb_forall. intros c Hcin. apply in_rev in Hcin. destruct (Hchildren c Hcin) as [H1 H2].
        rewrite !andb_true_iff, !Z.leb_le. repeat split; auto. apply Hwf. apply in_or_app. right. apply in_or_app. left. exact Hcin.
    + apply Hwf. apply in_or_app. right. apply in_or_app. right. exact Hn.
  - rewrite forest_nodes_app.
    change (forest_nodes (BNode ty off en (rev children) :: below))
      with ((forest_nodes (rev children) ++ [(ty, off, en)]) ++ forest_nodes below).
    rewrite app_assoc, !forest_nodes_app in Hperm.
    apply (perm_shuffle _ (forest_nodes children)); [apply forest_nodes_rev|exact Hperm].
Qed.

Lemma add_node_inv seen st e :
  binv seen st -> ev_off e <= ev_end e -> (forall a, In a seen -> compatible a e = true) ->
  binv (e :: seen) (add_node st e).
Proof.
  intros Hinv Hoe Hcompat. destruct e as [[ty off] en]. unfold ev_off, ev_end in Hoe. simpl in Hoe. unfold add_node.
  destruct (scan st off) as [scanned below] eqn:Esc.
  destruct (scan_spec _ _ _ _ Esc) as (Est & Hscanned & Hbelow). subst st.
  pose proof Hinv as (Hsd & Hwf & Hperm). rewrite forallb_forall in Hwf.
  assert (Hroots : roots_ok (scanned ++ below)) by (intros n Hn; apply wf_bnode_range, Hwf, Hn).
  (* every root is compatible with the new event: before it, after it, or inside it *)
  assert (Hc : forall n, In n (scanned ++ below) -> b_end n <= off \/ en <= b_off n \/ (off <= b_off n /\ b_end n <= en)).
  { intros n Hn. apply (proj1 (compatible_iff (root_event n) (ty, off, en))), Hcompat. eapply Permutation_in; [exact Hperm|]. apply root_in_forest. exact Hn. }
  apply sdt_app in Hsd. destruct Hsd as (Hsd_s & _ & _).
  assert (Hroots_s : roots_ok scanned) by (intros n Hn; apply Hroots, in_or_app; left; exact Hn).
  destruct (filter_off_prefix en scanned Hsd_s Hroots_s) as [Hafter Hlow]. cbv zeta in Hafter, Hlow.
  set (k := length (filter (fun n => b_off n >=? en) scanned)) in *. rewrite Forall_forall in Hafter, Hlow.
  rewrite <- (firstn_skipn k scanned), <- app_assoc in Hinv, Hc, Hroots.
  apply splice_inv; [exact Hinv|exact Hoe|exact Hafter| |].
  - intros n Hn. specialize (Hlow n Hn). pose proof (Hscanned n (In_skipn _ _ _ Hn)).
    assert (Hin : In n (firstn k scanned ++ skipn k scanned ++ below)) by (apply in_or_app; right; apply in_or_app; left; exact Hn).
    pose proof (Hroots n Hin). destruct (Hc n Hin) as [H1|[H1|H1]]; lia.
  - destruct below as [|h below']; [exact I|].
    assert (Hin : In h (firstn k scanned ++ skipn k scanned ++ h :: below')) by (do 2 (apply in_or_app; right); left; reflexivity).
    pose proof (Hroots h Hin). destruct (Hc h Hin) as [H1|[H1|H1]]; lia.
Qed.

Lemma ok_events_from_inv evs : forall seen st, binv seen st -> ok_events_from seen evs = true ->
  binv (rev evs ++ seen) (fold_left add_node evs st).
Proof.
  induction evs as [|e evs IH]; intros seen st Hinv Hok; [exact Hinv|].
  simpl in Hok. rewrite !andb_true_iff in Hok. destruct Hok as [[H1 H2] H3]. apply Z.leb_le in H1.
  rewrite forallb_forall in H2. simpl. rewrite <- app_assoc. simpl.
  apply IH; [|exact H3]. apply add_node_inv; auto.
Qed.

Theorem builder_correct evs : ok_events evs = true ->
  wf_forest (rev (build evs)) = true /\ Permutation (forest_nodes (rev (build evs))) evs.
Proof.
  intros Hok. unfold ok_events in Hok. unfold build.
  assert (H0 : binv [] []) by (repeat split; constructor).
  destruct (ok_events_from_inv evs [] [] H0 Hok) as (Hsd & Hwf & Hperm). rewrite app_nil_r in Hperm.
  split.
  - unfold wf_forest. rewrite sdt_rev, Hsd. simpl. apply forallb_forall. intros n Hn. apply in_rev in Hn.
    rewrite forallb_forall in Hwf. apply Hwf. exact Hn.
  - eapply Permutation_trans; [apply forest_nodes_rev|]. eapply Permutation_trans; [exact Hperm|]. apply Permutation_sym, Permutation_rev.
Qed.
