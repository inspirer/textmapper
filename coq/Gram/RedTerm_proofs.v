(* C19: the configurations RedTerm.check_redterm speaks about, and what one reduction of the plain loop does to them.
   The bounds on reduction sequences that follow are in RedTermFuel_proofs.v. *)
From Coq Require Import List ZArith Bool Lia.
From TM Require Import Lib.ListX Gram.PTables Gram.Run Gram.Validator_proofs Gram.Events Gram.XStep_proofs Gram.Recover
  Gram.Recover_progress Gram.RedTerm.
Import ListNotations.
Local Open Scope Z_scope.

Section R.
Variable p : rparams.
Variables nstates T NS : Z.
Variable F : nat.

Notation m := (rp_m p).
Notation eoi := (rp_eoi_off p).

Hypothesis Hnm : lalr1 p.
Hypothesis Hrt : check_redterm m nstates T NS F = true.
Hypothesis Hrg : check_range m nstates T NS = true.

Definition nsym (x : xconfig) : Z := t_sym (next_tok eoi (xc_input x)).

Definition xinv (x : xconfig) : Prop :=
  xc_stack x <> [] /\ Forall (fun e => 0 <= x_state e < nstates) (xc_stack x) /\
  xc_state x = x_state (hd xdummy (xc_stack x)) /\ 0 <= nsym x < T.

(* the shape every reduction leaves: the top state is a goto of the state below it *)
Definition formed (x : xconfig) : Prop :=
  exists e_t e_b rest A, xc_stack x = e_t :: e_b :: rest /\ x_state e_t = m_goto m (x_state e_b) A /\ 0 <= A < NS.

Lemma okst_iff s : okst nstates s = true <-> 0 <= s < nstates.
Proof. unfold okst. rewrite andb_true_iff, Z.leb_le, Z.ltb_lt. tauto. Qed.

Lemma L_rt a b A : 0 <= a < T -> 0 <= b < nstates -> 0 <= A < NS -> 0 <= m_goto m b A < nstates ->
  rt_sim F m a b [m_goto m b A] = true.
Proof.
  intros Ha Hb HA Ht. unfold check_redterm in Hrt. rewrite forallb_forall in Hrt.
  specialize (Hrt b (proj2 (in_zrange0 _ _) Hb)). rewrite forallb_forall in Hrt.
  specialize (Hrt A (proj2 (in_zrange0 _ _) HA)). cbv zeta in Hrt.
  rewrite (proj2 (okst_iff _) Ht) in Hrt. rewrite forallb_forall in Hrt.
  exact (Hrt a (proj2 (in_zrange0 _ _) Ha)).
Qed.

Lemma range_parts :
  1 <= T /\
  (forall s a, 0 <= s < nstates -> 0 <= a < T ->
     match m_act m s a [] with
     | Reduce r => 0 <= m_rule_sym m r < NS
     | Shift q => 0 <= q < nstates
     | _ => True end) /\
  (forall b A, 0 <= b < nstates -> 0 <= A < NS -> m_goto m b A = -1 \/ 0 <= m_goto m b A < nstates).
Proof.
  unfold check_range in Hrg. rewrite !andb_true_iff in Hrg. destruct Hrg as [[H1 H2] H3].
  split; [apply Z.leb_le; exact H1|]. split.
  - intros s a Hs Ha. rewrite forallb_forall in H2. specialize (H2 s (proj2 (in_zrange0 _ _) Hs)).
    rewrite forallb_forall in H2. specialize (H2 a (proj2 (in_zrange0 _ _) Ha)).
    destruct (m_act m s a []) as [q|r| |row]; try exact I.
    + apply okst_iff. exact H2.
    + rewrite andb_true_iff, Z.leb_le, Z.ltb_lt in H2. exact H2.
  - intros b A Hb HA. rewrite forallb_forall in H3. specialize (H3 b (proj2 (in_zrange0 _ _) Hb)).
    rewrite forallb_forall in H3. specialize (H3 A (proj2 (in_zrange0 _ _) HA)). cbv zeta in H3.
    rewrite orb_true_iff, Z.eqb_eq in H3. destruct H3 as [H3|H3]; [left; exact H3|right; apply okst_iff; exact H3].
Qed.

Lemma xinv_top x : xinv x -> 0 <= xc_state x < nstates.
Proof. intros (Hne & Hall & -> & _). destruct (xc_stack x); [congruence|]. inversion Hall; subst. assumption. Qed.

Lemma plain_reduce_inv x x' : xinv x -> plain_reduce p x = Some x' ->
  xinv x' /\ formed x' /\ nsym x' = nsym x /\
  exists rule e, m_act m (xc_state x) (nsym x) [] = Reduce rule /\
    (Z.to_nat (m_rule_len m rule) < length (xc_stack x))%nat /\ goto_after m (xc_stack x) rule <> -1 /\
    xc_stack x' = e :: skipn (Z.to_nat (m_rule_len m rule)) (xc_stack x) /\ x_state e = goto_after m (xc_stack x) rule.
Proof.
  intros Hinv Epr. pose proof (xinv_top x Hinv) as Hs. destruct Hinv as (Hne & Hall & Hst0 & Ha).
  destruct (plain_reduce_cases p Hnm x) as [rule e evs Hact Hl Hg _ Hq Epr'|_ Epr']; rewrite Epr' in Epr; [injection Epr as <-; unfold reduced|discriminate].
  destruct range_parts as (_ & Hred & Hgoto). specialize (Hred _ _ Hs Ha). fold (nsym x) in Hact. rewrite Hact in Hred.
  set (ln := Z.to_nat (m_rule_len m rule)) in *.
  pose proof (Forall_skipn' _ ln _ Hall) as Hall'. unfold goto_after in Hq, Hg. fold ln in Hq, Hg.
  destruct (skipn ln (xc_stack x)) as [|e_b rest'] eqn:Esk.
  { exfalso. pose proof (skipn_length ln (xc_stack x)) as Hlen. rewrite Esk in Hlen. simpl in Hlen. lia. }
  assert (Hb : 0 <= x_state e_b < nstates) by (inversion Hall'; subst; assumption).
  assert (Hstr : 0 <= x_state e < nstates).
  { rewrite Hq. destruct (Hgoto (x_state e_b) (m_rule_sym m rule) Hb Hred) as [H|H]; [contradiction|exact H]. }
  split; [|split; [|split; [reflexivity|]]].
  - unfold xinv. cbn [xc_stack xc_state hd]. split; [discriminate|]. split; [constructor; assumption|]. split; [unfold goto_after; fold ln; rewrite Esk; symmetry; exact Hq|exact Ha].
  - exists e, e_b, rest', (m_rule_sym m rule). cbn [xc_stack]. auto.
  - exists rule, e. unfold goto_after. fold ln. rewrite Esk. auto 6.
Qed.

End R.
