(* C19: soundness of the validator RedTerm.check_redterm: on a machine passing check_redterm and check_range, every
   configuration of the plain loop whose stack states are table states and whose next terminal is a terminal of the
   grammar admits at most (height + 1) * F + 1 consecutive reductions; amortised: k consecutive reductions from a
   stack of height d to one of height d' satisfy  k + F * d' <= F * d + F^2 + 2 F + 1  (a phase that pops its anchor
   pays its <= F steps with the entry it removes; only the last phase can raise the stack, by at most F). *)
From Coq Require Import List ZArith Lia.
From TM Require Import Gram.Run Gram.Events Gram.XStep_proofs Gram.Recover Gram.Recover_progress Gram.RedTerm Gram.RedTerm_proofs.
Import ListNotations.
Local Open Scope Z_scope.

Fixpoint reduce_n (p : rparams) (n : nat) (x : xconfig) : option xconfig :=
  match n with O => Some x | S k => match plain_reduce p x with Some x' => reduce_n p k x' | None => None end end.

Lemma reduce_n_reduces p k : forall x y, reduce_n p k x = Some y -> reduces_for p k x = true.
Proof.
  induction k as [|k IH]; intros x y; simpl; [reflexivity|].
  destruct (plain_reduce p x) as [x'|]; [apply IH|discriminate].
Qed.

Lemma rsteps_reduce_n p eh k c c' : rsteps p eh k c c' -> reduces_for p k (rc_x c) = true -> reduce_n p k (rc_x c) = Some (rc_x c').
Proof.
  induction 1 as [c | k c c1 c' Hne Hst _ IH]; intros Hr; [reflexivity|].
  cbn [reduces_for] in Hr. cbn [reduce_n].
  destruct (plain_reduce p (rc_x c)) as [x'|] eqn:Hpr; [|discriminate].
  destruct c as [x r errs l]. cbn [rc_x] in *.
  rewrite (rstep_of_plain_reduce p eh x x' r errs l Hpr) in Hst. injection Hst as <-. apply IH. exact Hr.
Qed.

Section R.
Variable p : rparams.
Variables nstates T NS : Z.
Variable F : nat.
Notation m := (rp_m p).
Hypothesis Hnm : lalr1 p.
Hypothesis Hrt : check_redterm m nstates T NS F = true.
Hypothesis Hrg : check_range m nstates T NS = true.
Notation xinv := (xinv p nstates T).
Notation formed := (formed p NS).
Notation nsym := (nsym p).
Notation dep x := (length (xc_stack x)).

Lemma reduces_for_n k : forall x, reduces_for p k x = true -> exists y, reduce_n p k x = Some y.
Proof.
  induction k as [|k IH]; intros x; simpl; [eauto|].
  destruct (plain_reduce p x) as [x'|]; [apply IH|discriminate].
Qed.

(* The anchored phase of the validator, replayed on a real stack: ab are the states above the anchor entry e_b.
   A run of k reductions from x either stays inside the phase, hence is shorter than its fuel f and raises the
   stack by at most k, or passes, after j <= f reductions, through the configuration in which the anchor has just
   been popped: a strictly lower stack of the shape every reduction leaves. *)
Lemma anchored_phase a b e_b rest : x_state e_b = b ->
  forall f ab x Eab, rt_sim f m a b ab = true ->
  xinv x -> xc_stack x = Eab ++ e_b :: rest -> map x_state Eab = ab -> ab <> [] -> nsym x = a ->
  forall k y, reduce_n p k x = Some y ->
  ((k < f)%nat /\ (dep y <= dep x + k)%nat) \/
  exists j x', (j <= f)%nat /\ (j <= k)%nat /\ xinv x' /\ formed x' /\ (dep x' <= S (length rest))%nat /\
    reduce_n p (k - j) x' = Some y.
Proof.
  intros Heb. induction f as [|f IH]; intros ab x Eab Hsim Hinv Hstk Hmap Hab Hsym k y Hk; [discriminate|].
  destruct k as [|k]; [injection Hk as <-; left; lia|].
  cbn [rt_sim] in Hsim. cbn [reduce_n] in Hk.
  destruct (plain_reduce p x) as [x1|] eqn:Hpr; [|discriminate].
  destruct (plain_reduce_inv p nstates T NS Hnm Hrg x x1 Hinv Hpr) as (Hinv1 & Hform1 & Hsym1 & rule & e & Hact & Hlt & Hg & Hstk1 & He).
  set (ln := Z.to_nat (m_rule_len m rule)) in *.
  assert (Htop : xc_state x = hd b ab).
  { destruct Hinv as (_ & _ & -> & _). rewrite Hstk, <- Hmap. destruct Eab; [simpl in Hmap; congruence|reflexivity]. }
  rewrite <- Htop, <- Hsym, Hact in Hsim. fold ln in Hsim.
  assert (HlenE : length Eab = length ab) by (rewrite <- Hmap; symmetry; apply map_length).
  assert (Hdep : dep x = (length ab + S (length rest))%nat) by (rewrite Hstk, app_length, HlenE; reflexivity).
  assert (Hdep1 : dep x1 = S (dep x - ln)) by (rewrite Hstk1; simpl; rewrite skipn_length; reflexivity).
  destruct (Nat.ltb_spec (length ab) ln) as [Elt|Elt].
  - (* the reduction pops the anchor *)
    right. exists 1%nat, x1. replace (S k - 1)%nat with k by lia. repeat (split; [assumption || lia|]). exact Hk.
  - assert (Hsk : skipn ln (xc_stack x) = skipn ln Eab ++ e_b :: rest).
    { rewrite Hstk, skipn_app. replace (ln - length Eab)%nat with O by lia. reflexivity. }
    assert (Hbelow : goto_after m (xc_stack x) rule = m_goto m (hd b (skipn ln ab)) (m_rule_sym m rule)).
    { unfold goto_after. fold ln. rewrite Hsk, <- Hmap, skipn_map. destruct (skipn ln Eab); simpl; congruence. }
    rewrite <- Hbelow in Hsim. apply Z.eqb_neq in Hg. rewrite Hg, Hsym in Hsim.
    destruct (IH _ x1 (e :: skipn ln Eab) Hsim Hinv1) with (k := k) (y := y) as [[H1 H2]|(j & x' & Hj & Hjk & H')]; try assumption.
    + rewrite Hstk1, Hsk. reflexivity.
    + simpl. rewrite He, <- Hmap, skipn_map. reflexivity.
    + discriminate.
    + congruence.
    + left. lia.
    + right. exists (S j), x'. split; [lia|]. split; [lia|exact H'].
Qed.

Lemma formed_phase x : xinv x -> formed x ->
  exists n, dep x = S (S n) /\
  forall k y, reduce_n p k x = Some y ->
  ((k < F)%nat /\ (dep y <= dep x + k)%nat) \/
  exists j x', (j <= F)%nat /\ (j <= k)%nat /\ xinv x' /\ formed x' /\ (dep x' <= S n)%nat /\ reduce_n p (k - j) x' = Some y.
Proof.
  intros Hinv (e_t & e_b & rest & A & Hstk & Ht & HA). exists (length rest). split; [rewrite Hstk; reflexivity|].
  pose proof Hinv as (_ & Hall & _ & Ha). rewrite Hstk in Hall.
  inversion Hall as [|? ? Het Hall1]; subst. inversion Hall1 as [|? ? Heb _]; subst. rewrite Ht in Het.
  apply (anchored_phase (nsym x) (x_state e_b) e_b rest eq_refl F [m_goto m (x_state e_b) A] x [e_t]); auto.
  - apply (L_rt p nstates T NS F Hrt); assumption.
  - simpl. rewrite Ht. reflexivity.
  - discriminate.
Qed.

(* a stack of height <= h left by a reduction admits at most h * F further reductions *)
Theorem formed_bound : forall h x, xinv x -> formed x -> (dep x <= h)%nat -> reduces_for p (h * F + 1) x = false.
Proof.
  induction h as [|h IH]; intros x Hinv Hform Hlen; destruct (formed_phase x Hinv Hform) as (n & Hd & Hph); [lia|].
  destruct (reduces_for p (S h * F + 1) x) eqn:E; [exfalso|reflexivity].
  destruct (reduces_for_n _ x E) as (y & Hy).
  destruct (Hph _ y Hy) as [[H1 _]|(j & x' & Hj & _ & Hinv' & Hform' & Hd' & Hy')]; [lia|].
  apply reduce_n_reduces in Hy'. pose proof (reduces_for_lt p _ _ _ Hy' (IH x' Hinv' Hform' ltac:(lia))). lia.
Qed.

(* every configuration of the invariant: at most (height + 1) * F + 1 consecutive reductions *)
Theorem redterm_bound x : xinv x -> reduces_for p (S (S (dep x) * F + 1)) x = false.
Proof.
  intros Hinv. cbn [reduces_for]. destruct (plain_reduce p x) as [x'|] eqn:Hpr; [|reflexivity].
  destruct (plain_reduce_inv p nstates T NS Hnm Hrg x x' Hinv Hpr) as (Hinv' & Hform' & _ & rule & e & _ & _ & _ & Hs & _).
  apply formed_bound; try assumption. rewrite Hs. simpl. rewrite skipn_length. lia.
Qed.

Theorem formed_bound2 : forall h x, xinv x -> formed x -> (dep x <= h)%nat ->
  forall k y, reduce_n p k x = Some y -> (k + F * dep y <= F * h + F * F + F)%nat.
Proof.
  induction h as [|h IH]; intros x Hinv Hform Hlen k y Hy; destruct (formed_phase x Hinv Hform) as (n & Hd & Hph); [lia|].
  destruct (Hph k y Hy) as [[H1 H2]|(j & x' & Hj & Hjk & Hinv' & Hform' & Hd' & Hy')].
  - apply (mul_le_add F) in H2. pose proof (Nat.mul_le_mono_l _ _ F Hlen). pose proof (Nat.mul_le_mono_l k F F ltac:(lia)). lia.
  - pose proof (IH x' Hinv' Hform' ltac:(lia) _ y Hy'). lia.
Qed.

Theorem redterm_amortized x : xinv x -> forall k y, reduce_n p k x = Some y ->
  (k + F * dep y <= F * dep x + F * F + 2 * F + 1)%nat.
Proof.
  intros Hinv k y Hk. destruct k as [|k]; [simpl in Hk; injection Hk as <-; lia|].
  cbn [reduce_n] in Hk. destruct (plain_reduce p x) as [x'|] eqn:Hpr; [|discriminate].
  destruct (plain_reduce_inv p nstates T NS Hnm Hrg x x' Hinv Hpr) as (Hinv' & Hform' & _ & rule & e & _ & _ & _ & Hs & _).
  pose proof (formed_bound2 (S (dep x)) x' Hinv' Hform' ltac:(rewrite Hs; simpl; rewrite skipn_length; lia) k y Hk). lia.
Qed.

End R.
