(* The Names table that push_name / convert (Gram/ActionRefs.v) build: every entry of every command's table maps
   name / name#0  to the positions of the FIRST push of that name and  name#k  to those of its k-th push (pushes in
   textual order, an alias after its content); an alias is pushed with exactly the positions of the symbols beneath
   it; the invariant of convert (inv) also keeps the top-level table exact (exact_top). *)
From Coq Require Import List NArith ZArith Bool Lia.
From TM Require Import Gram.ActionRefs Gram.ActionRefs_proofs.
Import ListNotations.
Local Open Scope nat_scope.

Lemma name_eqb_eq : forall a b, name_eqb a b = true <-> a = b.
Proof.
  intros [a1 a2] [b1 b2]. unfold name_eqb. cbn [fst snd]. rewrite andb_true_iff, N.eqb_eq.
  destruct a2 as [x|], b2 as [y|]; split; intro H.
  - destruct H as [-> H]. apply N.eqb_eq in H. now subst.
  - inversion H; subst. split; [reflexivity|apply N.eqb_refl].
  - destruct H as [_ H]. discriminate.
  - discriminate.
  - destruct H as [_ H]. discriminate.
  - discriminate.
  - destruct H as [-> _]. reflexivity.
  - inversion H; subst. split; reflexivity.
Qed.

Lemma name_eqb_neq : forall a b, name_eqb a b = false <-> a <> b.
Proof.
  intros a b. split.
  - intros H E. apply name_eqb_eq in E. congruence.
  - intro H. destruct (name_eqb a b) eqn:E; [|reflexivity]. apply name_eqb_eq in E. contradiction.
Qed.

Lemma nm_get_del : forall m k k', nm_get (nm_del m k) k' = if name_eqb k k' then None else nm_get m k'.
Proof.
  induction m as [|[k0 v] r IH]; intros k k'; cbn [nm_del nm_get].
  - now destruct (name_eqb k k').
  - destruct (name_eqb k0 k) eqn:E0.
    + apply name_eqb_eq in E0. subst k0. rewrite IH. now destruct (name_eqb k k').
    + cbn [nm_get]. rewrite IH. destruct (name_eqb k k') eqn:E1; [|reflexivity].
      apply name_eqb_eq in E1. subst k'. now rewrite E0.
Qed.

Lemma nm_get_set : forall m k v k', nm_get (nm_set m k v) k' = if name_eqb k k' then Some v else nm_get m k'.
Proof.
  intros m k v k'. unfold nm_set. cbn [nm_get]. rewrite nm_get_del. now destruct (name_eqb k k').
Qed.

Lemma nm_get_In : forall m k v, nm_get m k = Some v -> In (k, v) m.
Proof.
  induction m as [|[k0 v0] r IH]; intros k v H; cbn [nm_get] in H; [discriminate|].
  destruct (name_eqb k0 k) eqn:E.
  - apply name_eqb_eq in E. subst k0. left. congruence.
  - right. now apply IH.
Qed.

Lemma In_nm_del : forall m k x, In x (nm_del m k) -> In x m.
Proof.
  induction m as [|[k0 v0] r IH]; intros k x H; cbn [nm_del] in H; [exact H|].
  destruct (name_eqb k0 k).
  - right. eapply IH; exact H.
  - destruct H as [H|H]; [now left|right; eapply IH; exact H].
Qed.

Lemma In_nm_set : forall m k v x, In x (nm_set m k v) -> x = (k, v) \/ In x m.
Proof.
  intros m k v x [H|H]; [left; now symmetry | right; eapply In_nm_del; exact H].
Qed.

Lemma nm_del_length : forall m k, length (nm_del m k) <= length m.
Proof.
  induction m as [|[k0 v0] r IH]; intro k; cbn [nm_del]; [lia|].
  specialize (IH k). destruct (name_eqb k0 k); cbn [length]; lia.
Qed.

Lemma nm_del_length_lt : forall m k, nm_get m k <> None -> length (nm_del m k) < length m.
Proof.
  induction m as [|[k0 v0] r IH]; intros k H; cbn [nm_del nm_get] in *; [congruence|].
  destruct (name_eqb k0 k).
  - pose proof (nm_del_length r k). cbn [length]. lia.
  - specialize (IH k H). cbn [length]. lia.
Qed.

(* as many distinct keys name#0 .. name#(n-1) are bound, as many entries the map has *)
Lemma bound_keys_count : forall nm n m,
  (forall j, j < n -> nm_get m (nm, Some (N.of_nat j)) <> None) -> n <= length m.
Proof.
  intros nm. induction n as [|n IH]; intros m H; [lia|].
  pose proof (nm_del_length_lt m (nm, Some (N.of_nat n)) (H n (Nat.lt_succ_diag_r n))) as Hlt.
  assert (Hn : n <= length (nm_del m (nm, Some (N.of_nat n)))).
  { apply IH. intros j Hj. rewrite nm_get_del.
    destruct (name_eqb (nm, Some (N.of_nat n)) (nm, Some (N.of_nat j))) eqn:E.
    - apply name_eqb_eq in E. inversion E as [E']. apply Nat2N.inj in E'. lia.
    - apply H. lia. }
  lia.
Qed.

(* the pushes of a converted part, in the order convert performs them *)
Definition pushl := list (N * list nat).

Fixpoint pushes (p : part) : pushl :=
  match p with
  | PSym _ nm pos => [(nm, [pos])]
  | PAlias nm q => pushes q ++ match collect q with [] => [] | ps => [(nm, ps)] end
  | POpt q | PScope q => pushes q
  | PSeq a b | PChoice a b => pushes a ++ pushes b
  | PEmpty | PList _ _ | PCmd _ | PMark _ => []
  end.

(* the position lists pushed under the base name nm: occurrence 0, 1, 2, ... *)
Definition occs (nm : N) (l : pushl) : list (list nat) :=
  map snd (filter (fun x => N.eqb (fst x) nm) l).

Lemma occs_app : forall nm l1 l2, occs nm (l1 ++ l2) = occs nm l1 ++ occs nm l2.
Proof. intros. unfold occs. now rewrite filter_app, map_app. Qed.

Lemma occs_one_same : forall nm ps, occs nm [(nm, ps)] = [ps].
Proof. intros. unfold occs. cbn. now rewrite N.eqb_refl. Qed.

Lemma occs_one_other : forall nm nm' ps, nm' <> nm -> occs nm' [(nm, ps)] = [].
Proof.
  intros nm nm' ps H. unfold occs. cbn. destruct (N.eqb nm nm') eqn:E; [|reflexivity].
  apply N.eqb_eq in E. congruence.
Qed.

Lemma occs_In : forall nm l ps, In ps (occs nm l) -> In (nm, ps) l.
Proof.
  intros nm l ps H. unfold occs in H. apply in_map_iff in H. destruct H as ([n q] & E & H).
  apply filter_In in H. destruct H as [H F]. cbn in *. apply N.eqb_eq in F. now subst.
Qed.

(* which occurrence a key denotes: name and name#0 the first one, name#k the k-th *)
Definition key_index (k : option N) : nat := match k with None => 0 | Some i => N.to_nat i end.

(* every entry of the map (also a shadowed one) is right *)
Definition sound_map (l : pushl) (m : nmap) : Prop :=
  forall nm k ps, In ((nm, k), ps) m -> nth_error (occs nm l) (key_index k) = Some ps.

(* what the top-level table must contain for the occurrences o of a name *)
Definition top_spec (o : list (list nat)) (k : option N) : option (list nat) :=
  match o, k with
  | [ps], None => Some ps
  | _ :: _ :: _, Some i => nth_error o (N.to_nat i)
  | _, _ => None
  end.

Definition exact_top (l : pushl) (top : nmap) : Prop :=
  forall nm k, nm_get top (nm, k) = top_spec (occs nm l) k.

Lemma nth_error_app_Some : forall (A : Type) (l l' : list A) n x,
  nth_error l n = Some x -> nth_error (l ++ l') n = Some x.
Proof.
  intros A l l' n x H. rewrite nth_error_app1; [exact H|]. apply nth_error_Some. congruence.
Qed.

Lemma sound_map_app : forall l l' m, sound_map l m -> sound_map (l ++ l') m.
Proof.
  intros l l' m H nm k ps Hin. rewrite occs_app. apply nth_error_app_Some. now apply H.
Qed.

Lemma sound_map_nil : forall l, sound_map l [].
Proof. intros l nm k ps []. Qed.

(* the unbounded Go loop "index++ until name#index is free" ends at the number of occurrences *)
Lemma find_free_spec : forall top nm o,
  (forall j, nm_get top (nm, Some j) = nth_error o (N.to_nat j)) ->
  forall fuel i, N.to_nat i <= length o -> length o - N.to_nat i < fuel ->
  find_free fuel top nm i = N.of_nat (length o).
Proof.
  intros top nm o H. induction fuel as [|f IH]; intros i Hi Hf; [lia|].
  cbn [find_free]. rewrite H.
  destruct (nth_error o (N.to_nat i)) eqn:E.
  - assert (N.to_nat i < length o) by (apply nth_error_Some; congruence).
    apply IH; rewrite N2Nat.inj_succ; lia.
  - apply nth_error_None in E. assert (N.to_nat i = length o) by lia.
    rewrite <- H0. now rewrite N2Nat.id.
Qed.

(* the index push_name chooses, as a function of the occurrences so far *)
Definition next_key (o : list (list nat)) : option N :=
  match o with [] => None | _ => Some (N.of_nat (length o)) end.

Definition rename_first (o : list (list nat)) (nm : N) (m : nmap) : nmap :=
  match o with
  | [v] => nm_del (nm_set m (nm, Some 0%N) v) (nm, None)
  | _ => m
  end.

Lemma pn_fun_spec : forall l top nm ps, exact_top l top ->
  forall m, pn_fun top nm ps m = nm_set (rename_first (occs nm l) nm m) (nm, next_key (occs nm l)) ps.
Proof.
  intros l top nm ps H m. unfold pn_fun.
  pose proof (H nm (Some 0%N)) as H0. pose proof (H nm None) as HN.
  destruct (occs nm l) as [|v0 [|v1 o]] eqn:Eo; cbn [top_spec] in H0, HN.
  - rewrite H0, HN. reflexivity.
  - rewrite H0, HN. reflexivity.
  - rewrite H0. cbn [nth_error N.to_nat]. cbn [rename_first next_key].
    assert (Hall : forall j, nm_get top (nm, Some j) = nth_error (v0 :: v1 :: o) (N.to_nat j)).
    { intro j. rewrite (H nm (Some j)), Eo. reflexivity. }
    assert (Hlen : length (v0 :: v1 :: o) <= length top).
    { apply (bound_keys_count nm). intros j Hj. rewrite Hall, Nat2N.id.
      apply nth_error_Some. exact Hj. }
    rewrite (find_free_spec top nm (v0 :: v1 :: o) Hall).
    + reflexivity.
    + cbn. lia.
    + change (N.to_nat 1%N) with 1. lia.
Qed.

Lemma key_index_next : forall o, key_index (next_key o) = length o.
Proof. destruct o; cbn [next_key key_index]; [reflexivity|]. now rewrite Nat2N.id. Qed.

Lemma pn_fun_sound : forall l top nm ps m, exact_top l top -> sound_map l m ->
  sound_map (l ++ [(nm, ps)]) (pn_fun top nm ps m).
Proof.
  intros l top nm ps m Ht Hm. rewrite (pn_fun_spec l top nm ps Ht).
  intros nm' k ps' Hin. apply In_nm_set in Hin. destruct Hin as [E|Hin].
  - inversion E; subst. rewrite occs_app, occs_one_same, key_index_next.
    rewrite nth_error_app2 by lia. now rewrite Nat.sub_diag.
  - rewrite occs_app. apply nth_error_app_Some.
    destruct (occs nm l) as [|v0 [|v1 o]] eqn:Eo; cbn [rename_first] in Hin; try (now apply Hm).
    apply In_nm_del in Hin. apply In_nm_set in Hin. destruct Hin as [E|Hin]; [|now apply Hm].
    inversion E; subst. rewrite Eo. reflexivity.
Qed.

Lemma top_spec_app_other : forall o k, top_spec (o ++ []) k = top_spec o k.
Proof. intros. now rewrite app_nil_r. Qed.

Lemma name_eqb_same : forall nm a b, name_eqb (nm, a) (nm, b) =
  match a, b with None, None => true | Some x, Some y => N.eqb x y | _, _ => false end.
Proof. intros. unfold name_eqb. cbn [fst snd]. rewrite N.eqb_refl. reflexivity. Qed.

Lemma nth_error_snoc : forall (A : Type) (l : list A) x i,
  nth_error (l ++ [x]) i = if i =? length l then Some x else nth_error l i.
Proof.
  intros A l x i. destruct (Nat.eqb_spec i (length l)) as [->|Hne]; [rewrite nth_error_app2, Nat.sub_diag by lia; reflexivity|].
  destruct (Nat.lt_ge_cases i (length l)); [apply nth_error_app1; assumption|].
  rewrite (proj2 (nth_error_None l i)) by lia. apply nth_error_None. rewrite app_length. simpl. lia.
Qed.

Lemma pn_fun_exact : forall l top nm ps, exact_top l top ->
  exact_top (l ++ [(nm, ps)]) (pn_fun top nm ps top).
Proof.
  intros l top nm ps Ht. rewrite (pn_fun_spec l top nm ps Ht). intros nm' k. rewrite occs_app, nm_get_set.
  destruct (N.eq_dec nm' nm) as [->|Hne].
  - rewrite occs_one_same, name_eqb_same. pose proof (Ht nm k) as Hn.
    destruct (occs nm l) as [|v0 [|v1 o]] eqn:Eo; cbn [rename_first next_key app length].
    + destruct k; [exact Hn|reflexivity].
    + rewrite nm_get_del, nm_get_set, !name_eqb_same. destruct k as [i|]; [|reflexivity].
      cbn [top_spec]. change (N.of_nat 1) with 1%N.
      destruct (N.eqb_spec 1 i) as [<-|H1]; [reflexivity|]. destruct (N.eqb_spec 0 i) as [<-|H0]; [reflexivity|].
      rewrite Hn. symmetry. apply nth_error_None. cbn [length]. lia.
    + destruct k as [i|]; [|exact Hn]. cbn [top_spec] in *. change (v0 :: v1 :: o ++ [ps]) with ((v0 :: v1 :: o) ++ [ps]).
      rewrite nth_error_snoc, Hn. cbn [length]. destruct (N.eqb_spec (N.of_nat (S (S (length o)))) i) as [<-|Hi].
      * rewrite Nat2N.id, Nat.eqb_refl. reflexivity.
      * destruct (Nat.eqb_spec (N.to_nat i) (S (S (length o)))) as [E|_]; [|reflexivity].
        exfalso. apply Hi. rewrite <- E. apply N2Nat.id.
  - rewrite (occs_one_other nm nm' ps Hne), app_nil_r, <- (Ht nm' k).
    assert (Hk : forall x, name_eqb (nm, x) (nm', k) = false) by (intro x; apply name_eqb_neq; congruence).
    rewrite Hk. destruct (occs nm l) as [|v0 [|v1 o]]; cbn [rename_first]; try reflexivity.
    now rewrite nm_get_del, Hk, nm_get_set, Hk.
Qed.

Definition bounded (l : pushl) (hi : nat) : Prop :=
  Forall (fun x => Forall (fun q => 1 <= q < hi) (snd x)) l.

(* the table recorded for a command is right for a prefix of the pushes, all below its MaxPos *)
Definition cmd_ok (l : pushl) (x : N * cmdargs) : Prop :=
  exists l0 l1, l = l0 ++ l1 /\ sound_map l0 (ca_names (snd x)) /\ bounded l0 (ca_maxpos (snd x)).

Record inv (l : pushl) (s : cst) : Prop := mkInv {
  i_exact : exact_top l (c_top s);
  i_top : sound_map l (c_top s);
  i_stack : Forall (sound_map l) (c_stack s);
  i_cmds : Forall (cmd_ok l) (c_cmds s);
  i_bound : bounded l (c_pos s);
  i_pos : 1 <= c_pos s
}.

Lemma bounded_weaken : forall l a b, a <= b -> bounded l a -> bounded l b.
Proof.
  intros l a b Hab H. unfold bounded in *. eapply Forall_impl; [|exact H]. cbn. intros x Hx.
  eapply Forall_impl; [|exact Hx]. cbn. intros. lia.
Qed.

Lemma cmd_ok_app : forall l l' x, cmd_ok l x -> cmd_ok (l ++ l') x.
Proof.
  intros l l' x (l0 & l1 & E & Hs & Hb). exists l0, (l1 ++ l'). subst l. rewrite app_assoc. auto.
Qed.

Lemma cmds_ok_app : forall l l' cs, Forall (cmd_ok l) cs -> Forall (cmd_ok (l ++ l')) cs.
Proof. intros l l' cs H. eapply Forall_impl; [|exact H]. intros x Hx. now apply cmd_ok_app. Qed.

Lemma stack_sound_app : forall l l' st, Forall (sound_map l) st -> Forall (sound_map (l ++ l')) st.
Proof. intros l l' st H. eapply Forall_impl; [|exact H]. intros m Hm. now apply sound_map_app. Qed.

Lemma inv_bump : forall l s, inv l s -> inv l (mkC (c_top s) (c_stack s) (S (c_pos s)) (c_cmds s)).
Proof.
  intros l s [He Ht Hs Hc Hb Hp]. constructor; cbn [c_top c_stack c_cmds c_pos]; auto.
  eapply bounded_weaken; [|exact Hb]. lia.
Qed.

Lemma push_inv : forall l s nm ps, inv l s -> Forall (fun q => 1 <= q < c_pos s) ps ->
  inv (l ++ [(nm, ps)]) (push_name s nm ps).
Proof.
  intros l s nm ps [He Ht Hs Hc Hb Hp] Hps. rewrite push_name_fun. constructor.
  - rewrite on_both_top. now apply pn_fun_exact.
  - rewrite on_both_top. now apply pn_fun_sound.
  - rewrite on_both_stack. destruct (c_stack s) as [|m r]; [constructor|].
    inversion Hs; subst. constructor; [now apply pn_fun_sound | now apply stack_sound_app].
  - rewrite on_both_cmds. now apply cmds_ok_app.
  - rewrite on_both_pos. unfold bounded. apply Forall_app. split; [exact Hb|]. constructor; [exact Hps|constructor].
  - now rewrite on_both_pos.
Qed.

Lemma merge_names_In : forall child parent x, In x (merge_names parent child) -> In x parent \/ In x child.
Proof.
  induction child as [|[k v] r IH]; intros parent x H; cbn [merge_names] in H; [now left|].
  apply IH in H. destruct H as [H|H]; [|right; now right].
  apply In_nm_set in H. destruct H as [->|H]; [right; now left | now left].
Qed.

Lemma merge_names_sound : forall l parent child,
  sound_map l parent -> sound_map l child -> sound_map l (merge_names parent child).
Proof.
  intros l parent child Hp Hc nm k ps Hin. apply merge_names_In in Hin. destruct Hin; [now apply Hp | now apply Hc].
Qed.

Lemma expand_nonempty : forall p, expand p <> [].
Proof.
  induction p; cbn [expand]; try congruence.
  - destruct (expand p); cbn; congruence.
  - destruct (expand p1) as [|x xs]; [congruence|]. destruct (expand p2) as [|y ys]; [congruence|].
    unfold multi_concat. cbn. congruence.
  - destruct (expand p1); cbn; congruence.
Qed.

Lemma collect_ref : forall pos q,
  In q (if 0 <? pos then [pos] else []) <-> (0 < q /\ exists x, In x [[IRef pos]] /\ In q (positions x)).
Proof.
  intros pos q. destruct (Nat.ltb_spec 0 pos) as [E|E]; split.
  - intros [<-|[]]. split; [exact E|]. exists [IRef pos]. split; now left.
  - intros (_ & x & [<-|[]] & [<-|[]]). now left.
  - intros [].
  - intros (Hq & x & [<-|[]] & [<-|[]]). lia.
Qed.

Lemma collect_iff_expansions : forall p pos,
  In pos (collect p) <-> (0 < pos /\ exists x, In x (expand p) /\ In pos (positions x)).
Proof.
  induction p; intro q; cbn [collect expand]; try apply collect_ref; try apply IHp;
    try (split; [intros [] | intros (_ & x & [<-|[]] & [])]).
  - rewrite IHp. split; intros (Hq & x & Hx & Hp); (split; [exact Hq|]).
    + exists x. split; [apply in_or_app; now left|exact Hp].
    + apply in_app_or in Hx. destruct Hx as [Hx|[<-|[]]]; [now exists x|destruct Hp].
  - rewrite in_app_iff, IHp1, IHp2. split.
    + destruct (expand p1) as [|x0 xs] eqn:E1; [now destruct (expand_nonempty p1)|].
      destruct (expand p2) as [|y0 ys] eqn:E2; [now destruct (expand_nonempty p2)|].
      intros [(Hq & x & Hx & Hp)|(Hq & y & Hy & Hp)]; (split; [exact Hq|]).
      * exists (x ++ y0). split; [apply in_multi_concat; [exact Hx|now left]|]. rewrite positions_app. apply in_or_app. now left.
      * exists (x0 ++ y). split; [apply in_multi_concat; [now left|exact Hy]|]. rewrite positions_app. apply in_or_app. now right.
    + intros (Hq & z & Hz & Hp). apply in_multi_concat_iff in Hz. destruct Hz as (x & y & Hx & Hy & ->).
      rewrite positions_app in Hp. apply in_app_or in Hp. destruct Hp as [Hp|Hp]; [left|right]; (split; [exact Hq|]); eauto.
  - rewrite in_app_iff, IHp1, IHp2. split.
    + intros [(Hq & x & Hx & Hp)|(Hq & x & Hx & Hp)]; (split; [exact Hq|]); exists x; (split; [apply in_or_app; auto | exact Hp]).
    + intros (Hq & x & Hx & Hp). apply in_app_or in Hx. destruct Hx as [Hx|Hx]; [left|right]; (split; [exact Hq|]); eauto.
Qed.

Lemma collect_bounds : forall p s,
  Forall (fun q => c_pos s <= q < c_pos (snd (convert p s))) (collect (fst (convert p s))).
Proof.
  intros p s. apply Forall_forall. intros q Hq. apply collect_iff_expansions in Hq. destruct Hq as (_ & x & Hx & Hq).
  destruct (convert_expansions_increasing p s x Hx) as [I F]. apply incr_from_bound in I.
  rewrite Forall_forall in I, F. split; [apply I|apply F]; exact Hq.
Qed.

Lemma convert_inv : forall p s l, inv l s ->
  inv (l ++ pushes (fst (convert p s))) (snd (convert p s)).
Proof.
  intros p s. apply convert_ind with (P := fun _ s p' s' => forall l, inv l s -> inv (l ++ pushes p') s'); clear p s;
    cbn [pushes].
  - intros s l H. now rewrite app_nil_r.
  - intros sym nm p0 s l H. apply push_inv; [now apply inv_bump|]. cbn [bump c_pos]. constructor; [|constructor]. destruct H. lia.
  - intros lid p0 s l H. rewrite app_nil_r. now apply inv_bump.
  - intros q s q' s' IH l H. auto.
  - intros a b s a' s1 b' s2 IHa IHb l H. rewrite app_assoc. auto.
  - intros a b s a' s1 b' s2 IHa IHb l H. rewrite app_assoc. auto.
  - intros q s q' s1 IH l H. (* pushRule opens an empty table, popRule merges it into its parent *)
    assert (H1 : inv l (push_rule s)).
    { destruct H. constructor; cbn [push_rule c_top c_stack c_cmds c_pos]; auto. constructor; [apply sound_map_nil | assumption]. }
    destruct (IH _ H1) as [He Ht Hs Hc Hb Hp]. unfold pop_rule. destruct (c_stack s1) as [|child [|parent r]] eqn:Es.
    + constructor; auto. now rewrite Es.
    + constructor; cbn [c_top c_stack c_cmds c_pos]; auto.
    + constructor; cbn [c_top c_stack c_cmds c_pos]; auto.
      inversion Hs as [|? ? Hc1 Hs1]; subst. inversion Hs1 as [|? ? Hp1 Hr]; subst.
      constructor; [now apply merge_names_sound | exact Hr].
  - intros nm q s q' s1 Econv IH l H.
    pose proof (collect_bounds q s) as CB. rewrite Econv in CB. cbn [fst snd] in CB. unfold alias_push.
    destruct (collect q') as [|c0 cr] eqn:Ec; [rewrite app_nil_r; auto|].
    rewrite app_assoc. apply push_inv; [auto|]. eapply Forall_impl; [|exact CB]. cbn. intros x Hx. destruct H. lia.
  - intros c s l H. (* the command records the current table: right for the pushes so far *)
    rewrite app_nil_r. destruct H as [He Ht Hs Hc Hb Hp]. constructor; cbn [add_cmd c_top c_stack c_cmds c_pos]; auto.
    apply Forall_app. split; [exact Hc|]. constructor; [|constructor].
    exists l, []. cbn [snd ca_names ca_maxpos]. split; [now rewrite app_nil_r|]. split; [|exact Hb].
    unfold cur_names. destruct (c_stack s) as [|m r]; [exact Ht|]. now inversion Hs.
  - intros mk s l H. now rewrite app_nil_r.
Qed.

Lemma inv_init : inv [] (mkC [] [] 1 []).
Proof.
  constructor; cbn [c_top c_stack c_cmds c_pos].
  - intros nm k. reflexivity.
  - apply sound_map_nil.
  - constructor.
  - constructor.
  - constructor.
  - lia.
Qed.

Lemma pushes_nonempty : forall p, Forall (fun x => snd x <> []) (pushes p).
Proof.
  induction p; cbn [pushes]; try constructor; try assumption; try (apply Forall_app; split; assumption).
  - cbn. congruence.
  - constructor.
  - apply Forall_app. split; [assumption|]. destruct (collect p); constructor; [cbn; congruence|constructor].
Qed.


Theorem names_table_sound : forall p c ca nm k ps,
  In (c, ca) (c_cmds (snd (convert_rule p))) ->
  nm_get (ca_names ca) (nm, k) = Some ps ->
  ps <> [] /\ Forall (fun q => 1 <= q < ca_maxpos ca) ps /\
  nth_error (occs nm (pushes (fst (convert_rule p)))) (key_index k) = Some ps.
Proof.
  intros p c ca nm k ps Hin Hget. unfold convert_rule in *.
  pose proof (convert_inv p _ [] inv_init) as [_ _ _ Hc _ _]. cbn [app] in Hc.
  rewrite Forall_forall in Hc. destruct (Hc _ Hin) as (l0 & l1 & E & Hs & Hb). cbn [snd] in *.
  apply nm_get_In in Hget. pose proof (Hs nm k ps Hget) as Hn.
  assert (Hin0 : In (nm, ps) l0) by (apply occs_In; eapply nth_error_In; exact Hn).
  split; [|split].
  - pose proof (pushes_nonempty (fst (convert p (mkC [] [] 1 [])))) as Hne. rewrite E in Hne.
    rewrite Forall_forall in Hne. apply (Hne (nm, ps)). apply in_or_app. now left.
  - unfold bounded in Hb. rewrite Forall_forall in Hb. apply (Hb (nm, ps) Hin0).
  - rewrite E, occs_app. now apply nth_error_app_Some.
Qed.

Lemma convert_stack_length : forall p s, length (c_stack (snd (convert p s))) = length (c_stack s).
Proof.
  apply convert_ind with (P := fun _ s _ s' => length (c_stack s') = length (c_stack s)); cbn [bump add_cmd c_stack].
  - reflexivity.
  - intros sym nm p0 s. rewrite push_name_fun, on_both_stack. cbn [bump c_stack]. now destruct (c_stack s).
  - reflexivity.
  - intros q s q' s' IH. exact IH.
  - intros a b s a' s1 b' s2 IHa IHb. congruence.
  - intros a b s a' s1 b' s2 IHa IHb. congruence.
  - intros q s q' s1 IH. unfold pop_rule. cbn [push_rule c_stack length] in IH.
    destruct (c_stack s1) as [|child [|parent r]]; cbn [c_stack length] in *; lia.
  - intros nm q s q' s1 _ IH. unfold alias_push. destruct (collect q'); [exact IH|].
    rewrite push_name_fun, on_both_stack. now destruct (c_stack s1).
  - reflexivity.
  - reflexivity.
Qed.

(* in a converted rule every position is >= 1, so the side condition 0 < pos disappears *)
Theorem alias_covers_exactly_its_symbols : forall p s pos, 1 <= c_pos s ->
  (In pos (collect (fst (convert p s))) <->
   exists x, In x (expand (fst (convert p s))) /\ In pos (positions x)).
Proof.
  intros p s pos Hs. rewrite collect_iff_expansions. split; [intros (_ & H); exact H|].
  intros (x & Hx & Hp). split; [|now exists x].
  destruct (convert_expansions_increasing p s x Hx) as [I _]. apply incr_from_bound in I.
  rewrite Forall_forall in I. specialize (I pos Hp). lia.
Qed.

