(* C02: what the loop computes for a subtree as a function of the tree (tree_run); spans of ordered leaf lists; maps
   over the children of a node; reportRange / fixTrailingWS on the specification's ranges; the fold theorem behind
   the three descriptions of tree_run (strict, loose, without gaps). *)
From Coq Require Import List ZArith Bool Lia.
From TM Require Import Lib.ListX Gram.Events.
Import ListNotations.
Local Open Scope Z_scope.

Section TreeInd.
Variable P : tree -> Prop.
Hypothesis Hleaf : forall s o e, P (TLeaf s o e).
Hypothesis Hnode : forall r ch, Forall P ch -> P (TNode r ch).
Fixpoint tree_ind2 (t : tree) : P t :=
  match t with
  | TLeaf s o e => Hleaf s o e
  | TNode r ch => Hnode r ch ((fix go (l : list tree) : Forall P l :=
                               match l with [] => Forall_nil P | c :: rest => Forall_cons c (tree_ind2 c) (go rest) end) ch)
  end.
End TreeInd.

Lemma leaves_node r ch : leaves (TNode r ch) = forest_leaves ch.
Proof. reflexivity. Qed.

(* what the loop computes for a subtree (lhs_range and applyRule at every node), as a function of the tree and of
   the offset of the token that follows it *)
Fixpoint tree_run (fixws : bool) (evt : ev_table) (t : tree) (after : Z) : range * list event :=
  match t with
  | TLeaf _ o e => ((o, e), [])
  | TNode r ch =>
      let rs := (fix go (l : list tree) : list (range * list event) :=
                   match l with [] => [] | c :: rest => tree_run fixws evt c (start_of rest after) :: go rest end) ch in
      let ranges := map fst rs in
      let '(off, endoff) := lhs_range ranges after in
      let '(evs, endoff') := apply_rule fixws (ev_at evt r) ranges off endoff in
      ((off, endoff'), flat_map snd rs ++ evs)
  end.

Lemma last_app_ne {A} (a b : list A) d : b <> [] -> last (a ++ b) d = last b d.
Proof.
  intros Hb. induction a as [|x a IH]; simpl; [reflexivity|].
  destruct (a ++ b) eqn:E; [destruct a; simpl in E; congruence|]. exact IH.
Qed.

Lemma last_rev_hd {A} (l : list A) d : last (rev l) d = hd d l.
Proof. destruct l as [|a l]; [reflexivity|]. simpl. apply last_last. Qed.

Lemma nth_last {A} (l : list A) d : l <> [] -> nth (length l - 1) l d = last l d.
Proof.
  intros Hne. destruct (exists_last Hne) as (P & c & ->). rewrite app_length, last_last. simpl.
  rewrite app_nth2 by lia. replace (length P + 1 - 1 - length P)%nat with O by lia. reflexivity.
Qed.

Definition seg {A} (l : list A) (i j : nat) : list A := firstn (j - i) (skipn i l).

Lemma skipn_seg {A} (l : list A) i j : (i <= j)%nat -> skipn i l = seg l i j ++ skipn j l.
Proof.
  intros Hij. unfold seg. rewrite <- (firstn_skipn (j - i) (skipn i l)) at 1. rewrite skipn_skipn'.
  replace (j - i + i)%nat with j by lia. reflexivity.
Qed.

Lemma seg_app {A} (l : list A) i j k : (i <= j)%nat -> (j <= k)%nat -> seg l i k = seg l i j ++ seg l j k.
Proof.
  intros Hij Hjk. unfold seg. replace (k - i)%nat with ((j - i) + (k - j))%nat by lia. rewrite firstn_add'.
  rewrite skipn_skipn'. replace (j - i + i)%nat with j by lia. reflexivity.
Qed.

Lemma seg_single {A} (l : list A) d : forall i, (i < length l)%nat -> seg l i (S i) = [nth i l d].
Proof.
  unfold seg. induction l as [|a l IH]; intros i Hi; simpl in Hi; [lia|].
  destruct i as [|i]; [reflexivity|]. apply (IH i). lia.
Qed.

Lemma seg_length {A} (l : list A) s e : (e <= length l)%nat -> length (seg l s e) = (e - s)%nat.
Proof. intros H. unfold seg. rewrite firstn_length, skipn_length. lia. Qed.

Lemma span_app a b after :
  span_of (a ++ b) after =
    (fst (span_of a (fst (span_of b after))), match b with [] => snd (span_of a after) | _ => snd (span_of b after) end).
Proof.
  destruct a as [|[o e] a'].
  - simpl. destruct b as [|[o' e'] b']; reflexivity.
  - destruct b as [|x b']; [rewrite app_nil_r; reflexivity|].
    unfold span_of at 1. cbn [app]. cbn [span_of fst].
    change ((o, e) :: a' ++ x :: b') with (((o, e) :: a') ++ x :: b').
    rewrite last_app_ne by discriminate. destruct x. reflexivity.
Qed.

Lemma start_of_cons c rest after : start_of (c :: rest) after = fst (span_of (leaves c) (start_of rest after)).
Proof. unfold start_of, forest_leaves. simpl. rewrite span_app. reflexivity. Qed.

Lemma start_of_app a b after : start_of (a ++ b) after = start_of a (start_of b after).
Proof. unfold start_of, forest_leaves. rewrite flat_map_app, span_app. reflexivity. Qed.

Lemma forest_leaves_app a b : forest_leaves (a ++ b) = forest_leaves a ++ forest_leaves b.
Proof. apply flat_map_app. Qed.

(* tokens are non-empty and do not overlap; the part ends before the token that follows it *)
Fixpoint ordered (ls : list range) (after : Z) : Prop :=
  match ls with
  | [] => True
  | r :: rest => fst r < snd r /\ snd r <= fst (span_of rest after) /\ ordered rest after
  end.

Lemma ordered_app a b after : ordered (a ++ b) after <-> ordered a (fst (span_of b after)) /\ ordered b after.
Proof.
  induction a as [|r a IH]; simpl; [tauto|]. rewrite IH, span_app. simpl. tauto.
Qed.

(* the same with empty ranges allowed: the end-of-input leaves on the parser's stack *)
Fixpoint wordered (ls : list range) (after : Z) : Prop :=
  match ls with
  | [] => True
  | r :: rest => fst r <= snd r /\ snd r <= fst (span_of rest after) /\ wordered rest after
  end.

Lemma wordered_app a b after : wordered (a ++ b) after <-> wordered a (fst (span_of b after)) /\ wordered b after.
Proof. induction a as [|r a IH]; simpl; [tauto|]. rewrite IH, span_app. simpl. tauto. Qed.

Lemma ordered_wordered ls : forall after, ordered ls after -> wordered ls after.
Proof.
  induction ls as [|r ls IH]; intros after H; [exact I|]. simpl in *. destruct H as (H1 & H2 & H3).
  repeat split; auto; lia.
Qed.

Lemma wordered_ne ls : forall after, wordered ls after -> Forall (fun r => fst r < snd r) ls -> ordered ls after.
Proof.
  induction ls as [|r ls IH]; intros after H Hne; [exact I|]. simpl in *. destruct H as (H1 & H2 & H3).
  inversion Hne; subst. repeat split; auto.
Qed.

Lemma wordered_span ls : forall after, wordered ls after ->
  fst (span_of ls after) <= snd (span_of ls after) <= after.
Proof.
  induction ls as [|[o e] ls IH]; intros after H; [simpl; lia|]. destruct H as (H1 & H2 & H3).
  specialize (IH after H3). destruct ls as [|[o' e'] ls']; simpl in *; lia.
Qed.

Lemma ordered_bounds ls : forall after, ordered ls after ->
  Forall (fun r => fst (span_of ls after) <= fst r /\ fst r < snd r /\ snd r <= after) ls.
Proof.
  induction ls as [|[o e] ls IH]; intros after H; [constructor|]. destruct H as (H1 & H2 & H3).
  pose proof (wordered_span _ _ (ordered_wordered _ _ H3)) as Hs. simpl in H1, H2.
  constructor; [simpl; lia|]. eapply Forall_impl; [|exact (IH after H3)]. simpl. intros r Hr. lia.
Qed.

Lemma ordered_span_lt ls after : ordered ls after -> ls <> [] -> fst (span_of ls after) < snd (span_of ls after).
Proof.
  destruct ls as [|[o e] rest]; intros Ho Hne; [congruence|]. destruct Ho as (H1 & H2 & H3).
  pose proof (wordered_span _ _ (ordered_wordered _ _ H3)) as Hs.
  destruct rest as [|[o' e'] rest']; simpl in *; lia.
Qed.

Lemma is_empty_span ls after : ordered ls after -> is_empty (span_of ls after) = match ls with [] => true | _ => false end.
Proof.
  intros Ho. destruct ls as [|r rest].
  - unfold is_empty. simpl. apply Z.eqb_refl.
  - pose proof (ordered_span_lt _ _ Ho ltac:(discriminate)) as H. unfold is_empty. apply Z.eqb_neq. lia.
Qed.

Lemma start_of_single t aft : start_of [t] aft = fst (span_of (leaves t) aft).
Proof. unfold start_of, forest_leaves. simpl. rewrite app_nil_r. reflexivity. Qed.

Lemma start_of_skipn ch aft d : forall i, (i < length ch)%nat ->
  start_of (skipn i ch) aft = fst (span_of (leaves (nth i ch d)) (start_of (skipn (S i) ch) aft)).
Proof.
  induction ch as [|c rest IH]; intros i Hi; simpl in Hi; [lia|].
  destruct i as [|i]; [apply start_of_cons|]. apply IH. lia.
Qed.

(* a function of a tree and of the offset of the token that follows it, over the children of a node (a child is
   followed by the first token of its right siblings); written as the inner loops of tree_run, spec_events etc. are,
   so that those unfold to it *)
Definition fmap {A} (f : tree -> Z -> A) (after : Z) : list tree -> list A :=
  fix go (l : list tree) : list A := match l with [] => [] | c :: rest => f c (start_of rest after) :: go rest end.

Definition fcat {A} (f : tree -> Z -> list A) (after : Z) : list tree -> list A :=
  fix go (l : list tree) : list A := match l with [] => [] | c :: rest => f c (start_of rest after) ++ go rest end.

Lemma tree_run_node fixws evt r ch after :
  tree_run fixws evt (TNode r ch) after =
    let rs := fmap (tree_run fixws evt) after ch in
    let ranges := map fst rs in
    let '(off, endoff) := lhs_range ranges after in
    let '(evs, endoff') := apply_rule fixws (ev_at evt r) ranges off endoff in
    ((off, endoff'), flat_map snd rs ++ evs).
Proof. reflexivity. Qed.

Lemma spec_events_node arrows r ch after :
  spec_events arrows (TNode r ch) after =
    fcat (spec_events arrows) after ch ++ map (arrow_event ch after) (arrows_at arrows r).
Proof. reflexivity. Qed.

Section Fmap.
Context {A : Type}.
Variable f : tree -> Z -> A.

Lemma fmap_app P Q aft : fmap f aft (P ++ Q) = fmap f (start_of Q aft) P ++ fmap f aft Q.
Proof. induction P as [|c P IH]; simpl; [reflexivity|]. rewrite IH, start_of_app. reflexivity. Qed.

Lemma fmap_length ch aft : length (fmap f aft ch) = length ch.
Proof. induction ch; simpl; congruence. Qed.

Lemma nth_fmap ch aft d dt : forall i, (i < length ch)%nat ->
  nth i (fmap f aft ch) d = f (nth i ch dt) (start_of (skipn (S i) ch) aft).
Proof.
  induction ch as [|c rest IH]; intros i Hi; simpl in Hi; [lia|].
  destruct i as [|i]; [reflexivity|]. apply IH. lia.
Qed.

Lemma last_fmap ch aft d dt : ch <> [] -> last (fmap f aft ch) d = f (last ch dt) aft.
Proof.
  intros Hne. destruct (exists_last Hne) as (P & c & ->). rewrite fmap_app. simpl.
  rewrite last_app_ne by discriminate. rewrite last_last. reflexivity.
Qed.

Lemma skipn_fmap ch aft : forall n, skipn n (fmap f aft ch) = fmap f aft (skipn n ch).
Proof. induction ch as [|c rest IH]; intros [|n]; try reflexivity. apply IH. Qed.

Lemma firstn_fmap ch aft : forall n, firstn n (fmap f aft ch) = fmap f (start_of (skipn n ch) aft) (firstn n ch).
Proof.
  induction ch as [|c rest IH]; intros [|n]; try reflexivity. cbn [fmap firstn skipn]. rewrite IH, <- start_of_app, firstn_skipn.
  reflexivity.
Qed.

Lemma fmap_seg ch aft s e : (s <= e)%nat ->
  seg (fmap f aft ch) s e = fmap f (start_of (skipn e ch) aft) (seg ch s e).
Proof.
  intros Hse. unfold seg. rewrite skipn_fmap, firstn_fmap, skipn_skipn'. replace (e - s + s)%nat with e by lia. reflexivity.
Qed.

End Fmap.

Lemma lhs_range_fmap (f : tree -> Z -> range) ch aft d : ch <> [] ->
  (forall c x, fst (f c x) = fst (span_of (leaves c) x)) ->
  lhs_range (fmap f aft ch) aft = (start_of ch aft, snd (f (last ch d) aft)).
Proof.
  intros Hne Hf. rewrite <- (last_fmap f ch aft rdummy d Hne). destruct ch as [|c rest]; [congruence|].
  change (fmap f aft (c :: rest)) with (f c (start_of rest aft) :: fmap f aft rest). unfold lhs_range.
  rewrite Hf, <- start_of_cons. reflexivity.
Qed.

Lemma fmap_Forall (P : tree -> Prop) aft ch : Forall P ch -> Forall (fun Q => Q) (fmap (fun t _ => P t) aft ch).
Proof. induction 1; constructor; assumption. Qed.

Section Chain.
Variable C : list range -> Z -> Prop.
Hypothesis C_app : forall a b x, C (a ++ b) x -> C a (fst (span_of b x)) /\ C b x.

Lemma forest_segment ch aft s e : (s <= e)%nat -> C (forest_leaves ch) aft ->
  C (forest_leaves (seg ch s e)) (start_of (skipn e ch) aft).
Proof.
  intros Hse Ho. rewrite <- (firstn_skipn s ch), (skipn_seg ch s e Hse), !forest_leaves_app in Ho.
  apply C_app, proj2, C_app, proj1 in Ho. exact Ho.
Qed.

Lemma forest_descend (P : tree -> Prop) ch : Forall P ch -> forall a, C (forest_leaves ch) a ->
  Forall (fun Q => Q) (fmap (fun t x => P t /\ C (leaves t) x) a ch).
Proof.
  induction 1 as [|c rest Hc _ IH]; intros a Ho; [constructor|].
  apply (C_app (leaves c) (forest_leaves rest)) in Ho. constructor; [split; [exact Hc|apply Ho]|apply IH, Ho].
Qed.

End Chain.

Definition ordered_split a b x := proj1 (ordered_app a b x).
Definition wordered_split a b x := proj1 (wordered_app a b x).

Lemma span_fst_ge lo (ls : list range) aft : Forall (fun r => lo <= fst r) ls -> lo <= aft -> lo <= fst (span_of ls aft).
Proof. intros H Ha. destruct ls as [|[o e] rest]; [exact Ha|]. inversion H; subst. assumption. Qed.

Definition spec_range (t : tree) (after : Z) : range := span_of (leaves t) after.

Lemma trim_cons2 r r' t : trim_trailing (r :: r' :: t) = if is_empty r then trim_trailing (r' :: t) else r :: r' :: t.
Proof. reflexivity. Qed.

Lemma trim_hd l : l <> [] ->
  In (hd rdummy (trim_trailing l)) l /\
  (is_empty (hd rdummy (trim_trailing l)) = false \/ hd rdummy (trim_trailing l) = last l rdummy).
Proof.
  induction l as [|r l IH]; intros Hne; [congruence|]. destruct l as [|r' t].
  - simpl. split; [left; reflexivity|right; reflexivity].
  - rewrite trim_cons2. destruct (is_empty r) eqn:Er.
    + specialize (IH ltac:(discriminate)). destruct IH as [I1 I2].
      split; [right; exact I1|]. destruct I2 as [I2|I2]; [left; exact I2|right].
      change (last (r :: r' :: t) rdummy) with (last (r' :: t) rdummy). exact I2.
    + cbn [hd]. split; [left; reflexivity|left; exact Er].
Qed.

Lemma lne_some l : forall e, last_nonempty_end l = Some e -> exists r, In r l /\ is_empty r = false /\ e = snd r.
Proof.
  induction l as [|r l IH]; intros e H; simpl in H; [discriminate|]. destruct (is_empty r) eqn:Er.
  - destruct (IH _ H) as (r' & H1 & H2 & H3). exists r'. split; [right; exact H1|]. split; assumption.
  - injection H as <-. exists r. split; [left; reflexivity|]. split; [exact Er|reflexivity].
Qed.

Lemma fix_trailing_shape rhs off endoff : rhs <> [] ->
  fix_trailing rhs off endoff = off \/ exists r, In r rhs /\ is_empty r = false /\ fix_trailing rhs off endoff = snd r.
Proof.
  intros Hne. unfold fix_trailing. destruct rhs as [|r0 rhs0]; [congruence|].
  destruct (last_nonempty_end (rev (r0 :: rhs0))) as [e|] eqn:El; [|left; reflexivity].
  right. destruct (lne_some _ _ El) as (r & H1 & H2 & H3). exists r. split; [apply in_rev; exact H1|]. split; assumption.
Qed.

Lemma trim_lne l : l <> [] ->
  snd (hd rdummy (trim_trailing l)) = match last_nonempty_end l with Some e => e | None => snd (last l rdummy) end.
Proof.
  induction l as [|r l IH]; intros Hne; [congruence|]. destruct l as [|r' t].
  - simpl. destruct (is_empty r); reflexivity.
  - rewrite trim_cons2. cbn [last_nonempty_end]. destruct (is_empty r); [|reflexivity]. apply IH. discriminate.
Qed.

Lemma forest_leaves_single t : forest_leaves [t] = leaves t.
Proof. apply app_nil_r. Qed.

Lemma lne_spec P : forall aft, ordered (forest_leaves P) aft ->
  last_nonempty_end (rev (fmap spec_range aft P)) =
    match forest_leaves P with [] => None | _ => Some (snd (span_of (forest_leaves P) aft)) end.
Proof.
  induction P as [|c P IH] using rev_ind; intros aft Ho; [reflexivity|].
  rewrite forest_leaves_app, forest_leaves_single in *. rewrite fmap_app, rev_app_distr.
  cbn [fmap rev app last_nonempty_end]. change (start_of [] aft) with aft.
  apply ordered_app in Ho. destruct Ho as [HoP Hoc]. change (spec_range c aft) with (span_of (leaves c) aft). rewrite (is_empty_span _ _ Hoc).
  rewrite start_of_single. destruct (leaves c) as [|l ls].
  - rewrite !app_nil_r. apply IH. exact HoP.
  - rewrite span_app. destruct (forest_leaves P); reflexivity.
Qed.

Lemma fix_trailing_strict P aft endoff : P <> [] -> ordered (forest_leaves P) aft ->
  fix_trailing (fmap spec_range aft P) (start_of P aft) endoff = snd (span_of (forest_leaves P) aft).
Proof.
  intros Hne Ho. unfold fix_trailing. destruct P as [|c rest]; [congruence|].
  change (fmap spec_range aft (c :: rest)) with (spec_range c (start_of rest aft) :: fmap spec_range aft rest) at 1.
  cbv iota. rewrite (lne_spec _ _ Ho). unfold start_of. destruct (forest_leaves (c :: rest)); reflexivity.
Qed.

Lemma report_range_strict P aft : P <> [] -> ordered (forest_leaves P) aft ->
  report_range (fmap spec_range aft P) = span_of (forest_leaves P) aft.
Proof.
  intros Hne Ho. unfold report_range.
  rewrite trim_lne, (lne_spec _ _ Ho), last_rev_hd by (destruct P; [congruence|simpl; destruct (rev _); discriminate]).
  destruct P as [|c rest]; [congruence|]. cbn [fmap hd]. unfold spec_range.
  rewrite (surjective_pairing (span_of (forest_leaves (c :: rest)) aft)). f_equal; [symmetry; apply start_of_cons|].
  change (forest_leaves (c :: rest)) with (leaves c ++ forest_leaves rest). rewrite span_app. unfold start_of.
  destruct (leaves c); [destruct (forest_leaves rest)|]; reflexivity.
Qed.

Lemma arrows_at_of_ev rl evt r : 0 <= r ->
  arrows_at (arrows_of_ev rl evt) r =
    er_reports (ev_at evt r) ++ (if er_type (ev_at evt r) =? 0 then [] else [(O, Z.to_nat (rl r), er_type (ev_at evt r))]).
Proof.
  intros Hr. unfold arrows_at, arrows_of_ev, ev_at.
  set (k := Z.to_nat r). assert (Ek : Z.of_nat k = r) by (unfold k; lia). clearbody k. subst r.
  set (f := fun '(i, er) => er_reports er ++ (if er_type er =? 0 then [] else [(O, Z.to_nat (rl (Z.of_nat i)), er_type er)])).
  assert (G : forall base l n, nth n (map f (combine (seq base (length l)) l)) [] =
                               match nth_error l n with Some er => f ((base + n)%nat, er) | None => [] end).
  { intros base l. revert base. induction l as [|x l IH]; intros base n; simpl.
    - destruct n; reflexivity.
    - destruct n as [|n]; simpl.
      + rewrite Nat.add_0_r. reflexivity.
      + rewrite IH. replace (S base + n)%nat with (base + S n)%nat by lia. reflexivity. }
  rewrite G. simpl.
  destruct (nth_error evt k) as [er|] eqn:E.
  - rewrite (nth_error_nth _ _ _ E). reflexivity.
  - apply nth_error_None in E. rewrite nth_overflow by exact E. reflexivity.
Qed.


(* R: the range of a tree, E: its events, A: the event of an arrow over the children of a node, as functions of the
   token that follows; ok: the trees the description is meant for. If R obeys the loop's recurrence for the new
   entry, A is what report_event makes of the children's ranges and the arrow over all children reports the node's
   own range, then tree_run computes (R, E). *)
Section Fold.
Variables (fixws : bool) (evt : ev_table) (rl : Z -> Z).
Variable R : tree -> Z -> range.
Variable E : tree -> Z -> list event.
Variable A : list tree -> Z -> nat * nat * Z -> event.
Variable ok : tree -> Z -> Prop.
Hypothesis R_leaf : forall s o e a, R (TLeaf s o e) a = (o, e).
Hypothesis E_leaf : forall s o e a, E (TLeaf s o e) a = [].
Hypothesis E_node : forall r ch a,
  E (TNode r ch) a = fcat E a ch ++ map (A ch a) (arrows_at (arrows_of_ev rl evt) r).
Hypothesis ok_node : forall r ch a, ok (TNode r ch) a ->
  Forall (fun Q => Q) (fmap ok a ch) /\ 0 <= r /\ Z.to_nat (rl r) = length ch.
Hypothesis R_node : forall r ch a, ok (TNode r ch) a ->
  let rs := fmap R a ch in let '(off, endoff) := lhs_range rs a in
  R (TNode r ch) a =
    (off, if fixws && er_trailing_nulls (ev_at evt r) then fix_trailing rs off endoff else endoff).
Hypothesis A_report : forall r ch a rep, ok (TNode r ch) a -> In rep (er_reports (ev_at evt r)) ->
  report_event fixws (fmap R a ch) rep = A ch a rep.
Hypothesis A_whole : forall r ch a ty, ok (TNode r ch) a ->
  A ch a (O, length ch, ty) = (ty, fst (R (TNode r ch) a), snd (R (TNode r ch) a)).

Lemma forest_fold ch : Forall (fun c => forall a, ok c a -> tree_run fixws evt c a = (R c a, E c a)) ch ->
  forall a, Forall (fun Q => Q) (fmap ok a ch) ->
  map fst (fmap (tree_run fixws evt) a ch) = fmap R a ch /\
  flat_map snd (fmap (tree_run fixws evt) a ch) = fcat E a ch.
Proof.
  induction 1 as [|c rest Hc _ IH]; intros a Hok; [split; reflexivity|].
  inversion Hok as [|? ? Hokc Hokr]; subst. destruct (IH a Hokr) as [E1 E2].
  cbn [fmap fcat map flat_map]. rewrite (Hc _ Hokc), E1, E2. split; reflexivity.
Qed.

Theorem tree_run_fold t : forall a, ok t a -> tree_run fixws evt t a = (R t a, E t a).
Proof.
  induction t as [s o e | r ch IH] using tree_ind2; intros a Hok.
  - rewrite R_leaf, E_leaf. reflexivity.
  - destruct (ok_node _ _ _ Hok) as (Hch & Hr0 & Hlen). destruct (forest_fold ch IH a Hch) as [E1 E2].
    pose proof (R_node _ _ _ Hok) as HR. pose proof (A_whole r ch a (er_type (ev_at evt r)) Hok) as HA.
    rewrite tree_run_node, E_node, (arrows_at_of_ev _ _ _ Hr0), map_app, Hlen. cbv zeta in *. rewrite E1, E2.
    destruct (lhs_range (fmap R a ch) a) as [off endoff]. unfold apply_rule. rewrite HR in *. cbn [fst snd] in HA.
    rewrite (map_ext_in _ _ _ (fun rep => A_report r ch a rep Hok)).
    destruct (er_type (ev_at evt r) =? 0); cbn [map]; rewrite ?HA; reflexivity.
Qed.

End Fold.
