(* C03: nullable and FIRST hold only derivable facts; with rule heads in range their bounded inflationary
   iterations reach the fixpoint (Section Infl, also used for the lookahead table); closed sets hold every
   derivable fact; nullable_sym / first_sym agree with the derivations of Gram/Derive.v. *)
From Coq Require Import List ZArith Bool Lia Sorted FinFun.
From TM Require Import Lib.ListX Gram.Cfg Gram.Cfg_proofs Gram.Derive Gram.LalrRef Gram.LalrSpec.
Import ListNotations.
Local Open Scope Z_scope.

Lemma iterate_fixed_stays {A} (F : A -> A) n x : F x = x -> iterate n F x = x.
Proof. intros H. induction n as [|n IH]; simpl; auto. rewrite H. exact IH. Qed.

Section Infl.
Variables (A : Type) (m : A -> nat) (Inv : A -> Prop).

(* on the invariant, F can only grow the measure, and changes nothing unless the measure grows *)
Definition infl_on (F : A -> A) : Prop :=
  forall t, Inv t -> Inv (F t) /\ (m t <= m (F t))%nat /\ (m (F t) = m t -> F t = t).

Lemma infl_on_id : infl_on (fun t => t).
Proof. intros t H. auto. Qed.

Lemma infl_on_comp F G : infl_on F -> infl_on G -> infl_on (fun t => G (F t)).
Proof.
  intros HF HG t Ht. destruct (HF t Ht) as (F0 & F1 & F2), (HG (F t) F0) as (G0 & G1 & G2).
  split; [exact G0|]. split; [lia|]. intros E. assert (E1 : F t = t) by (apply F2; lia). rewrite E1 in *. auto.
Qed.

Lemma infl_on_fold {X} (f : A -> X -> A) xs :
  (forall x, In x xs -> infl_on (fun t => f t x)) -> infl_on (fun t => fold_left f xs t).
Proof.
  induction xs as [|x xs IH]; intros H; simpl; [apply infl_on_id|].
  apply (infl_on_comp (fun t => f t x) (fun t => fold_left f xs t)); [|apply IH; intros]; apply H; simpl; auto.
Qed.

Lemma comp_fixed F G t : infl_on F -> infl_on G -> Inv t -> G (F t) = t -> F t = t /\ G t = t.
Proof.
  intros HF HG Ht H. destruct (HF t Ht) as (F0 & F1 & F2), (HG (F t) F0) as (_ & G1 & _).
  assert (E : F t = t) by (apply F2; rewrite H in G1; lia). rewrite E in H. auto.
Qed.

Lemma fold_fixed {X} (f : A -> X -> A) xs t :
  (forall x, In x xs -> infl_on (fun t => f t x)) -> Inv t -> fold_left f xs t = t -> forall x, In x xs -> f t x = t.
Proof.
  induction xs as [|y xs IH]; intros Hf Ht H x Hx; simpl in *; [contradiction|].
  destruct (comp_fixed (fun t => f t y) (fun t => fold_left f xs t) t) as [E1 E2]; auto.
  - apply infl_on_fold. auto.
  - destruct Hx as [<-|Hx]; auto.
Qed.

Lemma iterate_reaches_fix F B : infl_on F -> (forall t, Inv t -> (m t <= B)%nat) ->
  forall n x, Inv x -> (B - m x <= n)%nat -> F (iterate n F x) = iterate n F x.
Proof.
  intros HF HB. induction n as [|n IH]; intros x Hx Hn; simpl; destruct (HF x Hx) as (H0 & H1 & H2).
  - apply H2. pose proof (HB _ H0). lia.
  - destruct (Nat.eq_dec (m (F x)) (m x)) as [E|E].
    + rewrite (H2 E), (iterate_fixed_stays F n x (H2 E)). exact (H2 E).
    + apply IH; [exact H0|lia].
Qed.
End Infl.
Arguments infl_on {A} m Inv F.
Arguments infl_on_id {A m Inv}.
Arguments infl_on_comp {A m Inv} F G _ _.
Arguments infl_on_fold {A m Inv X} f xs _.
Arguments comp_fixed {A m Inv} F G t _ _ _ _.
Arguments fold_fixed {A m Inv X} f xs t _ _ _ x _.
Arguments iterate_reaches_fix {A m Inv F} B _ _ n x _ _.

Lemma ins_sorted x l : StronglySorted Z.lt l -> StronglySorted Z.lt (ins x l).
Proof.
  induction l as [|y t IH]; simpl; intros H.
  - repeat constructor.
  - inversion H as [|y' t' Hs Hf]; subst. destruct (x <? y) eqn:E1.
    + apply Z.ltb_lt in E1. constructor; auto. constructor; auto.
      rewrite Forall_forall in *. intros z Hz. specialize (Hf z Hz). lia.
    + destruct (x =? y) eqn:E2; auto. apply Z.ltb_ge in E1. apply Z.eqb_neq in E2.
      constructor; auto. rewrite Forall_forall in *. intros z Hz. apply ins_In in Hz.
      destruct Hz as [->|Hz]; [lia|auto].
Qed.

Lemma sorted_range_length l : forall lo hi, StronglySorted Z.lt l -> Forall (fun x => lo <= x < hi) l ->
  (length l <= Z.to_nat (hi - lo))%nat.
Proof.
  induction l as [|x t IH]; intros lo hi Hs Hf; simpl; [lia|].
  inversion Hs as [|x' t' Hs' Hlt]; subst. inversion Hf as [|x' t' Hx Hf']; subst.
  assert (H : (length t <= Z.to_nat (hi - (x + 1)))%nat).
  { apply IH; auto. rewrite Forall_forall in *. intros z Hz. specialize (Hlt z Hz). specialize (Hf' z Hz). lia. }
  lia.
Qed.

Lemma in_zrange n x : In x (zrange n) <-> 0 <= x < n.
Proof. apply in_map_of_nat_seq. Qed.

Lemma zrange_NoDup n : NoDup (zrange n).
Proof. apply FinFun.Injective_map_NoDup; [intros x y; apply Nat2Z.inj|apply seq_NoDup]. Qed.

Lemma nth_error_combine_zrange {A} (l : list A) n :
  nth_error (combine (zrange (Z.of_nat (length l))) l) n = option_map (pair (Z.of_nat n)) (nth_error l n).
Proof.
  unfold zrange. rewrite Nat2Z.id. change (Z.of_nat n) with (Z.of_nat (0 + n)). generalize 0%nat.
  revert n; induction l as [|y l IH]; intros [|n] s; simpl; auto.
  - rewrite Nat.add_0_r. reflexivity.
  - rewrite IH, Nat.add_succ_r. reflexivity.
Qed.

Lemma in_combine_zrange {A} (l : list A) q (st : A) :
  In (q, st) (combine (zrange (Z.of_nat (length l))) l) <-> 0 <= q /\ nth_error l (Z.to_nat q) = Some st.
Proof.
  split.
  - intros H. apply In_nth_error in H. destruct H as [n H]. rewrite nth_error_combine_zrange in H.
    destruct (nth_error l n) eqn:E; [|discriminate]. injection H as <- <-. rewrite Nat2Z.id. split; [lia|exact E].
  - intros [Hq H]. apply (nth_error_In _ (Z.to_nat q)). rewrite nth_error_combine_zrange, H. simpl. f_equal. f_equal. lia.
Qed.

Definition nonterms (g : grammar) : list Z := map (Z.add (g_terms g)) (zrange (g_nonterms g)).

Lemma nonterms_length g : length (nonterms g) = Z.to_nat (g_nonterms g).
Proof. unfold nonterms, zrange. rewrite !map_length, seq_length. reflexivity. Qed.

Lemma in_nonterms g x : g_terms g <= x < g_terms g + g_nonterms g -> In x (nonterms g).
Proof. intros H. apply in_map_iff. exists (x - g_terms g). split; [lia|]. apply in_zrange. lia. Qed.

Section Sound.
Variable g : grammar.

Definition nl_ok (nl : list Z) : Prop := forall x, In x nl -> nullable_sym g x.
Definition fst_ok (f : Z -> list Z) : Prop := forall X a, In a (f X) -> first_sym g X a.

Lemma forallb_mem_nullable nl w : nl_ok nl -> forallb (fun s => mem s nl) w = true -> nullable_seq g w.
Proof.
  intros Hnl. induction w as [|s w IH]; simpl; intros H; [constructor|].
  apply andb_true_iff in H. destruct H as [H1 H2]. constructor; auto. apply Hnl, mem_In, H1.
Qed.

Lemma nullable_step_ok nl : nl_ok nl -> nl_ok (nullable_step g nl).
Proof.
  intros H. unfold nullable_step. apply fold_left_inv; auto.
  intros nl' r Hr Hnl'. destruct (forallb _ _) eqn:E; auto.
  intros x Hx. apply ins_In in Hx. destruct Hx as [->|Hx]; auto.
  apply nu_rule; auto. eapply forallb_mem_nullable; eauto.
Qed.

Lemma nullable_set_ok : nl_ok (nullable_set g).
Proof. unfold nullable_set. apply iterate_inv; [intros x []|apply nullable_step_ok]. Qed.

Lemma first_seq_of_cons_nullable x w a : nullable_sym g x -> first_seq_of g w a -> first_seq_of g (x :: w) a.
Proof.
  intros Hx (pre & y & post & -> & Hpre & Hy). exists (x :: pre), y, post. split; [reflexivity|].
  split; [constructor; auto|auto].
Qed.

Lemma first_seq_of_head x w a : first_sym g x a -> first_seq_of g (x :: w) a.
Proof. intros H. exists [], x, w. split; [reflexivity|]. split; [constructor|auto]. Qed.

Lemma first_seq_ok nl f w : nl_ok nl -> fst_ok f ->
  (forall a, In a (fst (first_seq g nl f w)) -> first_seq_of g w a) /\
  (snd (first_seq g nl f w) = true -> nullable_seq g w).
Proof.
  intros Hnl Hf. induction w as [|s w [IH1 IH2]]; simpl.
  - split; [intros a []|constructor].
  - destruct (is_term g s) eqn:Et; simpl.
    + split; [|discriminate]. intros a [<-|[]]. apply first_seq_of_head. constructor; auto.
    + destruct (mem s nl) eqn:Em.
      * destruct (first_seq g nl f w) as [f' n] eqn:E. simpl in *. apply mem_In in Em. split.
        -- intros a Ha. apply union_In in Ha. destruct Ha as [Ha|Ha].
           ++ apply first_seq_of_head; auto.
           ++ apply first_seq_of_cons_nullable; auto.
        -- intros Hn. constructor; auto.
      * simpl. split; [|discriminate]. intros a Ha. apply first_seq_of_head; auto.
Qed.

Lemma first_step_ok nl t : nl_ok nl -> fst_ok (ft_get t) -> fst_ok (ft_get (first_step g nl t)).
Proof.
  intros Hnl H. unfold first_step. apply fold_left_inv; auto.
  intros t' r Hr Ht' X a Ha. apply ft_get_add in Ha. destruct Ha as [Ha|[-> Ha]]; auto.
  apply (proj1 (first_seq_ok nl (ft_get t') (r_rhs r) Hnl Ht')) in Ha.
  destruct Ha as (pre & x & post & E & Hpre & Hx). eapply fs_rule; eauto.
Qed.

Lemma first_sets_ok : fst_ok (ft_get (first_sets g)).
Proof.
  unfold first_sets. apply (iterate_inv (fun t => fst_ok (ft_get t))); [intros X a []|].
  intros t. apply first_step_ok, nullable_set_ok.
Qed.
End Sound.

Definition lhs_in_range (g : grammar) : Prop :=
  forall r, In r (g_rules g) -> g_terms g <= r_lhs r < g_terms g + g_nonterms g.

Lemma range_wf_lhs g : lhs_in_range g -> wf_lhs g = true.
Proof.
  intros H. apply forallb_forall. intros r Hr. specialize (H r Hr).
  destruct (is_term g (r_lhs r)) eqn:E; [|reflexivity]. apply is_term_spec in E. lia.
Qed.

Lemma Z2Nat_mul_le a b : (Z.to_nat a * Z.to_nat b <= Z.to_nat (a * b))%nat.
Proof.
  destruct (Z.to_nat a) eqn:Ea; [lia|]. destruct (Z.to_nat b) eqn:Eb; [lia|].
  rewrite <- Ea, <- Eb, <- Z2Nat.inj_mul by lia. lia.
Qed.

Definition keys (t : first_table) : list Z := map fst t.
Fixpoint elems (t : first_table) : nat := match t with [] => 0%nat | e :: r => (length (snd e) + elems r)%nat end.

Lemma ft_add_keys t x l y : In y (keys (ft_add t x l)) <-> y = x \/ In y (keys t).
Proof.
  induction t as [|[z l0] t IH]; simpl; [split; intros [H|[]]; auto|].
  destruct (Z.eqb_spec z x) as [->|]; simpl; [split; [auto|intros [->|H]; auto]|].
  rewrite IH. split; intros [H|[H|H]]; auto.
Qed.

Lemma ft_add_present t x l : In x (keys t) ->
  (elems t <= elems (ft_add t x l))%nat /\ (elems (ft_add t x l) = elems t -> ft_add t x l = t).
Proof.
  induction t as [|[z l0] t IH]; simpl; [intros []|]. intros Hin. destruct (Z.eqb_spec z x) as [->|Hne]; simpl.
  - destruct (union_len l l0) as [H1 H2]. split; [lia|]. intros E. rewrite H2 by lia. reflexivity.
  - destruct Hin as [Hin|Hin]; [contradiction|]. destruct (IH Hin) as (H2 & H3).
    split; [lia|]. intros E. f_equal. apply H3. lia.
Qed.

Section Fix.
Variable g : grammar.
Hypothesis Hrange : lhs_in_range g.
Let nl := nullable_set g.

(* nullable: sorted lists of nonterminals, measured by their length *)
Definition nstep (nl : list Z) (r : rule) : list Z :=
  if forallb (fun s => mem s nl) (r_rhs r) then ins (r_lhs r) nl else nl.

Definition ninv (nl : list Z) : Prop :=
  StronglySorted Z.lt nl /\ Forall (fun x => g_terms g <= x < g_terms g + g_nonterms g) nl.

Lemma infl_nstep r : In r (g_rules g) -> infl_on (@length Z) ninv (fun nl => nstep nl r).
Proof.
  intros Hr nl' [H1 H2]. unfold nstep. destruct (forallb _ _); [|repeat split; auto].
  split; [|apply ins_len]. split; [apply ins_sorted; auto|].
  rewrite Forall_forall in *. intros z Hz. apply ins_In in Hz. destruct Hz as [->|Hz]; auto.
Qed.

Lemma ninv_nullable_set : ninv nl /\ nullable_step g nl = nl.
Proof.
  assert (Hi : infl_on (@length Z) ninv (nullable_step g)) by (apply (infl_on_fold nstep), infl_nstep).
  assert (H0 : ninv []) by (split; constructor).
  unfold nl, nullable_set. split; [apply iterate_inv; [exact H0|apply Hi]|].
  apply (iterate_reaches_fix (Z.to_nat (g_nonterms g)) Hi); [|exact H0|simpl; lia].
  intros l [H1 H2]. pose proof (sorted_range_length l _ _ H1 H2) as H.
  replace (g_terms g + g_nonterms g - g_terms g) with (g_nonterms g) in H by lia. exact H.
Qed.

Theorem nullable_set_closed : nullable_closed g (nullable_set g) = true.
Proof.
  apply forallb_forall. intros r Hr. destruct ninv_nullable_set as [Hn Hfix].
  pose proof (fold_fixed nstep _ _ infl_nstep Hn Hfix r Hr) as H. fold nl.
  unfold nstep in H. destruct (forallb (fun s => negb (is_term g s) && mem s nl) (r_rhs r)) eqn:E; auto.
  simpl. assert (E' : forallb (fun s => mem s nl) (r_rhs r) = true).
  { rewrite forallb_forall in *. intros s Hs. specialize (E s Hs). apply andb_true_iff in E. apply E. }
  rewrite E' in H. apply mem_In. rewrite <- H. apply ins_In. auto.
Qed.

(* FIRST: one entry per rule head after the first round, then measured by the number of terminals held *)
Definition fstep (t : first_table) (r : rule) : first_table :=
  ft_add t (r_lhs r) (fst (first_seq g nl (ft_get t) (r_rhs r))).

Definition heads_present (t : first_table) : Prop := forall r, In r (g_rules g) -> In (r_lhs r) (keys t).

Lemma heads_present_step t : heads_present (first_step g nl t).
Proof.
  intros r Hr. change (first_step g nl t) with (fold_left fstep (g_rules g) t).
  revert t. induction (g_rules g) as [|r0 rs IH]; intros t; [destruct Hr|]. simpl. destruct Hr as [->|Hr]; [|auto].
  apply (fold_left_inv (fun t => In (r_lhs r) (keys t))); [|intros; unfold fstep]; apply ft_add_keys; auto.
Qed.

(* sorted entries over the terminals, distinct keys among the nonterminals *)
Definition lst_ok (l : list Z) : Prop := StronglySorted Z.lt l /\ Forall (fun x => 0 <= x < g_terms g) l.
Definition finv (t : first_table) : Prop :=
  NoDup (keys t) /\ Forall (fun e => g_terms g <= fst e < g_terms g + g_nonterms g /\ lst_ok (snd e)) t.

Lemma lst_ok_nil : lst_ok [].
Proof. split; constructor. Qed.

Lemma union_ok a b : Forall (fun x => 0 <= x < g_terms g) a -> lst_ok b -> lst_ok (union a b).
Proof.
  unfold union. revert b. induction a as [|x a IH]; intros b Ha Hb; simpl; auto.
  inversion Ha as [|x' a' Hx Ha']; subst. apply IH; auto. destruct Hb as [H1 H2]. split; [apply ins_sorted; auto|].
  rewrite Forall_forall in *. intros z Hz. apply ins_In in Hz. destruct Hz as [->|Hz]; auto.
Qed.

Lemma ft_get_lst_ok t x : finv t -> lst_ok (ft_get t x).
Proof.
  intros [_ Hf]. induction t as [|[z l0] t IH]; simpl; [apply lst_ok_nil|].
  inversion Hf as [|e t' He Hf']; subst. destruct (z =? x); [apply He|auto].
Qed.

Lemma first_seq_lst_ok t w : finv t -> lst_ok (fst (first_seq g nl (ft_get t) w)).
Proof.
  intros Ht. induction w as [|s w IH]; simpl; [apply lst_ok_nil|].
  destruct (is_term g s) eqn:Et.
  - apply is_term_spec in Et. split; repeat constructor; lia.
  - destruct (mem s nl).
    + destruct (first_seq g nl (ft_get t) w) as [f n]. simpl in *. apply union_ok; auto. apply (ft_get_lst_ok t s Ht).
    + simpl. apply ft_get_lst_ok. exact Ht.
Qed.

Lemma finv_add t x l : finv t -> g_terms g <= x < g_terms g + g_nonterms g -> lst_ok l -> finv (ft_add t x l).
Proof.
  intros [Hnd Hf] Hx Hl. induction t as [|[z l0] t IH]; simpl.
  - split; [constructor; [intros []|constructor]|constructor; [split; assumption|constructor]].
  - inversion Hf as [|e t' He Hf']; subst. simpl in Hnd. inversion Hnd as [|z' k' Hz Hnd']; subst.
    destruct (Z.eqb_spec z x) as [->|Hne]; simpl.
    + split; [constructor; auto|]. constructor; auto. simpl. split; [apply He|]. apply union_ok; [apply Hl|apply He].
    + destruct (IH Hnd' Hf') as [G1 G2]. split; [|constructor; auto]. simpl. constructor; auto.
      intros Hin. apply ft_add_keys in Hin. destruct Hin; auto.
Qed.

Lemma finv_fstep t r : In r (g_rules g) -> finv t -> finv (fstep t r).
Proof. intros Hr Ht. apply finv_add; [exact Ht|apply Hrange, Hr|apply first_seq_lst_ok, Ht]. Qed.

Lemma elems_bound t : finv t -> (elems t <= Z.to_nat (g_nonterms g * g_terms g))%nat.
Proof.
  intros [Hnd Hf].
  assert (H1 : (elems t <= length t * Z.to_nat (g_terms g))%nat).
  { clear Hnd. induction t as [|e t IH]; simpl; [lia|]. inversion Hf as [|e' t' He Hf']; subst.
    destruct He as [_ [Hs Hr]]. pose proof (sorted_range_length _ 0 (g_terms g) Hs Hr) as H.
    rewrite Z.sub_0_r in H. specialize (IH Hf'). lia. }
  assert (H2 : (length t <= Z.to_nat (g_nonterms g))%nat).
  { rewrite <- (map_length fst t), <- (nonterms_length g). apply NoDup_incl_length; [exact Hnd|].
    intros y Hy. apply in_map_iff in Hy. destruct Hy as (e & <- & He).
    rewrite Forall_forall in Hf. apply in_nonterms, (Hf e He). }
  etransitivity; [exact H1|]. etransitivity; [apply Nat.mul_le_mono_r, H2|apply Z2Nat_mul_le].
Qed.

Lemma infl_fstep r : In r (g_rules g) -> infl_on elems (fun t => finv t /\ heads_present t) (fun t => fstep t r).
Proof.
  intros Hr t [Hf Hp]. split; [|apply ft_add_present, Hp, Hr].
  split; [apply finv_fstep; auto|]. intros r' Hr'. apply ft_add_keys. right. apply Hp, Hr'.
Qed.

Lemma finv_first_sets : (finv (first_sets g) /\ heads_present (first_sets g)) /\
  first_step g nl (first_sets g) = first_sets g.
Proof.
  assert (Hi : infl_on elems (fun t => finv t /\ heads_present t) (first_step g nl))
    by (apply (infl_on_fold fstep), infl_fstep).
  assert (H0 : finv (first_step g nl []) /\ heads_present (first_step g nl [])).
  { split; [|apply heads_present_step]. apply (fold_left_inv finv); [split; constructor|].
    intros t r Hr Ht. apply finv_fstep; auto. }
  unfold first_sets. fold nl. cbn [iterate].
  split; [apply iterate_inv; [exact H0|apply Hi]|].
  apply (iterate_reaches_fix (Z.to_nat (g_nonterms g * g_terms g)) Hi); [|exact H0|lia].
  intros t [H1 _]. apply elems_bound, H1.
Qed.

Theorem first_sets_closed : first_closed g (nullable_set g) (first_sets g) = true.
Proof.
  apply forallb_forall. intros r Hr. destruct finv_first_sets as [Hinv Hfix].
  pose proof (fold_fixed fstep _ _ infl_fstep Hinv Hfix r Hr) as H. apply ft_add_fixed in H.
  apply forallb_forall. intros x Hx. apply mem_In, H, Hx.
Qed.
End Fix.

Scheme nullable_sym_ind2 := Minimality for nullable_sym Sort Prop
  with nullable_seq_ind2 := Minimality for nullable_seq Sort Prop.
Combined Scheme nullable_mutind from nullable_sym_ind2, nullable_seq_ind2.

Section Complete.
Variable g : grammar.
Variable nl : list Z.
Hypothesis Hwf : wf_lhs g = true.
Hypothesis Hncl : nullable_closed g nl = true.

Lemma lhs_not_term r : In r (g_rules g) -> is_term g (r_lhs r) = false.
Proof.
  intros Hr. unfold wf_lhs in Hwf. rewrite forallb_forall in Hwf. apply Hwf in Hr.
  apply negb_true_iff in Hr. exact Hr.
Qed.

Lemma nullable_complete :
  (forall x, nullable_sym g x -> is_term g x = false /\ In x nl) /\
  (forall w, nullable_seq g w -> forallb (fun s => negb (is_term g s) && mem s nl) w = true).
Proof.
  apply nullable_mutind.
  - intros r Hr _ IH. split; [apply lhs_not_term; auto|].
    unfold nullable_closed in Hncl. rewrite forallb_forall in Hncl. apply Hncl in Hr.
    rewrite IH in Hr. simpl in Hr. apply mem_In. exact Hr.
  - reflexivity.
  - intros x xs _ [H1 H2] _ IH. simpl. rewrite H1, IH. simpl.
    rewrite (proj2 (mem_In x nl) H2). reflexivity.
Qed.

Lemma first_sym_term x b : first_sym g x b -> is_term g x = true -> b = x.
Proof.
  intros H. destruct H as [b Hb|r pre y post b Hr]; auto.
  intros Ht. rewrite (lhs_not_term r Hr) in Ht. discriminate.
Qed.

Lemma first_seq_nullable f w : nullable_seq g w -> snd (first_seq g nl f w) = true.
Proof.
  induction 1 as [|x xs Hx Hxs IH]; simpl; auto.
  destruct (proj1 nullable_complete x Hx) as [H1 H2]. rewrite H1, (proj2 (mem_In x nl) H2).
  destruct (first_seq g nl f xs). exact IH.
Qed.

Lemma first_seq_complete_at f pre x post b :
  nullable_seq g pre -> (is_term g x = true -> b = x) -> (is_term g x = false -> In b (f x)) ->
  In b (fst (first_seq g nl f (pre ++ x :: post))).
Proof.
  intros Hpre H1 H2. induction Hpre as [|p pre Hp Hpre IH]; simpl.
  - destruct (is_term g x) eqn:Et.
    + left. symmetry. auto.
    + destruct (mem x nl).
      * destruct (first_seq g nl f post). simpl. apply union_In. left. auto.
      * simpl. auto.
  - destruct (proj1 nullable_complete p Hp) as [E1 E2]. rewrite E1, (proj2 (mem_In p nl) E2).
    destruct (first_seq g nl f (pre ++ x :: post)). simpl in *. apply union_In. right. exact IH.
Qed.

Variable ft : first_table.
Hypothesis Hfcl : first_closed g nl ft = true.

Lemma first_complete X b : first_sym g X b -> is_term g X = false -> In b (ft_get ft X).
Proof.
  induction 1 as [b Hb|r pre x post b Hr E Hpre Hx IH]; intros Ht; [congruence|].
  unfold first_closed in Hfcl. rewrite forallb_forall in Hfcl. apply Hfcl in Hr.
  unfold subset_b in Hr. rewrite forallb_forall in Hr. apply mem_In. apply Hr.
  rewrite E. apply first_seq_complete_at; auto. apply first_sym_term. exact Hx.
Qed.

Lemma first_seq_complete w b : first_seq_of g w b -> In b (fst (first_seq g nl (ft_get ft) w)).
Proof.
  intros (pre & x & post & -> & Hpre & Hx). apply first_seq_complete_at; auto.
  - apply first_sym_term. exact Hx.
  - apply first_complete. exact Hx.
Qed.
End Complete.

Scheme derives_ind2 := Minimality for derives Sort Prop
  with derives_seq_ind2 := Minimality for derives_seq Sort Prop.
Combined Scheme derives_mutind from derives_ind2, derives_seq_ind2.

Lemma derives_first_nullable g :
  (forall X w, derives g X w ->
     (w = [] -> nullable_sym g X) /\ (forall a w', w = a :: w' -> first_sym g X a)) /\
  (forall xs w, derives_seq g xs w ->
     (w = [] -> nullable_seq g xs) /\ (forall a w', w = a :: w' -> first_seq_of g xs a)).
Proof.
  apply derives_mutind.
  - intros a Ha. split; [discriminate|]. intros b w' [= <- _]. constructor. exact Ha.
  - intros r w Hr _ [IH1 IH2]. split.
    + intros E. constructor; auto.
    + intros a w' E. destruct (IH2 a w' E) as (pre & x & post & Erhs & Hpre & Hx). eapply fs_rule; eauto.
  - split; [constructor|discriminate].
  - intros x xs w1 w2 _ [IHx1 IHx2] _ [IHs1 IHs2]. split.
    + intros E. apply app_eq_nil in E. destruct E as [-> ->]. constructor; auto.
    + intros a w' E. destruct w1 as [|b w1'].
      * simpl in E. apply first_seq_of_cons_nullable; [apply IHx1; reflexivity|eapply IHs2; eauto].
      * simpl in E. injection E as -> _. apply first_seq_of_head. eapply IHx2; reflexivity.
Qed.

Lemma nullable_derives g :
  (forall X, nullable_sym g X -> derives g X []) /\ (forall xs, nullable_seq g xs -> derives_seq g xs []).
Proof.
  apply nullable_mutind.
  - intros r Hr _ IH. constructor; auto.
  - constructor.
  - intros x xs _ IH1 _ IH2. change (@nil Z) with (@nil Z ++ @nil Z). constructor; auto.
Qed.

Theorem nullable_sym_iff_derives g X : nullable_sym g X <-> derives g X [].
Proof.
  split; [apply nullable_derives|]. intros H. apply (proj1 (derives_first_nullable g) X [] H). reflexivity.
Qed.

Theorem first_sym_of_derivation g X a w : derives g X (a :: w) -> first_sym g X a.
Proof. intros H. eapply (proj1 (derives_first_nullable g) X (a :: w) H). reflexivity. Qed.
