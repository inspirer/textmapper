(* C07, completeness: check_kc = true implies that the loop with deep LALR(k) rows accepts every sentence: lr_complete
   for an invariant that carries strings of up to k terminals; the answer of a deep row on the real input comes from
   the check of the row walk on the lookahead string the input begins with. *)
From Coq Require Import List ZArith Bool Lia.
From TM Require Import Lib.ListX Gram.Cfg Gram.Cfg_proofs Gram.PTables Gram.Run Gram.Derive Gram.LalrSpec_proofs Gram.Validator Gram.LRLoop_proofs Gram.Validator_proofs Gram.LRSound
                       Gram.OptimizeSpec_proofs Gram.ValidatorK Gram.ValidatorK_proofs2 Gram.ValidatorKC.
Import ListNotations.
Local Open Scope Z_scope.

Lemma smem_In x l : smem x l = true <-> In x l.
Proof.
  unfold smem. rewrite existsb_exists. split.
  - intros (y & Hy & E). apply zl_eqb_eq in E. subst. exact Hy.
  - intros H. exists x. split; [exact H|]. apply zl_eqb_eq. reflexivity.
Qed.

Lemma sadd_In x l y : In y (sadd x l) <-> y = x \/ In y l.
Proof.
  unfold sadd. destruct (smem x l) eqn:E.
  - apply smem_In in E. split; [auto|]. intros [->|H]; auto.
  - simpl. split; intros [H|H]; auto.
Qed.

Lemma ssubset_incl a b : ssubset a b = true -> incl a b.
Proof. unfold ssubset. rewrite forallb_forall. intros H x Hx. apply smem_In. auto. Qed.

Lemma fold_mono {E} (F : list (list Z) -> E -> list (list Z)) :
  (forall acc e x, In x acc -> In x (F acc e)) -> forall l acc x, In x acc -> In x (fold_left F l acc).
Proof. intros HF l. induction l as [|e l IH]; intros acc x Hx; simpl; [exact Hx|]. apply IH. apply HF. exact Hx. Qed.

Lemma fold_hit {E} (F : list (list Z) -> E -> list (list Z)) :
  (forall acc e x, In x acc -> In x (F acc e)) ->
  forall l acc e x, In e l -> (forall acc', In x (F acc' e)) -> In x (fold_left F l acc).
Proof.
  intros HF l. induction l as [|e0 l IH]; intros acc e x Hin Hx; simpl; [destruct Hin|].
  destruct Hin as [->|Hin].
  - apply fold_mono; [exact HF|apply Hx].
  - eapply IH; eauto.
Qed.

Lemma firstn_app_short {A} k (a b : list A) : (k <= length a)%nat -> firstn k (a ++ b) = firstn k a.
Proof.
  intros H. rewrite firstn_app. replace (k - length a)%nat with O by lia. simpl. apply app_nil_r.
Qed.

Lemma concat_k_In k A B a b : In a A -> In b B -> In (firstn k (a ++ b)) (concat_k k A B).
Proof.
  intros Ha Hb. unfold concat_k.
  set (G := fun (acc : list (list Z)) (b0 : list Z) => sadd (firstn k (a ++ b0)) acc).
  assert (HG : forall a0 acc e x, In x acc -> In x (sadd (firstn k (a0 ++ e)) acc)).
  { intros a0 acc e x Hx. apply sadd_In. right. exact Hx. }
  eapply fold_hit with (e := a); [| exact Ha |].
  - intros acc e x Hx. destruct (k <=? length e)%nat.
    + apply sadd_In. right. exact Hx.
    + apply fold_mono; [apply HG|exact Hx].
  - intros acc'. destruct (k <=? length a)%nat eqn:E.
    + apply Nat.leb_le in E. apply sadd_In. left. apply firstn_app_short. exact E.
    + eapply fold_hit with (e := b); [apply HG|exact Hb|]. intros acc2. apply sadd_In. left. reflexivity.
Qed.

Lemma firstn_app_l1 {A} k : forall (a y : list A), firstn k (firstn k a ++ y) = firstn k (a ++ y).
Proof.
  induction k as [|k IH]; intros a y; [reflexivity|].
  destruct a as [|x a]; [reflexivity|]. simpl. f_equal. apply IH.
Qed.

Lemma firstn_app_l2 {A} (b : list A) j : forall k a, (k <= j)%nat -> firstn k (a ++ firstn j b) = firstn k (a ++ b).
Proof.
  intros k a. revert k. induction a as [|x a IH]; intros k Hk; simpl.
  - rewrite firstn_firstn. f_equal. lia.
  - destruct k as [|k]; [reflexivity|]. simpl. f_equal. apply IH. lia.
Qed.

Definition wmatch (w inp : list Z) : Prop := exists n z, inp ++ repeat 0 n = w ++ z.

Lemma wmatch_nil inp : wmatch [] inp.
Proof. exists O, inp. simpl. apply app_nil_r. Qed.

Lemma wmatch_firstn j w inp : wmatch w inp -> wmatch (firstn j w) inp.
Proof.
  intros (n & z & E). exists n, (skipn j w ++ z). rewrite app_assoc, firstn_skipn. exact E.
Qed.

Lemma wmatch_app u w inp : wmatch w inp -> wmatch (u ++ w) (u ++ inp).
Proof. intros (n & z & E). exists n, z. rewrite <- !app_assoc. f_equal. exact E. Qed.

Lemma wmatch_nozero w : forall inp, wmatch w inp -> ~ In 0 w -> exists ext, inp = w ++ ext.
Proof.
  induction w as [|a w IH]; intros inp (n & z & E) Hnz; [exists inp; reflexivity|].
  destruct inp as [|b inp]; simpl in E.
  - destruct n as [|n]; simpl in E; [discriminate|]. injection E as E0 _. exfalso. apply Hnz. left. auto.
  - injection E as -> E. destruct (IH inp) as (ext & ->).
    + exists n, z. exact E.
    + intros H. apply Hnz. right. exact H.
    + exists ext. reflexivity.
Qed.

Lemma wmatch_zero w : forall inp, wmatch w inp -> has_zero w = true -> ~ In 0 inp -> inp = real_of w.
Proof.
  induction w as [|a w IH]; intros inp (n & z & E) Hz Hnz; [discriminate|].
  change (has_zero (a :: w)) with ((0 =? a) || has_zero w) in Hz. simpl real_of. rewrite Z.eqb_sym in Hz.
  destruct (a =? 0) eqn:Ea.
  - apply Z.eqb_eq in Ea. subst a. destruct inp as [|b inp]; [reflexivity|].
    simpl in E. injection E as -> _. exfalso. apply Hnz. left. reflexivity.
  - simpl in Hz. apply Z.eqb_neq in Ea. destruct inp as [|b inp]; simpl in E.
    + destruct n as [|n]; simpl in E; [discriminate|]. injection E as E0 _. congruence.
    + injection E as -> E. f_equal. apply IH; [exists n, z; exact E|exact Hz|].
      intros H. apply Hnz. right. exact H.
Qed.

Lemma walk_dec_deep t : forall more a v, walk_dec t a more = Some v ->
  forall f ext, (length more <= f)%nat -> deep_walk f t a (more ++ ext) = v.
Proof.
  induction more as [|x more IH]; intros a v H f ext Hf; simpl in H.
  - destruct (a <? -2) eqn:E; [discriminate|]. injection H as <-.
    destruct f; simpl; [reflexivity|]. rewrite E. reflexivity.
  - destruct (a <? -2) eqn:E.
    + destruct f as [|f]; [simpl in Hf; lia|]. simpl. rewrite E. apply IH; [exact H|simpl in Hf; lia].
    + injection H as <-. destruct f; simpl; [reflexivity|]. rewrite E. reflexivity.
Qed.

Lemma default_act_of t q a more :
  default_act t q a more =
  act_of t q a (let a0 := zn (d_action t) q in
                let a1 := if a0 <? -2 then lalr_lookup t a0 a else a0 in
                if a1 <? -2 then deep_walk (S (S (length more))) t a1 more else a1).
Proof. reflexivity. Qed.

Lemma decided_sound t q a rest e : decided t q a rest e = true -> forall ext, default_act t q a (rest ++ ext) = e.
Proof.
  unfold decided. intros H ext. rewrite default_act_of. cbv zeta in *.
  set (a1 := if zn (d_action t) q <? -2 then lalr_lookup t (zn (d_action t) q) a else zn (d_action t) q) in *.
  destruct (walk_dec t a1 rest) as [v|] eqn:W; [|discriminate]. apply act_eqb_eq in H.
  destruct (a1 <? -2) eqn:E1.
  - rewrite (walk_dec_deep t rest a1 v W); [exact H|]. rewrite app_length. lia.
  - destruct rest; simpl in W; rewrite E1 in W; injection W as <-; exact H.
Qed.

Section ActOk.
Variable g : grammar.
Variable t : default_enc.

Lemma act_ok_sound q w e inp :
  act_ok g t q w e = true -> wmatch w inp -> LRSound.toks_ok g inp -> 1 <= vT g ->
  default_act t q (LRSound.nxt inp) (tl inp) = e.
Proof.
  intros H Hm Hok HT. unfold act_ok in H.
  assert (Hnz : ~ In 0 inp).
  { intros Hin. unfold LRSound.toks_ok in Hok. rewrite Forall_forall in Hok. apply Hok in Hin. lia. }
  destruct (has_zero w) eqn:Hz.
  - rewrite <- (wmatch_zero w inp Hm Hz Hnz) in H. apply act_eqb_eq in H. exact H.
  - assert (Hwz : ~ In 0 w).
    { intros Hin. unfold has_zero in Hz. assert (existsb (Z.eqb 0) w = true); [|congruence].
      apply existsb_exists. exists 0. split; [exact Hin|reflexivity]. }
    destruct (wmatch_nozero w inp Hm Hwz) as (ext & ->).
    destruct w as [|a rest].
    + simpl app. rewrite forallb_forall in H.
      assert (Ha : 0 <= LRSound.nxt ext < vT g).
      { destruct ext as [|b ext']; simpl; [lia|]. inversion Hok; subst. lia. }
      specialize (H _ (proj2 (in_zrange0 _ _) Ha)).
      exact (decided_sound t q _ [] e H (tl ext)).
    + simpl. exact (decided_sound t q a rest e H ext).
Qed.
End ActOk.

(* closure of the certificate: everything check_kc checks EXCEPT the answers of the table cells / deep rows *)
Definition cert_closed (g : grammar) (t : default_enc) (rule_len rule_sym finals : list Z) (k : nat) (ftk : fk_table) (kann : kcert) : Prop :=
  (1 <= vT g /\ 0 <= g_nonterms g /\
   (forall rl, In rl (g_rules g) -> vT g <= r_lhs rl < vNS g /\ forall s, In s (r_rhs rl) -> 1 <= s < vNS g) /\
   (forall inp, In inp (g_inputs g) -> vT g <= fst inp < vNS g)) /\
  (forall rl, In rl (g_rules g) -> incl (firstk_seq g k ftk (r_rhs rl)) (fk_get ftk (r_lhs rl))) /\
  (forall q r d L rl X, In (r, d, L) (kitems kann q) -> arule g r = Some rl -> nth_error (r_rhs rl) d = Some X ->
     0 <= goto_state t q X /\ exists L', In (r, S d, L') (kitems kann (goto_state t q X)) /\ incl L L') /\
  (forall q r d L rl X r' rl',
     In (r, d, L) (kitems kann q) -> arule g r = Some rl -> nth_error (r_rhs rl) d = Some X -> vT g <= X ->
     nth_error (g_rules g) r' = Some rl' -> r_lhs rl' = X ->
     exists L0, In (r', O, L0) (kitems kann q) /\ incl (concat_k k (firstk_seq g k ftk (skipn (S d) (r_rhs rl))) L) L0) /\
  (forall r rl, nth_error (g_rules g) r = Some rl ->
     zn rule_len (Z.of_nat r) = Z.of_nat (length (r_rhs rl)) /\ zn rule_sym (Z.of_nat r) = r_lhs rl) /\
  (forall i nt eoi, nth_error (g_inputs g) i = Some (nt, eoi) ->
     (exists L, In ((nrules g + i)%nat, O, L) (kitems kann (Z.of_nat i)) /\ In [] L) /\
     (if eoi : bool then goto_state t (goto_state t (Z.of_nat i) nt) 0 = final_of finals i
      else goto_state t (Z.of_nat i) nt = final_of finals i)).

(* on every remaining input that begins with a lookahead string of the certificate the loop (cell, Lalr row, deep rows
   walked over [tl inp]) answers the action of the item that carries the string *)
Definition rows_agree (g : grammar) (t : default_enc) (k : nat) (ftk : fk_table) (kann : kcert) : Prop :=
  (forall q r d L rl X w inp,
     In (r, d, L) (kitems kann q) -> arule g r = Some rl -> nth_error (r_rhs rl) d = Some X -> X < vT g ->
     In w (concat_k k [firstn k [X]] (concat_k k (firstk_seq g k ftk (skipn (S d) (r_rhs rl))) L)) ->
     wmatch w inp -> LRSound.toks_ok g inp ->
     default_act t q (LRSound.nxt inp) (tl inp) = Shift (goto_state t q X)) /\
  (forall q r d L rl w inp,
     In (r, d, L) (kitems kann q) -> nth_error (g_rules g) r = Some rl -> d = length (r_rhs rl) -> In w L ->
     wmatch w inp -> LRSound.toks_ok g inp ->
     default_act t q (LRSound.nxt inp) (tl inp) = Reduce (Z.of_nat r)).

Section Abs.
Variable g : grammar.
Variable t : default_enc.
Variable rule_len rule_sym : list Z.
Variable finals : list Z.
Variable k : nat.
Variable ftk : fk_table.
Variable kann : kcert.

Notation T := (vT g).
Notation fseq := (firstk_seq g k ftk).

Hypothesis CC : cert_closed g t rule_len rule_sym finals k ftk kann.
Hypothesis RA : rows_agree g t k ftk kann.

Lemma firstk_sound :
  (forall X w, derives g X w -> In (firstn k w) (firstk_sym g k ftk X)) /\
  (forall xs w, derives_seq g xs w -> In (firstn k w) (fseq xs)).
Proof.
  destruct CC as (G & A_firstk & _).
  apply derives_mutind.
  - intros a Ha. unfold firstk_sym. apply is_term_iff in Ha. destruct (a <? T) eqn:E; [left; reflexivity|apply Z.ltb_ge in E; lia].
  - intros rl w Hin Hseq IH. pose proof (rule_lhs_range g G _ Hin) as Hl.
    unfold firstk_sym. destruct (r_lhs rl <? T) eqn:E; [apply Z.ltb_lt in E; lia|].
    apply (A_firstk _ Hin). exact IH.
  - left. destruct k; reflexivity.
  - intros x xs w1 w2 Hx IHx Hxs IHxs. simpl.
    rewrite <- (firstn_app_l2 w2 k k w1 (le_n k)). rewrite <- firstn_app_l1.
    apply concat_k_In; assumption.
Qed.

(* the lookahead invariant: the remaining input begins with a string derived from gamma followed by a lookahead
   string of L *)
Definition sfk (gamma : list Z) (L : list (list Z)) (inp : list Z) : Prop :=
  exists u l, derives_seq g gamma u /\ In l L /\ wmatch (u ++ l) inp.

Lemma sfk_incl gamma L L' inp : incl L L' -> sfk gamma L inp -> sfk gamma L' inp.
Proof. intros Hi (u & l & H1 & H2 & H3). exists u, l. auto. Qed.

Lemma sfk_app xs w2 rest L inp : derives_seq g xs w2 -> sfk rest L inp -> sfk (xs ++ rest) L (w2 ++ inp).
Proof.
  intros Hxs (u & l & H1 & H2 & H3). exists (w2 ++ u), l. split; [apply derives_seq_app; assumption|].
  split; [exact H2|]. rewrite <- app_assoc. apply wmatch_app. exact H3.
Qed.

Lemma sfk_string beta L u l : derives_seq g beta u -> In l L -> In (firstn k (u ++ l)) (concat_k k (fseq beta) L).
Proof. intros Hu Hl. rewrite <- firstn_app_l1. apply concat_k_In; [apply (proj2 firstk_sound); exact Hu|exact Hl]. Qed.

Theorem complete_of_oracle i ws nt eoi :
  LRSound.toks_ok g ws -> nth_error (g_inputs g) i = Some (nt, eoi) -> sentence g nt eoi ws ->
  exists fuel, fst (parse fuel (default_machine t rule_len rule_sym) finals i ws) = Accept.
Proof.
  destruct CC as (G & _ & A_advance & C_closure & C_rule_tabs & C_inputs). destruct RA as (A_shift & A_reduce).
  apply (lr_complete g (default_machine t rule_len rule_sym) finals (goto_state t) (list Z) (kitems kann) sfk G
           (fun _ _ _ => eq_refl) sfk_incl sfk_app A_advance).
  - intros q r d L rl X r' rl' inp Hin Hr HX HT Hr' Hlhs (u & l & Hu & Hl & Hm).
    destruct (C_closure _ _ _ _ _ _ _ _ Hin Hr HX HT Hr' Hlhs) as (L0 & Hin0 & Hinc). exists L0. split; [exact Hin0|].
    exists [], (firstn k (u ++ l)). split; [constructor|]. split; [apply Hinc, sfk_string; assumption|].
    apply wmatch_firstn. exact Hm.
  - intros q r d L rl inp Hin Hr HX Hok (u & l & Hu & Hl & Hm).
    pose proof (hd_range g G _ Hok) as Ha. rewrite (nth_error_skipn_cons _ _ _ HX) in Hu.
    inversion Hu as [|? ? w1 u2 Hw1 Hu2]; subst. apply (derives_term g G) in Hw1; [subst w1|exact Ha].
    apply (A_shift _ _ _ _ _ _ (firstn k ((hd 0 inp :: u2) ++ l)) _ Hin Hr HX); [lia| |apply wmatch_firstn; exact Hm|exact Hok].
    change ((hd 0 inp :: u2) ++ l) with ([hd 0 inp] ++ u2 ++ l). rewrite <- (firstn_app_l2 (u2 ++ l) k k [hd 0 inp] (le_n k)), <- firstn_app_l1.
    apply concat_k_In; [left; reflexivity|apply sfk_string; assumption].
  - intros q r d L rl inp Hin Hr Hd Hok (u & l & Hu & Hl & Hm). inversion Hu; subst.
    split; [exact (A_reduce _ _ _ _ _ _ _ Hin Hr eq_refl Hl Hm Hok)|exact (C_rule_tabs _ _ Hr)].
  - intros j nt' eoi' Hinp. destruct (C_inputs _ _ _ Hinp) as ((L & Hin & HL) & Hwire). split; [|exact Hwire].
    exists L. split; [exact Hin|]. destruct eoi'.
    + exists [0], []. split; [apply derives_seq_one, derives_tok; destruct G; lia|]. split; [exact HL|].
      exists 1%nat, []. reflexivity.
    + intros s _. exists [], []. split; [constructor|]. split; [exact HL|apply wmatch_nil].
Qed.
End Abs.

Section PKC.
Variable g : grammar.
Variable t : default_enc.
Variable rule_len rule_sym : list Z.
Variable nstates : Z.
Variable finals : list Z.
Variable k : nat.
Variable ftk : fk_table.
Variable kann : kcert.

Notation T := (vT g).
Notation NR := (nrules g).
Notation NI := (ninputs g).
Notation kitems := (kitems kann).
Notation trans := (goto_state t).
Notation arule := (arule g).
Notation final_of := (final_of finals).
Notation fseq := (firstk_seq g k ftk).

Hypothesis Hlen : kc_ann_len nstates kann = true.

Lemma kitem_state q it : In it (kitems q) -> 0 <= q < nstates.
Proof. apply nth_state. apply Z.leb_le. exact Hlen. Qed.

Lemma kitem_incl_In q r d L : kitem_incl kann q r d L = true -> exists L', In (r, d, L') (kitems q) /\ incl L L'.
Proof.
  unfold kitem_incl. rewrite existsb_exists. intros ([[r' d'] L'] & Hin & E).
  rewrite !andb_true_iff in E. destruct E as [[E1 E2] E3]. apply Nat.eqb_eq in E1. apply Nat.eqb_eq in E2. subst.
  exists L'. split; [exact Hin|apply ssubset_incl; exact E3].
Qed.

Hypothesis Hadvance : kc_advance g t nstates k ftk kann = true.

Lemma C_advance q r d L rl X : In (r, d, L) (kitems q) -> arule r = Some rl -> nth_error (r_rhs rl) d = Some X ->
  0 <= trans q X /\ (exists L', In (r, S d, L') (kitems (trans q X)) /\ incl L L') /\
  (X < T -> forall w, In w (concat_k k [firstn k [X]] (concat_k k (fseq (skipn (S d) (r_rhs rl))) L)) ->
            act_ok g t q w (Shift (trans q X)) = true).
Proof.
  intros Hin Hr HX. apply (forallb_items _ _ _ kitem_state Hadvance) in Hin. cbv beta iota in Hin.
  rewrite Hr, HX in Hin. cbv zeta in Hin. rewrite !andb_true_iff in Hin. destruct Hin as [[H1 H2] H3]. apply Z.leb_le in H1.
  split; [exact H1|]. split; [apply kitem_incl_In; exact H2|].
  intros HT w Hw. apply Z.ltb_lt in HT. rewrite HT, forallb_forall in H3. apply H3. exact Hw.
Qed.

Hypothesis Hclosure : kc_closure g nstates k ftk kann = true.

Lemma C_closure q r d L rl X r' rl' :
  In (r, d, L) (kitems q) -> arule r = Some rl -> nth_error (r_rhs rl) d = Some X -> T <= X ->
  nth_error (g_rules g) r' = Some rl' -> r_lhs rl' = X ->
  exists L0, In (r', O, L0) (kitems q) /\ incl (concat_k k (fseq (skipn (S d) (r_rhs rl))) L) L0.
Proof.
  intros Hin Hr HX HT Hr' Hl. apply (forallb_items _ _ _ kitem_state Hclosure) in Hin. cbv beta iota in Hin.
  rewrite Hr, HX in Hin. destruct (X <? T) eqn:E; [apply Z.ltb_lt in E; lia|]. cbv zeta in Hin.
  apply forallb_seq with (i := r') in Hin; [|apply Nat.ltb_lt; eapply rule_index_lt; exact Hr'].
  rewrite Hr', Hl, Z.eqb_refl in Hin. apply kitem_incl_In. exact Hin.
Qed.

Hypothesis Hreduce : kc_reduce g t nstates kann = true.

Lemma C_reduce q r d L rl w : In (r, d, L) (kitems q) -> nth_error (g_rules g) r = Some rl -> d = length (r_rhs rl) ->
  In w L -> act_ok g t q w (Reduce (Z.of_nat r)) = true.
Proof.
  intros Hin Hr -> Hw. apply (forallb_items _ _ _ kitem_state Hreduce) in Hin. cbv beta iota in Hin.
  rewrite (rule_index_lt _ _ _ Hr), Hr, Nat.eqb_refl, forallb_forall in Hin. apply Hin. exact Hw.
Qed.

Lemma C_rule_tabs r rl : kc_rule_tabs g rule_len rule_sym = true -> nth_error (g_rules g) r = Some rl ->
  zn rule_len (Z.of_nat r) = Z.of_nat (length (r_rhs rl)) /\ zn rule_sym (Z.of_nat r) = r_lhs rl.
Proof.
  intros H Hr. apply forallb_seq with (i := r) in H; [|apply Nat.ltb_lt; eapply rule_index_lt; exact Hr].
  rewrite Hr, andb_true_iff, !Z.eqb_eq in H. exact H.
Qed.

Lemma C_inputs i nt eoi : kc_inputs g t nstates finals kann = true -> nth_error (g_inputs g) i = Some (nt, eoi) ->
  (exists L, In ((NR + i)%nat, O, L) (kitems (Z.of_nat i)) /\ In [] L) /\
  (if eoi : bool then trans (trans (Z.of_nat i) nt) 0 = final_of i else trans (Z.of_nat i) nt = final_of i).
Proof.
  unfold kc_inputs. rewrite andb_true_iff. intros [_ H] Hinp.
  apply forallb_seq with (i := i) in H; [|eapply input_index_lt; exact Hinp].
  rewrite Hinp, andb_true_iff in H. destruct H as [H1 H2].
  apply kitem_incl_In in H1. destruct H1 as (L & Hin & Hinc). split.
  - exists L. split; [exact Hin|]. apply Hinc. left. reflexivity.
  - destruct eoi; apply Z.eqb_eq; exact H2.
Qed.

Lemma C_firstk rl : kc_firstk g k ftk = true -> In rl (g_rules g) -> incl (fseq (r_rhs rl)) (fk_get ftk (r_lhs rl)).
Proof. unfold kc_firstk. rewrite forallb_forall. intros H Hin. apply ssubset_incl, H, Hin. Qed.
End PKC.

Theorem check_kc_conditions g t rule_len rule_sym nstates finals k ftk kann :
  check_kc g t rule_len rule_sym nstates finals k ftk kann = true ->
  cert_closed g t rule_len rule_sym finals k ftk kann /\ rows_agree g t k ftk kann.
Proof.
  unfold check_kc. rewrite !andb_true_iff. intros [[[[[[[Hr Hl] Htabs] Hfk] Hadv] Hclo] Hred] Hinp].
  pose proof (chk_rules_ok g Hr) as G. pose proof (C_advance g t nstates k ftk kann Hl Hadv) as Ha.
  split; [split; [exact G|split; [|split; [|split; [|split]]]]|split].
  - intros rl. exact (C_firstk g k ftk rl Hfk).
  - intros q r d L rl X Hin Hrl HX. destruct (Ha _ _ _ _ _ _ Hin Hrl HX) as (H1 & H2 & _). auto.
  - exact (C_closure g nstates k ftk kann Hl Hclo).
  - intros r rl. exact (C_rule_tabs g rule_len rule_sym r rl Htabs).
  - intros i nt eoi. exact (C_inputs g t nstates finals kann i nt eoi Hinp).
  - intros q r d L rl X w inp Hin Hrl HX HT Hw Hm Hok.
    destruct (Ha _ _ _ _ _ _ Hin Hrl HX) as (_ & _ & Hsh).
    exact (act_ok_sound g t _ _ _ _ (Hsh HT w Hw) Hm Hok (proj1 G)).
  - intros q r d L rl w inp Hin Hrl Hd Hw Hm Hok.
    exact (act_ok_sound g t _ _ _ _ (C_reduce g t nstates kann Hl Hred _ _ _ _ _ _ Hin Hrl Hd Hw) Hm Hok (proj1 G)).
Qed.

Theorem parse_complete_kc g t rule_len rule_sym nstates finals k ftk kann :
  check_kc g t rule_len rule_sym nstates finals k ftk kann = true ->
  forall i ws nt eoi, LRSound.toks_ok g ws -> nth_error (g_inputs g) i = Some (nt, eoi) -> sentence g nt eoi ws ->
  exists fuel, fst (parse fuel (default_machine t rule_len rule_sym) finals i ws) = Accept.
Proof. intros H. destruct (check_kc_conditions _ _ _ _ _ _ _ _ _ H) as [CC RA]. exact (complete_of_oracle _ _ _ _ _ _ _ _ CC RA). Qed.

Theorem exact_language_k g t rule_len rule_sym nstates finals ann k ftk kann :
  check_k g t rule_len rule_sym nstates finals ann = true ->
  check_kc g t rule_len rule_sym nstates finals k ftk kann = true ->
  forall i ws nt eoi,
  LRSound.toks_ok g ws -> nth_error (g_inputs g) i = Some (nt, eoi) ->
  ((exists fuel, fst (parse fuel (default_machine t rule_len rule_sym) finals i ws) = Accept) <-> sentence g nt eoi ws).
Proof.
  intros H1 H2 i ws nt eoi Hws Hi. split.
  - intros (fuel & H). exact (parse_sound_k g t rule_len rule_sym nstates finals ann H1 i nt eoi ws fuel Hi Hws H).
  - exact (parse_complete_kc g t rule_len rule_sym nstates finals k ftk kann H2 i ws nt eoi Hws Hi).
Qed.
