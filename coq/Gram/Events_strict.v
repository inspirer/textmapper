(* C02: with fixWhitespace the loop's ranges and events for a derivation tree are exactly the specification. *)
From Coq Require Import List ZArith Bool Lia.
From TM Require Import Gram.Events Gram.Events_proofs.
Import ListNotations.
Local Open Scope Z_scope.

Definition report_ok (n : nat) (rep : nat * nat * Z) : Prop :=
  let '(s, e, _) := rep in (s <= e)%nat /\ (e <= n)%nat /\ (s = e -> (e < n)%nat).

(* well-formed derivation trees w.r.t. the per-rule event table: report ranges lie inside the rule (an empty
   range is never at the end: the compiler rejects that), and a rule whose last symbol cannot be empty
   (HasTrailingNulls = false) ends with a non-empty subtree *)
Inductive wf_tree (evt : ev_table) (rl : Z -> Z) : tree -> Prop :=
| wf_leaf s o e : wf_tree evt rl (TLeaf s o e)
| wf_node r ch :
    Forall (wf_tree evt rl) ch -> 0 <= r -> Z.to_nat (rl r) = length ch ->
    Forall (report_ok (length ch)) (er_reports (ev_at evt r)) ->
    (er_trailing_nulls (ev_at evt r) = false -> ch <> [] -> leaves (last ch (TLeaf 0 0 0)) <> []) ->
    wf_tree evt rl (TNode r ch).

Section Strict.
Variable evt : ev_table.
Variable rl : Z -> Z.
Notation arrows := (arrows_of_ev rl evt).

Lemma report_event_strict ch after rep : ordered (forest_leaves ch) after -> report_ok (length ch) rep ->
  report_event true (fmap spec_range after ch) rep = arrow_event ch after rep.
Proof.
  intros Ho Hok. destruct rep as [[s e] ty]. simpl in Hok. destruct Hok as (Hse & Hel & Hlt).
  unfold report_event, arrow_event. fold (seg ch s e). fold (seg (fmap spec_range after ch) s e).
  destruct (Nat.eqb s e) eqn:E.
  - apply Nat.eqb_eq in E. subst e. unfold seg. rewrite Nat.sub_diag, (nth_fmap _ _ _ _ (TLeaf 0 0 0)) by auto.
    unfold spec_range. rewrite <- start_of_skipn by auto. reflexivity.
  - apply Nat.eqb_neq in E. rewrite (fmap_seg _ _ _ _ _ Hse), report_range_strict.
    + destruct (span_of _ _). reflexivity.
    + intros Hnil. apply (f_equal (@length _)) in Hnil. rewrite seg_length in Hnil by exact Hel. simpl in Hnil. lia.
    + apply (forest_segment ordered ordered_split); assumption.
Qed.

Lemma strict_range r ch a : wf_tree evt rl (TNode r ch) -> ordered (forest_leaves ch) a ->
  let rs := fmap spec_range a ch in let '(off, endoff) := lhs_range rs a in
  spec_range (TNode r ch) a =
    (off, if true && er_trailing_nulls (ev_at evt r) then fix_trailing rs off endoff else endoff).
Proof.
  intros Hw Ho. inversion Hw as [|? ? _ _ _ _ Hlast]; subst. cbv zeta. change (spec_range (TNode r ch) a) with (span_of (forest_leaves ch) a). cbn [andb].
  destruct ch as [|c0 rest0] eqn:Ech; [simpl; destruct (er_trailing_nulls _); reflexivity|].
  rewrite <- Ech in *. assert (Hne : ch <> []) by (rewrite Ech; discriminate).
  rewrite (lhs_range_fmap spec_range ch a (TLeaf 0 0 0) Hne (fun _ _ => eq_refl)).
  rewrite (surjective_pairing (span_of (forest_leaves ch) a)). f_equal.
  destruct (er_trailing_nulls (ev_at evt r)).
  - symmetry. apply fix_trailing_strict; assumption.
  - specialize (Hlast eq_refl Hne). destruct (exists_last Hne) as (P & c & EP). rewrite EP in *. rewrite last_last in *.
    rewrite forest_leaves_app, forest_leaves_single, span_app. unfold spec_range. destruct (leaves c); [congruence|reflexivity].
Qed.

Lemma arrow_whole ch a ty :
  arrow_event ch a (O, length ch, ty) = (ty, fst (span_of (forest_leaves ch) a), snd (span_of (forest_leaves ch) a)).
Proof.
  unfold arrow_event. rewrite Nat.sub_0_r, skipn_all. cbn [skipn]. rewrite firstn_all. destruct (span_of _ _); reflexivity.
Qed.

Theorem tree_run_strict t : wf_tree evt rl t -> forall after, ordered (leaves t) after ->
  tree_run true evt t after = (span_of (leaves t) after, spec_events arrows t after).
Proof.
  intros Hw after Ho.
  apply (tree_run_fold true evt rl spec_range (spec_events arrows) arrow_event
           (fun t a => wf_tree evt rl t /\ ordered (leaves t) a)); try reflexivity; [| | | |split; assumption].
  - intros r ch a [Hwn Hon]. inversion Hwn; subst.
    split; [apply (forest_descend ordered ordered_split); assumption|split; assumption].
  - intros r ch a [Hwn Hon]. apply strict_range; assumption.
  - intros r ch a rep [Hwn Hon] Hin. inversion Hwn as [|? ? _ _ _ Hreps _]; subst.
    apply report_event_strict; [exact Hon|]. rewrite Forall_forall in Hreps. apply Hreps. exact Hin.
  - intros r ch a ty _. apply arrow_whole.
Qed.

Lemma forest_strict ch a : Forall (wf_tree evt rl) ch -> ordered (forest_leaves ch) a ->
  map fst (fmap (tree_run true evt) a ch) = fmap spec_range a ch /\
  flat_map snd (fmap (tree_run true evt) a ch) = fcat (spec_events arrows) a ch.
Proof.
  intros Hw Ho.
  apply (forest_fold true evt spec_range (spec_events arrows) (fun t x => wf_tree evt rl t /\ ordered (leaves t) x)).
  - apply Forall_forall. intros c _ x [Hc Hx]. apply tree_run_strict; assumption.
  - apply (forest_descend ordered ordered_split); assumption.
Qed.

End Strict.

Lemma wf_treeb_sound evt rl t : wf_treeb evt rl t = true -> wf_tree evt rl t.
Proof.
  induction t as [s o e | r ch IH] using tree_ind2; intros H; [constructor|].
  simpl in H. rewrite !andb_true_iff in H. destruct H as [[[[H1 H2] H3] H4] H5].
  apply Z.leb_le in H1. apply Nat.eqb_eq in H2.
  constructor; auto.
  - clear -IH H5. induction ch as [|c rest IHl]; [constructor|].
    apply andb_true_iff in H5. destruct H5 as [Hc Hr]. inversion IH; subst. constructor; auto.
  - rewrite forallb_forall in H3. apply Forall_forall. intros [[s e] ty] Hin. specialize (H3 _ Hin). simpl in H3.
    rewrite !andb_true_iff in H3. destruct H3 as [[Ha Hb] Hc]. apply Nat.leb_le in Ha. apply Nat.leb_le in Hb.
    simpl. repeat split; auto. intros ->. rewrite Nat.eqb_refl in Hc. simpl in Hc. apply Nat.ltb_lt in Hc. exact Hc.
  - intros Htn Hne. rewrite Htn in H4. simpl in H4. destruct ch; [congruence|].
    destruct (leaves (last (t :: ch) (TLeaf 0 0 0))); [discriminate|discriminate].
Qed.
