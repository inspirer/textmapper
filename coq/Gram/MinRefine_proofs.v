(* Moore refinement (Minimize.refine_once / refine) only splits classes, stops at a congruence, and keeps states
   with pairwise distinct leading signatures at their positions. *)
From Coq Require Import List ZArith Lia.
From TM Require Import Lib.ListX Gram.PTables Gram.Optimize Gram.Minimize Gram.ZTab_proofs Gram.MinNumber_proofs.
Import ListNotations.
Local Open Scope Z_scope.

Definition trans_sig (p : list Z) (tr : list Z) : list Z :=
  flat_map (fun '(sym, tgt) => [sym; zn p tgt]) (pairs_up tr).

Section Round.
Variables (trans : list (list Z)) (p : list Z).
Hypothesis Hlen : length trans = length p.

Let N := Z.of_nat (length p).
Definition row (s : Z) : list Z := nth (Z.to_nat s) trans [].

(* the signature a round numbers: old class, then the classes of the targets *)
Definition ref_key (s : Z) : list Z := sig_partition :: zn p s :: trans_sig p (row s).

Lemma refine_once_eq : refine_once trans p = number_all (map ref_key (zseq N)).
Proof.
  unfold refine_once, zlength, N. rewrite <- Hlen, (map_combine_zseq _ trans []). reflexivity.
Qed.

Variables (p' : list Z) (c' : Z).
Hypothesis Href : refine_once trans p = (p', c').

Lemma refine_once_numbers : numbers ref_key N p' c'.
Proof. apply number_all_keys; [lia|]. now rewrite <- refine_once_eq. Qed.

Lemma ref_key_eq s s' : ref_key s = ref_key s' <-> zn p s = zn p s' /\ trans_sig p (row s) = trans_sig p (row s').
Proof. unfold ref_key. split; [intros [= E1 E2]; now split|now intros [-> ->]]. Qed.

Theorem refine_once_refines s s' : 0 <= s < N -> 0 <= s' < N -> zn p' s = zn p' s' -> zn p s = zn p s'.
Proof. intros Hs Hs' H. now apply (kn_eq _ _ _ _ refine_once_numbers), ref_key_eq in H. Qed.

Variable c : Z.
Hypothesis Hsurj : forall k, 0 <= k < c -> exists s, 0 <= s < N /\ zn p s = k.

(* the distinct signatures of the round: there are [c'] of them, and their second components (the old classes)
   cover 0 .. c-1 *)
Lemma round_seen : exists seen, NoDup seen /\ c' = Z.of_nat (length seen) /\
  (forall s, 0 <= s < N -> In (ref_key s) seen) /\
  incl (zseq c) (map (fun sg => nth 1 sg 0) seen).
Proof.
  rewrite refine_once_eq in Href. destruct (number_all_spec _ _ _ Href) as (_ & _ & _ & _ & seen & Hnd & Hset & Hc).
  assert (Hin : forall s, 0 <= s < N -> In (ref_key s) seen) by (intros s Hs; apply Hset, in_map, in_zseq, Hs).
  exists seen. split; [exact Hnd|]. split; [exact Hc|]. split; [exact Hin|].
  intros k Hk. apply in_zseq in Hk. destruct (Hsurj k Hk) as (s & Hs & <-).
  apply in_map_iff. exists (ref_key s). split; [reflexivity|now apply Hin].
Qed.

Theorem refine_once_count_mono : 0 <= c -> c <= c'.
Proof.
  intro Hc0. destruct round_seen as (seen & Hnd & -> & _ & Hincl).
  pose proof (NoDup_incl_length (NoDup_zseq c) Hincl) as H. rewrite zseq_length, map_length in H. lia.
Qed.

(* the exit test of [refine]: when the count did not grow, every old class carries exactly one signature *)
Theorem refine_once_stable : 0 <= c -> c' = c ->
  forall s s', 0 <= s < N -> 0 <= s' < N -> zn p s = zn p s' -> trans_sig p (row s) = trans_sig p (row s').
Proof.
  intros Hc0 Hcc s s' Hs Hs' E. destruct round_seen as (seen & Hnd & Hc' & Hin & Hincl).
  assert (Hnd' : NoDup (map (fun sg => nth 1 sg 0) seen)).
  { apply (NoDup_incl_NoDup (NoDup_zseq c)); [|exact Hincl]. rewrite zseq_length, map_length. lia. }
  pose proof (NoDup_map_inj _ _ Hnd' _ _ (Hin s Hs) (Hin s' Hs') E) as H. now injection H.
Qed.
End Round.

Section Loop.
Variable trans : list (list Z).
Let N := Z.of_nat (length trans).

Record numbering (p : list Z) (c : Z) : Prop := {
  nb_len : length p = length trans;
  nb_range : forall s, 0 <= s < N -> 0 <= zn p s < c;
  nb_surj : forall k, 0 <= k < c -> exists s, 0 <= s < N /\ zn p s = k;
  nb_count : 0 <= c <= N
}.

Definition stable (p : list Z) : Prop :=
  forall s s', 0 <= s < N -> 0 <= s' < N -> zn p s = zn p s' -> trans_sig p (row trans s) = trans_sig p (row trans s').

Definition refines (p q : list Z) : Prop :=
  forall s s', 0 <= s < N -> 0 <= s' < N -> zn p s = zn p s' -> zn q s = zn q s'.

Definition front_id (k : Z) (p : list Z) : Prop := forall i, 0 <= i < k -> zn p i = i.

Lemma numbers_numbering key p c : numbers key N p c -> numbering p c.
Proof. intros [L R _ S C _]. unfold zlength, N in L. constructor; [lia|exact R|exact S|exact C]. Qed.

Theorem refine_spec k pinit : k <= N -> forall fuel p c p' c', numbering p c -> refines p pinit -> front_id k p ->
  Z.of_nat fuel + c > N -> refine fuel trans p c = (p', c') ->
  numbering p' c' /\ refines p' pinit /\ front_id k p' /\ stable p'.
Proof.
  intros Hk. induction fuel as [|f IH]; intros p c p' c' Hnum Href Hfr Hfuel; cbn [refine].
  - exfalso. pose proof (nb_count _ _ Hnum). lia.
  - destruct (refine_once trans p) as [p1 c1] eqn:E1. pose proof Hnum as [L R S C]. symmetry in L.
    pose proof (refine_once_numbers trans p L p1 c1 E1) as Hnum1. pose proof (kn_front _ _ _ _ Hnum1) as F1.
    pose proof (refine_once_refines trans p L p1 c1 E1) as Href1.
    pose proof (refine_once_stable trans p L p1 c1 E1 c) as Hst.
    pose proof (refine_once_count_mono trans p L p1 c1 E1 c) as Hmono.
    rewrite <- L in *. fold N in Hnum1, F1, Href1, Hst, Hmono.
    destruct (Z.eqb_spec c1 c) as [Ec|Ec].
    + intros [= <- <-]. split; [exact Hnum|]. split; [exact Href|]. split; [exact Hfr|]. exact (Hst S (proj1 C) Ec).
    + apply IH.
      * exact (numbers_numbering _ _ _ Hnum1).
      * intros s s' Hs Hs' E. apply Href; [exact Hs|exact Hs'|]. now apply Href1.
      * unfold front_id. apply (F1 k Hk). intros i j Hi Hj E. apply ref_key_eq in E.
        rewrite !Hfr in E by assumption. apply E.
      * specialize (Hmono S). lia.
Qed.
End Loop.
