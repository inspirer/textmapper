(* C19: on tables certified by Validator.check the stack of the recovering loop always spells a path of the certified
   automaton (Validator_proofs.stk), also across recoverFromError.  Hence no missing goto, no pop below the bottom,
   reduceAll never below the stack; with RedTerm's bound the loop terminates. *)
From Coq Require Import List ZArith Bool Lia.
From TM Require Import Gram.Cfg Gram.PTables Gram.Run Gram.Validator Gram.LRLoop_proofs Gram.Validator_proofs Gram.Events
  Gram.XStep_proofs Gram.Recover Gram.Recover_proofs Gram.Recover_progress Gram.RedTerm Gram.RedTerm_proofs Gram.RedTermFuel_proofs
  Gram.RecoverSafe.
Import ListNotations.
Local Open Scope Z_scope.

Definition pr (e : xentry) : Z * Z := (x_sym e, x_state e).

Section S.
Variable g : grammar.
Variable p : rparams.
Variable nstates : Z.
Variable finals : list Z.
Variable nl : list Z.
Variable ft : first_table.
Variable ann : cert.
Variable eh : nat -> bool.
Variable i : nat.
Notation m := (rp_m p).
Notation eoi := (rp_eoi_off p).
Notation T := (vT g).
Notation NS := (vNS g).
Notation err := (rp_err_sym p).

Hypothesis Hnm : lalr1 p.
Hypothesis Hchk : check g m nstates finals nl ft ann = true.
Hypothesis Herr : check_err_goto m nstates T err = true.
Hypothesis Hi : (i < ninputs g)%nat.

Notation stk := (stk g m i).

Lemma S_lr0 : lr0_cert_ok g nstates ann (trans g m) m finals.
Proof. exact (check_lr0 g m nstates finals nl ft ann Hnm Hchk). Qed.

Lemma S_state st w : stk st w -> 0 <= snd (hd (0, -1) st) < nstates.
Proof. intros H. apply stk_path in H. exact (path_state g nstates ann _ i (ok_auto _ _ _ _ _ _ S_lr0) Hi _ _ H). Qed.

Lemma S_all st w : stk st w -> Forall (fun e => 0 <= snd e < nstates) st.
Proof. intros H. apply stk_path in H. exact (path_states g nstates ann _ i (ok_auto _ _ _ _ _ _ S_lr0) Hi _ _ H). Qed.

Lemma T_pos : 1 <= T /\ T <= NS.
Proof. destruct (ok_rules _ _ _ _ _ _ S_lr0) as (H1 & H2 & _). unfold vNS, vT in *. lia. Qed.

Lemma S_shift st w a q : stk st w -> 0 <= a < T -> m_act m (snd (hd (0, -1) st)) a [] = Shift q -> stk ((a, q) :: st) (w ++ [a]).
Proof. intros H Ha Hact. apply stk_path. apply stk_path in H. exact (path_shift g nstates ann _ m finals S_lr0 i Hi _ _ _ _ _ H Ha Hact). Qed.

Lemma S_reduce st w a r : stk st w -> 0 <= a < T -> m_act m (snd (hd (0, -1) st)) a [] = Reduce r ->
  let rest := skipn (Z.to_nat (m_rule_len m r)) st in
  let q := m_goto m (snd (hd (0, -1) rest)) (m_rule_sym m r) in
  (Z.to_nat (m_rule_len m r) < length st)%nat /\ 0 <= q /\ stk ((m_rule_sym m r, q) :: rest) w.
Proof.
  intros H Ha Hact. apply stk_path in H.
  destruct (path_reduce g nstates ann _ m finals S_lr0 i Hi _ _ _ _ _ H Ha Hact) as (Hl & Hq & Hs).
  split; [exact Hl|]. split; [exact Hq|]. apply stk_path. exact Hs.
Qed.

Lemma err_parts : 0 <= err < T /\
  forall s, 0 <= s < nstates -> m_goto m s err <> -1 -> m_act m s err [] = Shift (m_goto m s err).
Proof.
  unfold check_err_goto in Herr. rewrite !andb_true_iff in Herr. destruct Herr as [[H1 H2] H3].
  apply Z.leb_le in H1. apply Z.ltb_lt in H2. split; [lia|].
  intros s Hs Hne. rewrite forallb_forall in H3. specialize (H3 s (proj2 (in_zrange0 _ _) Hs)). cbv zeta in H3.
  apply orb_true_iff in H3. destruct H3 as [H3|H3]; [apply Z.eqb_eq in H3; contradiction|].
  destruct (m_act m s err []) as [q| | |]; simpl in H3; try discriminate. apply Z.eqb_eq in H3. congruence.
Qed.

Definition spath (stack : list xentry) : Prop := exists w, stk (map pr stack) w.
Definition tok_in (t : tok) : Prop := 0 <= t_sym t < T.

Definition xsinv (x : xconfig) : Prop :=
  xc_state x = x_state (hd xdummy (xc_stack x)) /\ spath (xc_stack x) /\ 0 <= t_sym (next_tok eoi (xc_input x)) < T.

Definition sinv (c : rconfig) : Prop :=
  xc_state (rc_x c) = x_state (hd xdummy (xc_stack (rc_x c))) /\ spath (xc_stack (rc_x c)) /\ Forall tok_in (xc_input (rc_x c)).

Lemma next_in input : Forall tok_in input -> 0 <= t_sym (next_tok eoi input) < T.
Proof. pose proof T_pos as HT. intros H. destruct input as [|t r]; simpl; [lia|]. inversion H; subst. assumption. Qed.

Lemma sinv_xsinv c : sinv c -> xsinv (rc_x c).
Proof. intros (H1 & H2 & H3). split; [exact H1|]. split; [exact H2|]. apply next_in. exact H3. Qed.

Lemma spath_ne stack : spath stack -> stack <> [].
Proof. intros (w & H) ->. inversion H. Qed.

Lemma spath_hd stack : spath stack -> snd (hd (0, -1) (map pr stack)) = x_state (hd xdummy stack).
Proof. intros H. apply spath_ne in H. destruct stack; [congruence|reflexivity]. Qed.

Lemma spath_top stack : spath stack -> 0 <= x_state (hd xdummy stack) < nstates.
Proof. intros H. rewrite <- spath_hd by exact H. destruct H as (w & H). eapply S_state; eauto. Qed.

Lemma spath_all stack : spath stack -> Forall (fun e => 0 <= x_state e < nstates) stack.
Proof.
  intros (w & H). apply S_all in H. rewrite Forall_forall in *. intros e He.
  apply (H (pr e)). apply in_map. exact He.
Qed.

Lemma spath_skipn k stack : spath stack -> (k < length stack)%nat -> spath (skipn k stack).
Proof.
  intros (w & H) Hk. rewrite <- (map_length pr) in Hk. apply stk_path in H.
  destruct (path_split g _ i k _ w H Hk) as (w1 & _ & _ & H1 & _).
  exists w1. rewrite <- skipn_map. apply stk_path. exact H1.
Qed.

Lemma spath_shift stack a q e : spath stack -> 0 <= a < T -> m_act m (x_state (hd xdummy stack)) a [] = Shift q ->
  x_sym e = a -> x_state e = q -> spath (e :: stack).
Proof.
  intros Hp Ha Hact Hs Hq. pose proof (spath_hd _ Hp) as Hh. destruct Hp as (w & H).
  exists (w ++ [a]). simpl. unfold pr at 1. rewrite Hs, Hq. apply S_shift; auto. rewrite Hh. exact Hact.
Qed.

Lemma spath_reduce stack a r : spath stack -> 0 <= a < T -> m_act m (x_state (hd xdummy stack)) a [] = Reduce r ->
  let ln := Z.to_nat (m_rule_len m r) in
  (ln < length stack)%nat /\
  exists b rest, skipn ln stack = b :: rest /\ 0 <= m_goto m (x_state b) (m_rule_sym m r) /\
    forall e, x_sym e = m_rule_sym m r -> x_state e = m_goto m (x_state b) (m_rule_sym m r) -> spath (e :: b :: rest).
Proof.
  intros Hp Ha Hact. pose proof (spath_hd _ Hp) as Hh. destruct Hp as (w & H).
  rewrite <- Hh in Hact. destruct (S_reduce _ _ _ _ H Ha Hact) as (Hl & Hg & Hs'). cbv zeta in *.
  rewrite map_length in Hl. split; [exact Hl|]. rewrite skipn_map in Hg, Hs'.
  destruct (skipn (Z.to_nat (m_rule_len m r)) stack) as [|b rest] eqn:E0.
  { apply (f_equal (@length _)) in E0. rewrite skipn_length in E0. simpl in E0. lia. }
  exists b, rest. split; [reflexivity|]. split; [exact Hg|].
  intros e He1 He2. exists w. simpl. unfold pr at 1. rewrite He1, He2. exact Hs'.
Qed.

Lemma spath_err st : spath st -> m_goto m (x_state (hd xdummy st)) err <> -1 ->
  forall e, x_sym e = err -> x_state e = m_goto m (x_state (hd xdummy st)) err -> spath (e :: st).
Proof.
  intros Hp Hne e He1 He2. destruct err_parts as (He & Hgo). eapply spath_shift; eauto.
  apply Hgo; [apply spath_top; exact Hp|exact Hne].
Qed.

Lemma reduce_all_safe f : forall stack stack2 state symbol x,
  vstack (xc_stack x) stack stack2 -> stack2 <> [] -> hd 0 stack2 = state -> xsinv x ->
  t_sym (next_tok eoi (xc_input x)) = symbol ->
  reduce_all f p stack stack2 state symbol = None -> reduces_for p f x = true.
Proof.
  induction f as [|f IH]; intros stack stack2 state symbol x Hv Hne Hhd Hx Hsym Hra; [reflexivity|].
  destruct Hx as (Hst & Hp & Ha). pose proof (spath_top _ Hp) as Htop.
  assert (Hstate : x_state (hd xdummy (xc_stack x)) = state).
  { destruct Hv as (new & -> & <-). rewrite <- Hhd. destruct new; [destruct Hne; reflexivity|reflexivity]. }
  revert Hra. destruct (reduce_all_cases p f stack stack2 state symbol (xc_stack x) Hv Hne Hhd)
    as [_|Hneg| |_ _|rule Hact Hlen|rule stack' stack2' st _ Hact Hlen Est Hv']; intros Hra; try discriminate; try lia;
    rewrite <- Hstate, <- Hsym in Hact; destruct (spath_reduce _ _ _ Hp Ha Hact) as (Hl & b & rest & Esk & Hg & Hnext); [lia|].
  assert (Est' : st = m_goto m (x_state b) (m_rule_sym m rule)) by (rewrite Est; unfold goto_after; rewrite Esk; reflexivity).
  rewrite <- Hst in Hact.
  destruct (plain_reduce_cases p Hnm x) as [rule0 e evs Hact0 _ _ Hs He Epr|Hstuck _];
    [rewrite Hact in Hact0; injection Hact0 as <-; rewrite <- Est in *|destruct (Hstuck rule Hact); [lia|lia]].
  cbn [reduces_for]. rewrite Epr. apply (IH stack' (st :: stack2') st symbol); auto.
  - apply Hv'. exact He.
  - discriminate.
  - split; [cbn; congruence|]. split; [cbn [reduced xc_stack]; rewrite Esk; apply Hnext; congruence|exact Ha].
Qed.

(* RCrash 2 of the model = reduceAll's model fuel (4 * (|stack| + 1) + 64) is exhausted by a sequence of that many genuine
   reductions of the loop from a certified configuration (the Go code has no such limit) *)
Definition model_fuel_exhausted : Prop :=
  exists x n, xsinv x /\ (length (xc_stack x) <= n)%nat /\ reduces_for p (n * 4 + 64) x = true.

Definition crash_ok (o : routcome) : Prop := forall why, o = RCrash why -> why = 2 /\ model_fuel_exhausted.

Lemma handle_error_safe c0 stack events : spath stack -> Forall tok_in (xc_input (rc_x c0)) ->
  match handle_error p eh c0 stack events with
  | RContinue c1 => sinv c1
  | RStop o _ => crash_ok o
  end.
Proof.
  intros Hp Htok. destruct (handle_error_spec p eh c0 stack events) as (Hsuf & _ & Hc).
  destruct (handle_error p eh c0 stack events) as [c1|o c1]; cbn [result_config] in *.
  - destruct Hc as (st & e0 & s' & Hin & Hs & Hsym & He0 & Hst & _).
    destruct (positions_suffix p _ _ Hin) as (k & Hk & -> & Hg).
    unfold sinv. rewrite Hs, Hst. cbn [hd]. split; [symmetry; exact He0|]. split; [|eapply is_suffix_Forall; eauto].
    eapply spath_err; eauto. apply spath_skipn; assumption.
  - intros why ->. destruct Hc as (-> & st & inp' & Hin & Hsuf' & Hra). split; [reflexivity|].
    destruct (positions_suffix p _ _ Hin) as (k & Hk & Est & Hg).
    set (st0 := err_goto p st) in *.
    set (x1 := mkXC (mkX err 0 0 st0 (TLeaf 0 0 0) :: st) st0 inp' []).
    assert (Hx1 : xsinv x1).
    { split; [reflexivity|]. split.
      - apply (spath_err st); [rewrite Est; apply spath_skipn; assumption|exact Hg|reflexivity|reflexivity].
      - apply next_in. eapply is_suffix_Forall; eauto. }
    exists x1, (S (length stack)). split; [exact Hx1|]. split; [simpl; rewrite Est, skipn_length; lia|].
    apply (reduce_all_safe _ st [st0] st0 (t_sym (next_tok eoi inp')) x1); auto; [exists [hd xdummy (xc_stack x1)]; split; reflexivity|discriminate].
Qed.

Lemma rstep_safe c : sinv c ->
  match rstep p eh c with
  | RContinue c1 => sinv c1
  | RStop o _ => crash_ok o
  end.
Proof.
  intros Hinv. pose proof (sinv_xsinv c Hinv) as (_ & _ & Ha). destruct Hinv as (Hst & Hp & Htok).
  destruct c as [x r errs l]. cbn [rc_x] in *.
  destruct (rstep_cases1 p eh Hnm x r errs l) as (a & res & xr & Ea & Er & _ & V). rewrite Er. rewrite Hst in Ea.
  destruct V as [q e He Hq|rule e evs _ _ He Hq|rule Hl|rule e evs c0 o _ Hg _ _ _ _|a o _ _ _].
  - unfold sinv. cbn [rc_x shifted reduced xc_stack xc_state xc_input hd]. split; [symmetry; exact Hq|]. split.
    + eapply spath_shift; eauto.
    + eapply is_suffix_Forall; [apply after_shift_suffix|exact Htok].
  - destruct (spath_reduce _ _ _ Hp Ha Ea) as (_ & b & rest & Esk & _ & Hnext).
    unfold sinv. cbn [rc_x shifted reduced xc_stack xc_state xc_input hd]. split; [symmetry; exact Hq|]. split; [|exact Htok].
    rewrite Esk. apply Hnext; [exact He|]. rewrite Hq. unfold goto_after. rewrite Esk. reflexivity.
  - destruct (spath_reduce _ _ _ Hp Ha Ea) as (Hlen & _). lia.
  - destruct (spath_reduce _ _ _ Hp Ha Ea) as (_ & b & rest & Esk & Hge & _). unfold goto_after in Hg. rewrite Esk in Hg. lia.
  - apply handle_error_safe; assumption.
Qed.

Lemma rstep_sinv c c' : sinv c -> rstep p eh c = RContinue c' -> sinv c'.
Proof. intros H E. pose proof (rstep_safe c H) as Hs. rewrite E in Hs. exact Hs. Qed.

Lemma rrun_loop_safe f c o c' : sinv c -> rrun_loop f p eh c = (o, c') -> crash_ok o.
Proof. apply (rrun_loop_ind p eh sinv (fun o _ => crash_ok o)); [discriminate|discriminate|exact rstep_safe]. Qed.

(* the missing-goto branch of the loop (push the state -1, call recoverFromError, which then evaluates
   gotoState(-1, errSymbol)) is dead on certified configurations, and a reduction never pops the bottom entry *)
Lemma reduce_goto_present c rule : sinv c ->
  m_act m (xc_state (rc_x c)) (t_sym (next_tok eoi (xc_input (rc_x c)))) [] = Reduce rule ->
  (Z.to_nat (m_rule_len m rule) < length (xc_stack (rc_x c)))%nat /\
  exists b rest, skipn (Z.to_nat (m_rule_len m rule)) (xc_stack (rc_x c)) = b :: rest /\
    0 <= m_goto m (x_state b) (m_rule_sym m rule) < nstates.
Proof.
  intros Hinv Eact. pose proof (sinv_xsinv c Hinv) as (_ & _ & Ha). destruct Hinv as (Hst & Hp & Htok).
  rewrite Hst in Eact. destruct (spath_reduce _ _ _ Hp Ha Eact) as (Hlen & b & rest & Esk & Hg & Hnext).
  split; [exact Hlen|]. exists b, rest. split; [exact Esk|].
  specialize (Hnext (mkX (m_rule_sym m rule) 0 0 (m_goto m (x_state b) (m_rule_sym m rule)) (TLeaf 0 0 0)) eq_refl eq_refl).
  apply spath_top in Hnext. exact Hnext.
Qed.

Lemma sinv_init input : Forall tok_in input ->
  sinv (mkRC (mkXC [mkX 0 0 0 (Z.of_nat i) (TLeaf 0 0 0)] (Z.of_nat i) input []) 0 [] (0, 0)).
Proof.
  intros Ht. split; [reflexivity|]. split; [|exact Ht]. exists []. simpl. unfold pr. simpl. constructor.
Qed.

Section B.
Variable F : nat.
Hypothesis Hrg : check_range m nstates T NS = true.
Hypothesis Hrt : check_redterm m nstates T NS F = true.

Lemma xsinv_xinv x : xsinv x -> xinv p nstates T x.
Proof.
  intros (H1 & H2 & H3). split; [apply spath_ne; exact H2|]. split; [apply spath_all; exact H2|]. split; [exact H1|exact H3].
Qed.

Lemma xsinv_bound x : xsinv x -> reduces_for p (S (S (length (xc_stack x)) * F + 1)) x = false.
Proof. intros H. apply (redterm_bound p nstates T NS F Hnm Hrt Hrg). apply xsinv_xinv. exact H. Qed.

Lemma no_model_fuel_exhausted : (F <= 4)%nat -> ~ model_fuel_exhausted.
Proof.
  intros HF (x & n & Hx & Hlen & Hred).
  pose proof (reduces_for_lt p _ _ _ Hred (xsinv_bound x Hx)) as Hlt.
  assert (S (length (xc_stack x)) * F <= S n * 4)%nat by (apply Nat.mul_le_mono; lia). lia.
Qed.

Theorem rrun_loop_never_crashes : (F <= 4)%nat -> forall f c o c' why, sinv c -> rrun_loop f p eh c = (o, c') -> o <> RCrash why.
Proof.
  intros HF f c o c' why Hinv Hrun E. destruct (rrun_loop_safe f c o c' Hinv Hrun why E) as (_ & H).
  exact (no_model_fuel_exhausted HF H).
Qed.

End B.

End S.

Definition toks_in (g : grammar) (input : list tok) : Prop := Forall (fun t => 0 <= t_sym t < vT g) input.

Lemma if_negb_zero (b : bool) (n z : Z) : n <> 0 -> (if negb b then n else z) = 0 -> b = true /\ z = 0.
Proof. destruct b; simpl; [auto|contradiction]. Qed.

Lemma check_report_zero g m nstates finals nl ft ann :
  check_report g m nstates finals nl ft ann = 0 -> check g m nstates finals nl ft ann = true.
Proof.
  unfold check_report, check. intros H.
  repeat (apply if_negb_zero in H; [destruct H as [-> H]|discriminate]). reflexivity.
Qed.
