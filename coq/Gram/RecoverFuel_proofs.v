(* C19: explicit fuel for the whole recovering parse from the table validators:
   parse_fuel F h n = F*h + F^2 + 2F + 1 + (n + 1) * (2 F^2 + 8 F + 4) + 3 iterations suffice from a stack of height h with n
   input tokens left -- linear in the input, no hypothesis on reduction sequences. *)
From Coq Require Import List ZArith Lia.
From TM Require Import Gram.Run Gram.Validator Gram.Validator_proofs Gram.Events Gram.Recover
  Gram.Recover_progress Gram.RedTerm Gram.RedTerm_proofs Gram.RedTermRec_proofs Gram.RedTermFuel_proofs
  Gram.RecoverSafe Gram.RecoverSafe_proofs.
Import ListNotations.
Local Open Scope Z_scope.

Definition parse_fuel (F h n : nat) : nat := (F * h + F * F + 2 * F + 1 + S n * (2 * F * F + 8 * F + 4) + 3)%nat.

Section C.
Variable p : rparams.
Variable eh : nat -> bool.
Variables nstates T NS : Z.
Variable F : nat.
Hypothesis Hnm : lalr1 p.
Hypothesis Hso : shift_ok_sound p.
Hypothesis Hend : 0 <= rp_end p.
Hypothesis Hrt : check_redterm (rp_m p) nstates T NS F = true.
Hypothesis Hrg : check_range (rp_m p) nstates T NS = true.
Hypothesis Heoi : check_eoi (rp_m p) nstates (rp_end p) = true.
Variable Inv : rconfig -> Prop.
Hypothesis Hstep : forall c c', Inv c -> rstep p eh c = RContinue c' -> Inv c'.
Hypothesis HinvX : forall c, Inv c -> xinv p nstates T (rc_x c).

Theorem rrun_fuel_closed c : Inv c ->
  fst (rrun_loop (parse_fuel F (length (xc_stack (rc_x c))) (length (xc_input (rc_x c)))) p eh c) <> RFuel.
Proof.
  intros Hinv.
  destruct (rrun_fuel_weighted p eh Hnm Hso Hend Inv Hstep) with (F := F) (K := (F * F + 2 * F + 1)%nat)
    (n := length (xc_input (rc_x c))) (c := c) as (f & Hfb & Hf); auto.
  - intros c0 q H0 Hq. pose proof (xinv_top p nstates T _ (HinvX c0 H0)) as Hs.
    unfold check_eoi in Heoi. rewrite forallb_forall in Heoi.
    specialize (Heoi _ (proj2 (in_zrange0 _ _) Hs)). rewrite Hq in Heoi. apply Z.eqb_eq. exact Heoi.
  - intros c0 H0 j c' Hj Hr.
    pose proof (redterm_amortized p nstates T NS F Hnm Hrt Hrg _ (HinvX c0 H0) _ _ (rsteps_reduce_n p eh _ _ _ Hj Hr)). lia.
  - apply (halts_le p eh f); [|exact Hf]. unfold fuel_w in Hfb. unfold parse_fuel. lia.
Qed.
End C.

Theorem rrun_fuel_validated p eh nstates T NS F :
  lalr1 p -> shift_ok_sound p -> 0 <= rp_end p ->
  check_range (rp_m p) nstates T NS = true -> check_redterm (rp_m p) nstates T NS F = true ->
  check_eoi (rp_m p) nstates (rp_end p) = true ->
  0 <= rp_err_sym p < NS -> m_goto (rp_m p) (-1) (rp_err_sym p) = -1 ->
  (forall c, rinv nstates T c ->
     fst (rrun_loop (parse_fuel F (length (xc_stack (rc_x c))) (length (xc_input (rc_x c)))) p eh c) <> RFuel) /\
  (forall start input, 0 <= start < nstates -> Forall (fun t => 0 <= t_sym t < T) input ->
     fst (rrun (parse_fuel F 1 (length input)) p eh start input) <> RFuel).
Proof.
  intros Hnm Hso Hend Hrg Hrt Heoi Herr Hm1.
  pose proof (rrun_fuel_closed p eh nstates T NS F Hnm Hso Hend Hrt Hrg Heoi (rinv nstates T)
                (rstep_rinv p eh nstates T NS Hnm Hrg Herr Hm1) (rinv_xinv p nstates T NS Hrg)) as H.
  split; [exact H|]. intros start input Hs Ht. apply (H (mkRC (mkXC [_] start input []) 0 [] (0, 0))). apply rinv_init; assumption.
Qed.

Theorem rrun_fuel_certified g p nstates finals nl ft ann eh F i :
  lalr1 p -> shift_ok_sound p -> 0 <= rp_end p ->
  check g (rp_m p) nstates finals nl ft ann = true ->
  check_err_goto (rp_m p) nstates (vT g) (rp_err_sym p) = true ->
  check_range (rp_m p) nstates (vT g) (vNS g) = true -> check_redterm (rp_m p) nstates (vT g) (vNS g) F = true ->
  check_eoi (rp_m p) nstates (rp_end p) = true -> (i < ninputs g)%nat ->
  (forall c, sinv g p i c ->
     fst (rrun_loop (parse_fuel F (length (xc_stack (rc_x c))) (length (xc_input (rc_x c)))) p eh c) <> RFuel) /\
  (forall input, toks_in g input -> fst (rrun (parse_fuel F 1 (length input)) p eh (Z.of_nat i) input) <> RFuel).
Proof.
  intros Hnm Hso Hend Hchk Herr Hrg Hrt Heoi Hi.
  assert (H : forall c, sinv g p i c ->
     fst (rrun_loop (parse_fuel F (length (xc_stack (rc_x c))) (length (xc_input (rc_x c)))) p eh c) <> RFuel).
  { apply (rrun_fuel_closed p eh nstates (vT g) (vNS g) F Hnm Hso Hend Hrt Hrg Heoi (sinv g p i)).
    - intros c c' H1 H2. eapply rstep_sinv; eauto.
    - intros c H1. eapply xsinv_xinv; eauto. eapply sinv_xsinv; eauto. }
  split; [exact H|]. intros input Ht. apply (H (mkRC (mkXC [_] (Z.of_nat i) input []) 0 [] (0, 0))). apply sinv_init. exact Ht.
Qed.
