(* C29: a cancelled parse returns the context error or exactly what the uncancelled parse returns, having
   emitted a prefix of its events; once the context is done the loop stops before the next poll.
   Second half, with runtime lookaheads (model Gram/CancelLA.v): the same two statements when lookahead sub-parses share
   the counter with the main loop; both come from one traversal of the lookahead machinery (ran). *)
From Coq Require Import List ZArith Bool Lia.
From TM Require Import Gram.PTables Gram.Run Gram.Validator Gram.Events Gram.XStep_proofs Gram.Cancel Gram.CancelLA.
Import ListNotations.
Local Open Scope Z_scope.

Section C.
Variable m : machine.
Variable evt : ev_table.
Variable fixws : bool.
Variable eoi_off end_state : Z.
Variable attempts : Z -> Z -> bool.

Notation xs := (xstep m evt fixws eoi_off).
Notation xloop := (fun f => xrun_loop f m evt fixws eoi_off end_state).
Notation cloop := (fun f rho => crun_loop f m evt fixws eoi_off end_state attempts rho).

Lemma xloop_events f : forall c o c', xloop f c = (o, c') -> exists evs, xc_events c' = xc_events c ++ evs.
Proof.
  induction f as [|f IH]; intros c o c'; simpl.
  - intros E. injection E as _ <-. exists []. rewrite app_nil_r. reflexivity.
  - destruct (xc_state c =? end_state); [intros E; injection E as _ <-; exists []; rewrite app_nil_r; reflexivity|].
    destruct (xs c) as [c1|o1] eqn:Es.
    + intros E. destruct (IH _ _ _ E) as (e2 & H2). destruct (xstep_events _ _ _ _ _ _ Es) as (e1 & H1).
      exists (e1 ++ e2). rewrite H2, H1, app_assoc. reflexivity.
    + intros E. injection E as _ <-. exists []. rewrite app_nil_r. reflexivity.
Qed.

(* Either the cancellable loop returns the context error at a configuration the uncancelled loop passes
   through (so the events emitted so far are a prefix of the uncancelled events, and the uncancelled run
   continues from there), or it returns exactly the outcome, stack and events of the uncancelled loop. *)
Theorem cancel_or_same f : forall rho c o c', cloop f rho c = (o, c') ->
  (o = CtxErr /\ exists k, (k <= f)%nat /\ xloop f (cc_x c) = xloop (f - k)%nat (cc_x c')) \/
  (exists o', o = Plain o' /\ xloop f (cc_x c) = (o', cc_x c')).
Proof.
  induction f as [|f IH]; intros rho c o c'; simpl.
  - intros E. injection E as <- <-. right. exists OutOfFuel. split; reflexivity.
  - destruct (xc_state (cc_x c) =? end_state) eqn:Eend.
    + intros E. injection E as <- <-. right. exists Accept. split; reflexivity.
    + unfold cstep.
      destruct (attempts (xc_state (cc_x c)) (t_sym (next_tok eoi_off (xc_input (cc_x c)))) &&
                polls _ && rho _) eqn:Ecancel.
      * intros E. injection E as <- <-. left. split; [reflexivity|]. exists O. split; [lia|].
        change (S f - 0)%nat with (S f). simpl. rewrite Eend. reflexivity.
      * destruct (xs (cc_x c)) as [x1|o1] eqn:Es.
        -- intros E. destruct (IH _ _ _ _ E) as [[-> (k & Hk & Hrun)]|(o' & -> & Hrun)].
           ++ left. split; [reflexivity|]. exists (S k). split; [lia|]. simpl in Hrun. simpl. exact Hrun.
           ++ right. exists o'. split; [reflexivity|exact Hrun].
        -- intros E. injection E as <- <-. right. exists o1. split; reflexivity.
Qed.

Corollary cancel_events_prefix f rho c c' o_plain x_plain :
  cloop f rho c = (CtxErr, c') -> xloop f (cc_x c) = (o_plain, x_plain) ->
  exists evs, xc_events x_plain = xc_events (cc_x c') ++ evs.
Proof.
  intros Hc Hx. cbv beta in *. destruct (cancel_or_same _ _ _ _ _ Hc) as [[_ (k & Hk & Hrun)]|(o' & E & _)]; [|discriminate].
  cbv beta in Hrun. rewrite Hrun in Hx. eapply xloop_events. exact Hx.
Qed.

Hypothesis Hatt : forall s a more q, m_act m s a more = Shift q -> attempts s a = true.

Lemma next_poll_spec s : 1 <= s -> s <= next_poll s < s + 512 /\ polls (next_poll s) = true /\ 512 <= next_poll s.
Proof.
  intros Hs. unfold next_poll, polls.
  pose proof (Z.div_mod (s + 511) 512 ltac:(lia)) as Hd. pose proof (Z.mod_pos_bound (s + 511) 512 ltac:(lia)) as Hm.
  assert (H1 : 1 <= (s + 511) / 512) by (apply Z.div_le_lower_bound; lia).
  repeat split; try lia.
  apply Z.eqb_eq. rewrite Z.mul_comm. apply Z.mod_mul. lia.
Qed.

(* one shift attempt with the context done at the polled value P: the counter does not pass P, and reaches it only
   if the poll then stops the loop *)
Lemma poll_step rho P (att : bool) n : polls P = true -> rho P = true -> n < P ->
  let n1 := if att then n + 1 else n in n <= n1 <= P /\ (att && polls n1 && rho n1 = false -> n1 < P).
Proof.
  intros HpP HrP Hn. destruct att; cbn [andb]; [|lia]. split; [lia|]. intros Hf.
  assert (n + 1 <> P) by (intros E; rewrite E, HpP, HrP in Hf; discriminate). lia.
Qed.

Lemma cstep_counter rho s c c' : 1 <= s -> (forall n, s <= n -> rho n = true) ->
  cc_counter c < next_poll s -> cstep m evt fixws eoi_off attempts rho c = CContinue c' ->
  cc_counter c' < next_poll s /\ cc_counter c <= cc_counter c' /\
  Z.of_nat (length (xc_input (cc_x c))) - Z.of_nat (length (xc_input (cc_x c'))) <= cc_counter c' - cc_counter c.
Proof.
  intros Hs Hrho Hlt. destruct (next_poll_spec s Hs) as ((Hge & _) & Hpoll & _). unfold cstep.
  destruct (poll_step rho _ (attempts (xc_state (cc_x c)) (t_sym (next_tok eoi_off (xc_input (cc_x c))))) _ Hpoll (Hrho _ Hge) Hlt)
    as [Hn Hlt'].
  destruct (_ && polls _ && rho _); [discriminate|]. specialize (Hlt' eq_refl).
  destruct (xs (cc_x c)) as [x1|o1] eqn:Es; [|discriminate]. intros E. injection E as <-. cbn [cc_counter cc_x].
  split; [exact Hlt'|]. split; [lia|].
  destruct (xstep_consumes _ _ _ _ _ _ Es) as [->|[Hlen (q & Hq)]]; [lia|]. rewrite (Hatt _ _ _ _ Hq). lia.
Qed.

(* Once the context is done from counter value s on, the loop stops before the counter passes the next polled
   value (< s + 512), and it has consumed at most that many tokens. *)
Theorem cancel_bounded f : forall rho s c o c', 1 <= s -> (forall n, s <= n -> rho n = true) ->
  cc_counter c < next_poll s -> cloop f rho c = (o, c') ->
  cc_counter c' < next_poll s /\
  Z.of_nat (length (xc_input (cc_x c))) - Z.of_nat (length (xc_input (cc_x c'))) <= cc_counter c' - cc_counter c.
Proof.
  induction f as [|f IH]; intros rho s c o c' Hs Hrho Hlt; simpl.
  - intros E. injection E as _ <-. split; lia.
  - destruct (xc_state (cc_x c) =? end_state); [intros E; injection E as _ <-; split; lia|].
    destruct (cstep m evt fixws eoi_off attempts rho c) as [c1|o1] eqn:Es.
    + destruct (cstep_counter _ _ _ _ Hs Hrho Hlt Es) as (H1 & H2 & H3).
      intros E. destruct (IH _ _ _ _ _ Hs Hrho H1 E) as (H4 & H5). split; lia.
    + intros E. injection E as _ <-. split; lia.
Qed.

End C.

Lemma lalr1_attempts t rl rs s a more q :
  m_act (Validator.lalr1_machine t rl rs) s a more = Shift q -> attempts_default t s a = true.
Proof.
  simpl. unfold action_default, attempts_default.
  set (a0 := zn (d_action t) s). set (a1 := if a0 <? -2 then lalr_lookup t a0 a else a0).
  destruct (a1 >=? 0); [discriminate|]. destruct (a1 =? -1) eqn:E; [reflexivity|].
  destruct (a1 =? -2); discriminate.
Qed.

Lemma opt_attempts o terms rl rs s a more q :
  m_act (opt_machine o terms rl rs) s a more = Shift q -> attempts_opt o s a = true.
Proof. simpl. unfold attempts_opt. intros ->. reflexivity. Qed.

Definition is_ctx (o : coutcome) : bool := match o with CtxErr => true | Plain _ => false end.
Definition l_cancelled (r : lres) : bool := match r with LAbort o => is_ctx o | LBool _ => false end.
Definition c_cancelled (r : cres) : bool := match r with CAbort o => is_ctx o | CSym _ => false end.

Lemma and_never b n : b && never n = false.
Proof. unfold never. apply andb_false_r. Qed.

Section LA.
Variable m : machine.
Variable lt : la_tables.
Variable attempts : Z -> Z -> bool.
Variable eoi_off : Z.
Variable rho : Z -> bool.

Definition grows (s s' : lstate) : Prop :=
  ls_counter s <= ls_counter s' /\
  ls_counter s' - ls_counter s = Z.of_nat (length (ls_ticks s')) - Z.of_nat (length (ls_ticks s)).

Definition lbound (s s' : lstate) (cancelled : bool) : Prop :=
  grows s s' /\ forall P, polls P = true -> rho P = true -> ls_counter s < P ->
    ls_counter s' <= P /\ (cancelled = false -> ls_counter s' < P).

Lemma lbound_refl s : lbound s s false.
Proof. unfold lbound, grows. split; [lia|]. intros P _ _ H. lia. Qed.

Lemma lbound_trans s s1 s2 b : lbound s s1 false -> lbound s1 s2 b -> lbound s s2 b.
Proof.
  unfold lbound, grows. intros (H1 & H2) (H3 & H4). split; [lia|]. intros P HpP HrP Hs.
  destruct (H2 P HpP HrP Hs) as [_ H5]. exact (H4 P HpP HrP (H5 eq_refl)).
Qed.

Lemma tick_bound (att : bool) depth s :
  let s1 := if att then tick depth s else s in
  lbound s s1 (att && polls (ls_counter s1) && rho (ls_counter s1)).
Proof.
  cbv zeta. split; [destruct att; unfold grows, tick; cbn [ls_counter ls_ticks length]; lia|].
  intros P HpP HrP Hs. destruct (poll_step rho P att (ls_counter s) HpP HrP Hs) as [[_ H1] H2]. destruct att; split; assumption.
Qed.

(* A computation over the session that returned rs, next to what its uncancelled twin returns (rs0): it was
   cancelled (returned ctx) or the twin returns the same; and the session stayed within bounds. *)
Definition ran {R} (cancelled : R -> bool) (ctx : R) (s : lstate) (rs rs0 : R * lstate) : Prop :=
  (fst rs = ctx \/ rs0 = rs) /\ lbound s (snd rs) (cancelled (fst rs)).

Lemma ran_same {R} (cancelled : R -> bool) ctx s r s' : lbound s s' (cancelled r) -> ran cancelled ctx s (r, s') (r, s').
Proof. intros H. split; [right; reflexivity|exact H]. Qed.

Lemma ran_ctx {R} (cancelled : R -> bool) ctx s s' rs0 : lbound s s' (cancelled ctx) -> ran cancelled ctx s (ctx, s') rs0.
Proof. intros H. split; [left; reflexivity|exact H]. Qed.

Lemma ran_after {R} (cancelled : R -> bool) ctx s s1 rs rs0 :
  lbound s s1 false -> ran cancelled ctx s1 rs rs0 -> ran cancelled ctx s rs rs0.
Proof. intros H [H1 H2]. split; [exact H1|eapply lbound_trans; eauto]. Qed.

Notation lran := (ran l_cancelled (LAbort CtxErr)).
Notation cran := (ran c_cancelled (CAbort CtxErr)).

Definition lk_ran (lk lk0 : Z -> Z -> lstate -> lres * lstate) := forall a b s, lran s (lk a b s) (lk0 a b s).

Lemma eval_cases_ran lk lk0 final default : lk_ran lk lk0 ->
  forall cases s, cran s (eval_cases lk final cases default s) (eval_cases lk0 final cases default s).
Proof.
  intros H. induction cases as [|c rest IH]; intros s; cbn [eval_cases]; [apply ran_same, lbound_refl|].
  destruct (H (lc_input c) (final (lc_input c)) s) as [[E|E] Hb]; destruct (lk _ _ s) as [r1 s1]; cbn [fst snd] in *.
  - subst r1. apply ran_ctx. exact Hb.
  - rewrite E. destruct r1 as [b|o]; [|apply ran_same; exact Hb].
    destruct (xorb b (lc_negated c)); [apply ran_same; exact Hb|]. eapply ran_after; [exact Hb|apply IH].
Qed.

Lemma look_memo_ran rc key final run run0 : (forall s, lran s (run s) (run0 s)) ->
  forall s, lran s (look_memo rc key final run s) (look_memo rc key final run0 s).
Proof.
  intros H s. unfold look_memo. destruct rc; [|apply H].
  destruct (cache_find key final (ls_cache s)); [apply ran_same, lbound_refl|].
  destruct (H s) as [[E|E] Hb]; destruct (run s) as [r1 s1]; cbn [fst snd] in *.
  - subst r1. apply ran_ctx. exact Hb.
  - rewrite E. destruct r1; apply ran_same; exact Hb.
Qed.

Notation ll := (look_loop m lt attempts eoi_off rho).
Notation ll0 := (look_loop m lt attempts eoi_off never).

Lemma look_loop_ran f : forall depth en stack state input s,
  lran s (ll f depth en stack state input s) (ll0 f depth en stack state input s).
Proof.
  induction f as [|f IH]; intros depth en stack state input s; cbn [look_loop]; [apply ran_same, lbound_refl|].
  destruct (state =? en); [apply ran_same, lbound_refl|].
  set (nx := next_tok eoi_off input). set (att := attempts state (t_sym nx)).
  pose proof (tick_bound att depth s) as Ht. cbv zeta in Ht. set (s1 := if att then tick depth s else s) in *.
  rewrite and_never. destruct (att && polls (ls_counter s1) && rho (ls_counter s1)); [apply ran_ctx; exact Ht|].
  destruct (m_act m state (t_sym nx) _) as [st|rule| |row]; try (apply ran_same; exact Ht).
  { eapply ran_after; [exact Ht|apply IH]. }
  destruct (length stack <=? Z.to_nat (m_rule_len m rule))%nat; [apply ran_same; exact Ht|].
  set (rest := skipn _ stack). set (below := hd (-1) rest).
  assert (Hgo : forall sym s2, lbound s s2 false ->
    lran s (if m_goto m below sym =? -1 then (LBool false, s2) else ll f depth en (m_goto m below sym :: rest) (m_goto m below sym) input s2)
           (if m_goto m below sym =? -1 then (LBool false, s2) else ll0 f depth en (m_goto m below sym :: rest) (m_goto m below sym) input s2)).
  { intros sym s2 H2. destruct (_ =? -1); [apply ran_same; exact H2|eapply ran_after; [exact H2|apply IH]]. }
  destruct (if lt_recursive lt then lt_rule lt rule else None) as [lr|]; [|apply Hgo; exact Ht].
  set (LK := fun start en0 s'0 => look_memo true (t_off nx) en0 (fun s'' => ll f (depth + 1) en0 [start] start input s'') s'0).
  set (LK0 := fun start en0 s'0 => look_memo true (t_off nx) en0 (fun s'' => ll0 f (depth + 1) en0 [start] start input s'') s'0).
  assert (HLK : lk_ran LK LK0) by (intros a b s0; apply look_memo_ran; intros s2; apply IH).
  destruct (eval_cases_ran LK LK0 (lt_final lt) (lr_default lr) HLK (lr_cases lr) s1) as [[E|E] Hb];
    destruct (eval_cases LK _ _ _ s1) as [r1 s2]; cbn [fst snd] in *.
  - subst r1. apply ran_ctx. eapply lbound_trans; eauto.
  - rewrite E. destruct r1 as [sym|o]; [apply Hgo|apply ran_same]; eapply lbound_trans; eauto.
Qed.

Lemma look_top_ran lfuel input : lk_ran (look_top m lt attempts eoi_off rho lfuel input)
                                        (look_top m lt attempts eoi_off never lfuel input).
Proof. intros a b s. unfold look_top. apply look_memo_ran. intros s2. apply look_loop_ran. Qed.

Variable lfuel : nat.
Variable evt : ev_table.
Variable fixws : bool.
Variable end_state : Z.

Notation lst := (lstep m lt attempts eoi_off rho lfuel evt fixws).
Notation lst0 := (lstep m lt attempts eoi_off never lfuel evt fixws).
Notation lrl := (fun f => lrun_loop m lt attempts eoi_off rho f lfuel evt fixws end_state).
Notation lrl0 := (fun f => lrun_loop m lt attempts eoi_off never f lfuel evt fixws end_state).

Definition step_ran (s : lstate) (r r0 : lstep_result) : Prop :=
  match r with
  | LContinue c' => r0 = r /\ lbound s (lc_s c') false
  | LStop o s' => (o = CtxErr \/ r0 = r) /\ lbound s s' (is_ctx o)
  end.

Lemma lstep_ran c : step_ran (lc_s c) (lst c) (lst0 c).
Proof.
  unfold lstep.
  set (x := lc_x c). set (nx := next_tok eoi_off (xc_input x)). set (att := attempts (xc_state x) (t_sym nx)).
  pose proof (tick_bound att 0 (lc_s c)) as Ht. cbv zeta in Ht. set (s1 := if att then tick 0 (lc_s c) else lc_s c) in *.
  rewrite and_never. destruct (att && polls (ls_counter s1) && rho (ls_counter s1)); [split; [left; reflexivity|exact Ht]|].
  assert (Hplain : forall m' s2, lbound (lc_s c) s2 false ->
            let r := match xstep m' evt fixws eoi_off x with
                     | XContinue x' => LContinue (mkLC s2 x')
                     | XStop o => LStop (Plain o) s2
                     end in step_ran (lc_s c) r r).
  { intros m' s2 H2. cbv zeta. destruct (xstep m' evt fixws eoi_off x); (split; [auto|exact H2]). }
  destruct (m_act m (xc_state x) (t_sym nx) _) as [st|rule| |row]; try (apply Hplain; exact Ht).
  destruct (lt_rule lt rule) as [lr|]; [|apply Hplain; exact Ht].
  destruct (eval_cases_ran _ _ (lt_final lt) (lr_default lr) (look_top_ran lfuel (xc_input x)) (lr_cases lr) s1) as [[E|E] Hb];
    destruct (eval_cases (look_top m lt attempts eoi_off rho lfuel (xc_input x)) _ _ _ s1) as [r1 s2]; cbn [fst snd] in *.
  - subst r1. split; [left; reflexivity|eapply lbound_trans; eauto].
  - rewrite E. destruct r1 as [sym|o]; [apply Hplain|split; [right; reflexivity|]]; eapply lbound_trans; eauto.
Qed.

(* cancel-or-same and the bound on the session, for the whole loop *)
Theorem la_run f : forall c o c' s', lrl f c = (o, c', s') ->
  ((o = CtxErr /\ exists k, (k <= f)%nat /\ lrl0 f c = lrl0 (f - k)%nat c') \/ lrl0 f c = (o, c', s')) /\
  lbound (lc_s c) s' (is_ctx o).
Proof.
  induction f as [|f IH]; intros c o c' s'; cbn [lrun_loop].
  - intros E. injection E as <- <- <-. split; [right; reflexivity|apply lbound_refl].
  - destruct (xc_state (lc_x c) =? end_state) eqn:Eend; [intros E; injection E as <- <- <-; split; [right; reflexivity|apply lbound_refl]|].
    pose proof (lstep_ran c) as Hs. destruct (lst c) as [c1|o1 s1]; destruct Hs as [E0 Hb].
    + rewrite E0. intros E. destruct (IH _ _ _ _ E) as [[(-> & k & Hk & Hrun)|Hrun] Hb2]; (split; [|eapply lbound_trans; eauto]).
      * left. split; [reflexivity|]. exists (S k). split; [lia|exact Hrun].
      * right. exact Hrun.
    + intros E. injection E as <- <- <-. split; [|exact Hb]. destruct E0 as [-> | ->]; [left|right; reflexivity].
      split; [reflexivity|]. exists O. split; [lia|]. change (S f - 0)%nat with (S f). cbn [lrun_loop]. rewrite Eend. reflexivity.
Qed.

Lemma lstep_events c c' : lst c = LContinue c' -> exists evs, xc_events (lc_x c') = xc_events (lc_x c) ++ evs.
Proof.
  unfold lstep. destruct (_ && _ && _); [discriminate|].
  assert (Hplain : forall m' s2, match xstep m' evt fixws eoi_off (lc_x c) with
                                 | XContinue x' => LContinue (mkLC s2 x')
                                 | XStop o => LStop (Plain o) s2
                                 end = LContinue c' -> exists evs, xc_events (lc_x c') = xc_events (lc_x c) ++ evs).
  { intros m' s2. destruct (xstep m' evt fixws eoi_off (lc_x c)) as [x'|o] eqn:Ex; [|discriminate].
    intros E. injection E as <-. cbn [lc_x]. eapply xstep_events. exact Ex. }
  destruct (m_act m _ _ _) as [st|rule| |row]; try apply Hplain.
  destruct (lt_rule lt rule) as [lr|]; [|apply Hplain].
  destruct (eval_cases _ _ _ _ _) as [[sym|o] s2]; [apply Hplain|discriminate].
Qed.

Lemma lrun_events f : forall c o c' s', lrl f c = (o, c', s') ->
  exists evs, xc_events (lc_x c') = xc_events (lc_x c) ++ evs.
Proof.
  induction f as [|f IH]; intros c o c' s'; cbn [lrun_loop].
  - intros E. injection E as _ <- _. exists []. rewrite app_nil_r. reflexivity.
  - destruct (xc_state (lc_x c) =? end_state);
      [intros E; injection E as _ <- _; exists []; rewrite app_nil_r; reflexivity|].
    destruct (lst c) as [c1|o1 s1] eqn:Es.
    + intros E. destruct (IH _ _ _ _ E) as (e2 & H2). destruct (lstep_events _ _ Es) as (e1 & H1).
      exists (e1 ++ e2). rewrite H2, H1, app_assoc. reflexivity.
    + intros E. injection E as _ <- _. exists []. rewrite app_nil_r. reflexivity.
Qed.

End LA.

(* Once the context is done from counter value s on, the parse (main loop and lookahead sub-parses, which share the
   counter) stops at the latest at the next polled value (< s + 512) - with the context error - or ends before it;
   and every unit of the counter is one recorded shift attempt. *)
Theorem la_cancel_bounded m lt attempts eoi_off rho lfuel evt fixws end_state f s c o c' s' :
  1 <= s -> (forall n, s <= n -> rho n = true) -> ls_counter (lc_s c) < next_poll s ->
  lrun_loop m lt attempts eoi_off rho f lfuel evt fixws end_state c = (o, c', s') ->
  ls_counter s' <= next_poll s < s + 512 /\
  (o <> CtxErr -> ls_counter s' < next_poll s) /\
  ls_counter (lc_s c) <= ls_counter s' /\
  Z.of_nat (length (ls_ticks s')) - Z.of_nat (length (ls_ticks (lc_s c))) = ls_counter s' - ls_counter (lc_s c).
Proof.
  intros Hs Hrho Hlt Hrun. destruct (next_poll_spec s Hs) as ((Hge & Hlt512) & Hpoll & _).
  destruct (proj2 (la_run _ _ _ _ _ _ _ _ _ _ _ _ _ _ Hrun)) as ((Hg1 & Hg2) & Hb).
  destruct (Hb _ Hpoll (Hrho _ Hge) Hlt) as [Hle Hc].
  repeat split; try lia. intros Hne. apply Hc. destruct o; [reflexivity|contradiction].
Qed.
