(* C02: the loop (Events.xrun) emits, for the forest it has on its stack, exactly the events tree_run describes,
   and the leaves of that forest are the tokens consumed so far. *)
From Coq Require Import List ZArith Lia.
From TM Require Import Lib.ListX Gram.PTables Gram.Run Gram.Events Gram.Events_proofs.
Import ListNotations.
Local Open Scope Z_scope.

Definition tok_range (t : tok) : range := (t_off t, t_end t).

Section RunInv.
Variable m : machine.
Variable evt : ev_table.
Variable fixws : bool.
Variable eoi_off : Z.

(* sok st after evs lvs: the entries above the bottom one carry trees whose tree_run (w.r.t. the token that
   follows each of them) gives their ranges; evs are all their events in emission order, lvs their leaves *)
Inductive sok : list xentry -> Z -> list event -> list range -> Prop :=
| sok_bot b after : sok [b] after [] []
| sok_cons e rest after evs_below lvs_below evs_e :
    sok rest (start_of [x_tree e] after) evs_below lvs_below ->
    tree_run fixws evt (x_tree e) after = (range_of e, evs_e) ->
    sok (e :: rest) after (evs_below ++ evs_e) (lvs_below ++ leaves (x_tree e)).

Lemma sok_split n : forall st after evs lvs, sok st after evs lvs -> (n < length st)%nat ->
  let rhs := rev (firstn n st) in
  exists evs_below lvs_below,
    sok (skipn n st) (start_of (map x_tree rhs) after) evs_below lvs_below /\
    evs = evs_below ++ flat_map snd (fmap (tree_run fixws evt) after (map x_tree rhs)) /\
    lvs = lvs_below ++ forest_leaves (map x_tree rhs) /\
    map fst (fmap (tree_run fixws evt) after (map x_tree rhs)) = map range_of rhs.
Proof.
  induction n as [|n IH]; intros st after evs lvs Hs Hlen; simpl.
  - exists evs, lvs. rewrite !app_nil_r. repeat split; try reflexivity. exact Hs.
  - inversion Hs as [b a | e rest a evs_b lvs_b evs_e Hrest Hrun]; subst; simpl in Hlen; [lia|].
    destruct (IH rest _ _ _ Hrest ltac:(lia)) as (evs_bb & lvs_bb & Hs' & Eevs & Elvs & Eranges).
    cbv zeta in *. exists evs_bb, lvs_bb. cbn [firstn rev skipn].
    rewrite map_app. cbn [map]. rewrite fmap_app, start_of_app, map_app, flat_map_app, forest_leaves_app.
    cbn [fmap map flat_map]. change (start_of [] after) with after. rewrite Hrun, forest_leaves_single, app_nil_r.
    cbn [fst snd]. rewrite Eranges, Eevs, Elvs, <- !app_assoc.
    repeat split; [exact Hs'|symmetry; apply map_app].
Qed.

Definition next_off (c : xconfig) : Z := t_off (next_tok eoi_off (xc_input c)).

(* lvs: the leaves on the stack; k: how often end-of-input has been shifted *)
Definition xinv (input0 : list tok) (c : xconfig) (lvs : list range) (k : nat) : Prop :=
  Forall (fun t => t_sym t <> 0) (xc_input c) /\
  sok (xc_stack c) (next_off c) (xc_events c) lvs /\
  lvs ++ map tok_range (xc_input c) = map tok_range input0 ++ repeat (eoi_off, eoi_off) k /\
  (k <> O -> xc_input c = []).

Lemma xstep_cases c c' : xstep m evt fixws eoi_off c = XContinue c' ->
  let nx := next_tok eoi_off (xc_input c) in
  (exists q, m_act m (xc_state c) (t_sym nx) (map t_sym (tl (xc_input c))) = Shift q /\
     c' = mkXC (mkX (t_sym nx) (t_off nx) (t_end nx) q (TLeaf (t_sym nx) (t_off nx) (t_end nx)) :: xc_stack c) q
               (if t_sym nx =? 0 then xc_input c else tl (xc_input c)) (xc_events c)) \/
  (exists rule off endoff evs endoff' st,
     let ln := Z.to_nat (m_rule_len m rule) in let rhs := rev (firstn ln (xc_stack c)) in
     m_act m (xc_state c) (t_sym nx) (map t_sym (tl (xc_input c))) = Reduce rule /\
     (ln < length (xc_stack c))%nat /\
     lhs_range (map range_of rhs) (t_off nx) = (off, endoff) /\
     apply_rule fixws (ev_at evt rule) (map range_of rhs) off endoff = (evs, endoff') /\
     c' = mkXC (mkX (m_rule_sym m rule) off endoff' st (TNode rule (map x_tree rhs)) :: skipn ln (xc_stack c))
               st (xc_input c) (xc_events c ++ evs)).
Proof.
  unfold xstep. intros H. cbv zeta.
  destruct (m_act m (xc_state c) _ _) as [q|rule| |row]; try discriminate.
  - left. exists q. injection H as <-. split; reflexivity.
  - right. destruct (length (xc_stack c) <=? _)%nat eqn:El; [discriminate|]. apply Nat.leb_gt in El.
    destruct (lhs_range _ _) as [off endoff] eqn:Elhs. destruct (apply_rule _ _ _ _ _) as [evs endoff'] eqn:Eapp.
    destruct (_ =? -1); [discriminate|]. injection H as <-. exists rule, off, endoff, evs, endoff'. eexists.
    repeat split; [exact El|exact Elhs|exact Eapp].
Qed.

Definition shifts (c : xconfig) : bool :=
  match m_act m (xc_state c) (t_sym (next_tok eoi_off (xc_input c))) (map t_sym (tl (xc_input c))) with
  | Shift _ => true
  | _ => false
  end.

Lemma sok_push_leaf s o en q st after evs lvs :
  sok st o evs lvs -> sok (mkX s o en q (TLeaf s o en) :: st) after evs (lvs ++ [(o, en)]).
Proof. intros Hs. rewrite <- (app_nil_r evs). apply (sok_cons (mkX s o en q (TLeaf s o en))); [exact Hs|reflexivity]. Qed.

Lemma xstep_inv input0 c c' lvs k : xinv input0 c lvs k -> xstep m evt fixws eoi_off c = XContinue c' ->
  exists k', xinv input0 c' (if shifts c then lvs ++ [tok_range (next_tok eoi_off (xc_input c))] else lvs) k'.
Proof.
  intros (Hnz & Hs & Hstream & Hk) Hstep. unfold xinv, next_off, shifts in *.
  destruct (xstep_cases _ _ Hstep) as [(q & -> & ->)|(rule & off & endoff & evs & endoff' & st & -> & El & Elhs & Eapp & ->)];
    cbv zeta in *; cbn [xc_input xc_stack xc_events].
  - destruct (xc_input c) as [|t rest]; cbn [next_tok t_sym t_off t_end tok_range map tl] in *.
    + exists (S k). rewrite Z.eqb_refl.
      split; [constructor|]. split; [apply sok_push_leaf; exact Hs|]. split; [|reflexivity].
      rewrite !app_nil_r in *. rewrite Hstream, <- app_assoc. f_equal. symmetry. apply repeat_cons.
    + exists k. inversion Hnz as [|? ? Ht Hrest]; subst. apply Z.eqb_neq in Ht. rewrite Ht.
      split; [exact Hrest|]. split; [apply sok_push_leaf; exact Hs|]. split; [rewrite <- app_assoc; exact Hstream|].
      intros Hk0. discriminate (Hk Hk0).
  - exists k.
    destruct (sok_split _ _ _ _ _ Hs El) as (evs_b & lvs_b & Hs' & -> & -> & Eranges). cbv zeta in *.
    split; [exact Hnz|]. split; [|split; assumption]. rewrite <- app_assoc.
    apply (sok_cons (mkX (m_rule_sym m rule) off endoff' st (TNode rule _))); cbn [x_tree].
    + rewrite start_of_single. exact Hs'.
    + rewrite tree_run_node. cbv zeta. rewrite Eranges, Elhs, Eapp. reflexivity.
Qed.

Lemma xrun_loop_inv (I : xconfig -> Prop) end_state :
  (forall c c', I c -> xc_state c <> end_state -> xstep m evt fixws eoi_off c = XContinue c' -> I c') ->
  forall fuel c o c', I c -> xrun_loop fuel m evt fixws eoi_off end_state c = (o, c') -> I c'.
Proof.
  intros Hstep. induction fuel as [|f IH]; intros c o c' HI; simpl.
  - intros E. injection E as _ <-. exact HI.
  - destruct (Z.eqb_spec (xc_state c) end_state) as [|Hne]; [intros E; injection E as _ <-; exact HI|].
    destruct (xstep m evt fixws eoi_off c) as [c1|o1] eqn:Es; [|intros E; injection E as _ <-; exact HI].
    apply IH. exact (Hstep _ _ HI Hne Es).
Qed.

Lemma xrun_inv input0 end_state fuel c o c' lvs k : xinv input0 c lvs k ->
  xrun_loop fuel m evt fixws eoi_off end_state c = (o, c') -> exists lvs' k', xinv input0 c' lvs' k'.
Proof.
  intros Hinv. apply (xrun_loop_inv (fun c => exists lvs k, xinv input0 c lvs k)); [|eauto].
  intros c0 c1 (lvs0 & k0 & H0) _ Es. destruct (xstep_inv _ _ _ _ _ H0 Es) as [k1 H1]. eauto.
Qed.

Lemma xinv_init start input0 : Forall (fun t => t_sym t <> 0) input0 ->
  xinv input0 (mkXC [mkX 0 0 0 start (TLeaf 0 0 0)] start input0 []) [] O.
Proof.
  intros Hnz. split; [exact Hnz|]. split; [constructor|]. simpl. rewrite app_nil_r. split; [reflexivity|congruence].
Qed.

End RunInv.

(* an accepted run with the stack [EOI; S; bottom], either fixWhitespace setting: the leaves of the tree of S are the
   input tokens, the events emitted are those of tree_run *)
Lemma xrun_accept_tree m evt fixws eoi_off fuel start end_state input c' etop eS b :
  Forall (fun t => t_sym t <> 0) input ->
  ordered (map tok_range input) eoi_off ->
  xrun fuel m evt fixws start end_state eoi_off input = (Accept, c') ->
  xc_stack c' = [etop; eS; b] ->
  x_tree etop = TLeaf 0 eoi_off eoi_off ->
  ~ In (eoi_off, eoi_off) (leaves (x_tree eS)) ->
  leaves (x_tree eS) = map tok_range input /\
  snd (tree_run fixws evt (x_tree eS) eoi_off) = xc_events c'.
Proof.
  intros Hnz Hord Hrun Hst Htop HnoE.
  destruct (xrun_inv _ _ _ _ _ _ _ _ _ _ _ _ (xinv_init evt fixws eoi_off start input Hnz) Hrun)
    as (lvs & k & _ & Hs & Hstream & _).
  rewrite Hst in Hs.
  inversion Hs as [|e1 r1 a1 ev1 lv1 eve1 Hs1 Hrun1]; subst.
  inversion Hs1 as [|e2 r2 a2 ev2 lv2 eve2 Hs2 Hrun2]; subst.
  inversion Hs2 as [bb aa | e3 r3 a3 ev3 lv3 eve3 Hs3 Hrun3]; subst; [|inversion Hs3].
  rewrite Htop in Hrun1, Hrun2, Hstream. apply (f_equal snd) in Hrun1. rewrite start_of_single in Hrun2. simpl in Hrun1, Hrun2, Hstream. subst eve1.
  rewrite Hrun2, app_nil_r. split; [|reflexivity].
  assert (HnoI : ~ In (eoi_off, eoi_off) (map tok_range input)).
  { intros Hin. apply ordered_bounds in Hord. rewrite Forall_forall in Hord. specialize (Hord _ Hin). simpl in Hord. lia. }
  rewrite <- app_assoc in Hstream. destruct k as [|k]; simpl in Hstream.
  - exfalso. apply HnoI. rewrite app_nil_r in Hstream. rewrite <- Hstream. apply in_or_app. right. left. reflexivity.
  - eapply app_sep_eq; eauto.
Qed.
