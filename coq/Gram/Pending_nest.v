(* C20 (producer half with reported skipped tokens), for the loop of Pending.v.
   (1) It refines Events.xrun: erasing the skipped tokens from the lexer output and their events from the stream
   gives exactly that run; the skipped tokens are reported in lexer order, none lost, none twice. No hypotheses.
   (2) With fixWhitespace its stream is well nested. Node/node pairs: Events_nest. The events of a reduction are
   arrows over the trees it pops, so both ends of a node are ends of tokens shifted before (at most A, the end of the
   last shifted token, never inside a skipped token: the lexer's tokens do not overlap), or the node is empty at the
   offset N of the next token. A skipped token reported later starts at or after A. *)
From Coq Require Import List ZArith Lia.
From TM Require Import Lib.ListX Gram.Run Gram.Events Gram.Events_proofs Gram.Events_strict Gram.Events_run Gram.TreeBuilder Gram.TreeBuilder_proofs Gram.Events_nest Gram.Pending.
Import ListNotations.
Local Open Scope Z_scope.

Lemma nodes_of_app a b : nodes_of (a ++ b) = nodes_of a ++ nodes_of b.
Proof. induction a as [|[e|e] a IH]; simpl; [reflexivity| |]; rewrite IH; reflexivity. Qed.

Lemma skips_of_app a b : skips_of (a ++ b) = skips_of a ++ skips_of b.
Proof. induction a as [|[e|e] a IH]; simpl; [reflexivity| |]; rewrite IH; reflexivity. Qed.

Lemma nodes_of_PNode l : nodes_of (map PNode l) = l.
Proof. induction l as [|x l IH]; simpl; [reflexivity|]. rewrite IH. reflexivity. Qed.

Lemma nodes_of_PSkip l : nodes_of (map PSkip l) = [].
Proof. induction l as [|x l IH]; simpl; [reflexivity|]. exact IH. Qed.

Lemma skips_of_PNode l : skips_of (map PNode l) = [].
Proof. induction l as [|x l IH]; simpl; [reflexivity|]. exact IH. Qed.

Lemma skips_of_PSkip l : skips_of (map PSkip l) = l.
Proof. induction l as [|x l IH]; simpl; [reflexivity|]. rewrite IH. reflexivity. Qed.

Definition head_real (l : list ltok) : Prop := match l with LSkip _ :: _ => False | _ => True end.

Lemma fetch_next_spec lex : forall p p' lex', fetch_next p lex = (p', lex') ->
  reals lex' = reals lex /\ p' ++ skipped lex' = p ++ skipped lex /\
  map s_range p' ++ map l_range lex' = map s_range p ++ map l_range lex /\ head_real lex'.
Proof.
  induction lex as [|[t|s] rest IH]; intros p p' lex' H; simpl in H.
  - injection H as <- <-. repeat split.
  - injection H as <- <-. repeat split.
  - apply IH in H. destruct H as (H1 & H2 & H3 & H4). simpl. rewrite H1, H2, H3, map_app, <- !app_assoc. simpl.
    repeat split. exact H4.
Qed.

Lemma reals_tl l : head_real l -> reals (tl l) = tl (reals l).
Proof. destruct l as [|[t|s] r]; simpl; intros H; [reflexivity|reflexivity|destruct H]. Qed.

Lemma skipped_tl l : head_real l -> skipped (tl l) = skipped l.
Proof. destruct l as [|[t|s] r]; simpl; intros H; [reflexivity|reflexivity|destruct H]. Qed.

Lemma flush_app e : forall p r k, flush p e = (r, k) -> r ++ k = p.
Proof.
  induction p as [|t p IH]; intros r k H; simpl in H.
  - injection H as <- <-. reflexivity.
  - destruct (s_end t >? e).
    + injection H as <- <-. reflexivity.
    + destruct (flush p e) as [r1 k1]. injection H as <- <-. simpl. rewrite (IH _ _ eq_refl). reflexivity.
Qed.

Definition acct (c : pconfig) : list event := skips_of (pc_events c) ++ pc_pending c ++ skipped (pc_lex c).

(* fetchNext has moved the skipped tokens in front of the next real one to the pending list; a shift flushes, a
   reduction appends its node events *)
Lemma pstep_spec m evt fixws E c :
  let '(pending, lex) := fetch_next (pc_pending c) (pc_lex c) in
  let nx := next_tok E (reals lex) in
  match pstep m evt fixws E c with
  | PContinue c' =>
      xstep m evt fixws E (erase c) = XContinue (erase c') /\
      if shifts m E (erase c)
      then exists rep, flush pending (t_end nx) = (rep, pc_pending c') /\
             pc_lex c' = (if t_sym nx =? 0 then lex else tl lex) /\ pc_events c' = pc_events c ++ map PSkip rep
      else exists evs, pc_lex c' = lex /\ pc_pending c' = pending /\ pc_events c' = pc_events c ++ map PNode evs
  | PStop o => xstep m evt fixws E (erase c) = XStop o
  end.
Proof.
  destruct c as [stk sta lx pd evs0].
  unfold pstep, xstep, shifts, erase. cbn [pc_stack pc_state pc_lex pc_pending pc_events xc_input xc_state xc_stack xc_events].
  destruct (fetch_next pd lx) as [pending lex] eqn:Ef.
  destruct (fetch_next_spec _ _ _ _ Ef) as (Hr & _ & _ & Hh). rewrite <- Hr. cbv zeta.
  destruct (m_act m sta (t_sym (next_tok E (reals lex))) (map t_sym (tl (reals lex)))) as [q|rule| |row]; try reflexivity.
  - destruct (flush pending (t_end (next_tok E (reals lex)))) as [rep kept].
    cbn [pc_stack pc_state pc_lex pc_pending pc_events]. rewrite nodes_of_app, nodes_of_PSkip, app_nil_r.
    split; [|exists rep; repeat split]. destruct (t_sym (next_tok E (reals lex)) =? 0); [reflexivity|].
    rewrite (reals_tl _ Hh). reflexivity.
  - destruct (length stk <=? Z.to_nat (m_rule_len m rule))%nat; [reflexivity|].
    destruct (lhs_range _ _) as [off endoff]. destruct (apply_rule _ _ _ _ _) as [evs endoff'].
    destruct (_ =? -1); [reflexivity|].
    cbn [pc_stack pc_state pc_lex pc_pending pc_events]. rewrite nodes_of_app, nodes_of_PNode.
    split; [reflexivity|exists evs; repeat split].
Qed.

Lemma pstep_sim m evt fixws E c :
  match pstep m evt fixws E c with
  | PContinue c' => xstep m evt fixws E (erase c) = XContinue (erase c') /\ acct c' = acct c
  | PStop o => xstep m evt fixws E (erase c) = XStop o
  end.
Proof.
  pose proof (pstep_spec m evt fixws E c) as S. destruct (fetch_next _ _) as [pending lex] eqn:Ef.
  destruct (fetch_next_spec _ _ _ _ Ef) as (_ & Hs & _ & Hh). destruct (pstep m evt fixws E c) as [c'|o]; [|exact S].
  destruct S as [S1 S2]. split; [exact S1|]. unfold acct. rewrite <- Hs. destruct (shifts m E (erase c)).
  - destruct S2 as (rep & Hfl & -> & ->). apply flush_app in Hfl. subst pending.
    rewrite skips_of_app, skips_of_PSkip, <- !app_assoc. destruct (_ =? 0); [reflexivity|]. rewrite (skipped_tl _ Hh). reflexivity.
  - destruct S2 as (evs & -> & -> & ->). rewrite skips_of_app, skips_of_PNode, app_nil_r. reflexivity.
Qed.

Lemma pxrun_loop_sim m evt fixws E end_state fuel : forall c o c',
  pxrun_loop fuel m evt fixws E end_state c = (o, c') ->
  xrun_loop fuel m evt fixws E end_state (erase c) = (o, erase c') /\ acct c' = acct c.
Proof.
  induction fuel as [|f IH]; intros c o c' H; cbn [pxrun_loop xrun_loop] in *.
  - injection H as <- <-. split; reflexivity.
  - change (xc_state (erase c)) with (pc_state c). destruct (pc_state c =? end_state).
    + injection H as <- <-. split; reflexivity.
    + pose proof (pstep_sim m evt fixws E c) as S. destruct (pstep m evt fixws E c) as [c1|o1].
      * destruct S as [S1 S2]. rewrite S1. destruct (IH _ _ _ H) as [I1 I2]. split; [exact I1|congruence].
      * rewrite S. injection H as <- <-. split; reflexivity.
Qed.

Theorem pxrun_sim m evt fixws fuel start end_state E lex o c' :
  pxrun fuel m evt fixws start end_state E lex = (o, c') ->
  xrun fuel m evt fixws start end_state E (reals lex) = (o, erase c') /\
  skips_of (pc_events c') ++ pc_pending c' ++ skipped (pc_lex c') = skipped lex.
Proof.
  unfold pxrun, xrun. intros H. apply pxrun_loop_sim in H. destruct H as [H1 H2]. split; [exact H1|exact H2].
Qed.

Lemma stream_split (l : list pevent) :
  length l = (length (nodes_of l) + length (skips_of l))%nat /\
  forall e, In e (map untag l) <-> In e (nodes_of l) \/ In e (skips_of l).
Proof.
  induction l as [|[x|x] l [IH1 IH2]]; simpl.
  - split; [reflexivity|]. intros e. tauto.
  - split; [lia|]. intros e. rewrite IH2. tauto.
  - split; [lia|]. intros e. rewrite IH2. tauto.
Qed.

(* pairwise compatibility of a tagged stream, node/node pairs left out *)
Definition both_nodes (x y : pevent) : Prop := match x, y with PNode _, PNode _ => True | _, _ => False end.
Definition pcompat (x y : pevent) : Prop := both_nodes x y \/ compatible (untag x) (untag y) = true.
Definition skip_ok (x : pevent) : Prop := match x with PSkip s => ev_off s <= ev_end s | PNode _ => True end.
Definition mokp : list pevent -> Prop := pairwise skip_ok pcompat.

Lemma mokp_app a b : mokp (a ++ b) <-> mokp a /\ mokp b /\ Forall (fun x => Forall (pcompat x) b) a.
Proof. apply pairwise_app. Qed.

Lemma in_nodes_of e l : In (PNode e) l -> In e (nodes_of l).
Proof. induction l as [|[x|x] l IH]; simpl; [tauto| |]; intros [H|H]; try discriminate; auto. injection H as ->. auto. Qed.

Lemma in_skips_of e l : In (PSkip e) l -> In e (skips_of l).
Proof. induction l as [|[x|x] l IH]; simpl; [tauto| |]; intros [H|H]; try discriminate; auto. injection H as ->. auto. Qed.

Lemma merge_okp l : mokp l -> okp (nodes_of l) -> okp (map untag l).
Proof.
  induction l as [|x r IH]; intros Hm Hn; [exact I|]. destruct Hm as (H1 & H2 & H3).
  destruct x as [e|s]; simpl in Hn |- *.
  - destruct Hn as (N1 & N2 & N3). split; [exact N1|]. split; [|apply IH; assumption].
    apply Forall_forall. intros y Hy. apply in_map_iff in Hy. destruct Hy as (py & <- & Hpy).
    rewrite Forall_forall in H2. destruct (H2 _ Hpy) as [Hb|Hc]; [|exact Hc].
    destruct py as [e'|s']; [|destruct Hb]. rewrite Forall_forall in N2. apply N2. apply in_nodes_of. exact Hpy.
  - split; [exact H1|]. split; [|apply IH; assumption].
    apply Forall_forall. intros y Hy. apply in_map_iff in Hy. destruct Hy as (py & <- & Hpy).
    rewrite Forall_forall in H2. destruct (H2 _ Hpy) as [Hb|Hc]; [destruct Hb|exact Hc].
Qed.

Lemma mokp_nodes evs : mokp (map PNode evs).
Proof.
  induction evs as [|e evs IH]; simpl; [exact I|]. split; [exact I|]. split; [|exact IH].
  apply Forall_forall. intros y Hy. apply in_map_iff in Hy. destruct Hy as (z & <- & _). left. exact I.
Qed.

Lemma last_in {X} (l : list X) d : l <> [] -> In (last l d) l.
Proof. apply last_In. Qed.

Lemma ordered_skips_okp l : forall aft, ordered (map s_range l) aft -> mokp (map PSkip l).
Proof.
  induction l as [|s l IH]; intros aft H; [exact I|]. destruct H as (H1 & H2 & H3).
  change (ev_off s < ev_end s) in H1. change (ev_end s <= fst (span_of (map s_range l) aft)) in H2.
  split; [cbn [skip_ok]; lia|]. split; [|apply (IH aft); exact H3].
  apply Forall_map. apply ordered_bounds, Forall_map in H3. eapply Forall_impl; [|exact H3]. intros z Hz. right.
  apply compatible_iff. left. change (ev_end s <= ev_off z). cbv beta in Hz. change (fst (s_range z)) with (ev_off z) in Hz. lia.
Qed.

Lemma reals_ordered lex E : ordered (map l_range lex) E ->
  ordered (map tok_range (reals lex)) E /\
  fst (span_of (map l_range lex) E) <= fst (span_of (map tok_range (reals lex)) E).
Proof.
  induction lex as [|[t|s] rest IH]; intros H; [split; [exact I|apply Z.le_refl]| |];
    destruct H as (H1 & H2 & H3); destruct (IH H3) as [I1 I2]; cbn [reals map l_range s_range tok_range fst snd] in *.
  - split; [|apply Z.le_refl]. split; [exact H1|]. split; [exact (Z.le_trans _ _ _ H2 I2)|exact I1].
  - split; [exact I1|]. unfold s_range in *. cbn [span_of fst snd] in *. lia.
Qed.

Lemma skipped_in s l : In s (skipped l) -> In (LSkip s) l.
Proof. induction l as [|[t|x] l IH]; simpl; [tauto|auto|]. intros [->|H]; auto. Qed.

Lemma head_real_span lex E : head_real lex -> fst (span_of (map l_range lex) E) = t_off (next_tok E (reals lex)).
Proof. destruct lex as [|[t|s] r]; simpl; intros H; [reflexivity|reflexivity|destruct H]. Qed.

Lemma reals_in t l : In t (reals l) -> In (LReal t) l.
Proof. induction l as [|[t'|x] l IH]; simpl; [tauto| |auto]. intros [->|H]; auto. Qed.

Lemma ordered_disjoint {X} (f : X -> range) l : forall aft, ordered (map f l) aft ->
  forall x y, In x l -> In y l -> x = y \/ snd (f x) <= fst (f y) \/ snd (f y) <= fst (f x).
Proof.
  induction l as [|a l IH]; intros aft Ho x y Hx Hy; [destruct Hx|]. destruct Ho as (H1 & H2 & H3).
  pose proof (ordered_bounds _ _ H3) as Hb. apply Forall_map in Hb. rewrite Forall_forall in Hb.
  destruct Hx as [->|Hx], Hy as [->|Hy]; [left; reflexivity| | |exact (IH aft H3 x y Hx Hy)].
  - right. left. specialize (Hb y Hy). lia.
  - right. right. specialize (Hb x Hx). lia.
Qed.

Definition nocut (s : event) (x : Z) : Prop := x <= ev_off s \/ ev_end s <= x.

Lemma range_nocut lex E k r s : ordered (map l_range lex) E ->
  In r (map tok_range (reals lex) ++ repeat (E, E) k) -> In s (skipped lex) -> nocut s (fst r) /\ nocut s (snd r).
Proof.
  intros Ho Hr Hs. apply skipped_in in Hs. pose proof (ordered_bounds _ _ Ho) as Hb. apply Forall_map in Hb.
  rewrite Forall_forall in Hb. pose proof (Hb _ Hs) as Bs. apply in_app_or in Hr. destruct Hr as [Hr|Hr].
  - apply in_map_iff in Hr. destruct Hr as (t & <- & Ht). apply reals_in in Ht. pose proof (Hb _ Ht) as Bt.
    destruct (ordered_disjoint l_range lex E Ho _ _ Ht Hs) as [D|D]; [discriminate|].
    unfold nocut, ev_off, ev_end. simpl in *. unfold s_off, s_end in *. lia.
  - apply repeat_spec in Hr. subst r. unfold nocut, ev_off, ev_end. simpl in *. unfold s_end in *. lia.
Qed.

Lemma nocut_compat s ty o e : nocut s o -> nocut s e -> o <= e -> compatible s (ty, o, e) = true.
Proof. unfold nocut. intros Ho He Hoe. apply compatible_iff. unfold ev_off, ev_end in *. cbn [fst snd]. lia. Qed.

Lemma arrow_ends (Q : Z -> Prop) ch N s e ty : (forall r, In r (forest_leaves ch) -> Q (fst r) /\ Q (snd r)) ->
  (ev_off (arrow_event ch N (s, e, ty)) = N /\ ev_end (arrow_event ch N (s, e, ty)) = N) \/
  (Q (ev_off (arrow_event ch N (s, e, ty))) /\ Q (ev_end (arrow_event ch N (s, e, ty)))).
Proof.
  intros HQ. rewrite arrow_event_span. unfold part_span, start_of, ev_off, ev_end. cbn [fst snd].
  assert (Hp : forall r, In r (forest_leaves (seg ch s e)) -> In r (forest_leaves ch)).
  { unfold forest_leaves, seg. intros r Hr. apply in_flat_map in Hr. destruct Hr as (t & Ht & Hr).
    apply in_flat_map. exists t. split; [eapply In_skipn, In_firstn; exact Ht|exact Hr]. }
  assert (Hq : forall r, In r (forest_leaves (skipn e ch)) -> In r (forest_leaves ch)).
  { unfold forest_leaves. intros r Hr. apply in_flat_map in Hr. destruct Hr as (t & Ht & Hr).
    apply in_flat_map. exists t. split; [eapply In_skipn; exact Ht|exact Hr]. }
  destruct (forest_leaves (seg ch s e)) as [|[o1 e1] ls] eqn:Ep.
  - destruct (forest_leaves (skipn e ch)) as [|[o2 e2] ls2]; [left; split; reflexivity|right].
    destruct (HQ (o2, e2) (Hq _ (or_introl eq_refl))) as [H _]. split; exact H.
  - right. cbn [span_of fst snd]. split; [exact (proj1 (HQ (o1, e1) (Hp _ (or_introl eq_refl))))|].
    apply HQ, Hp, last_in. discriminate.
Qed.

Lemma flush_all e : forall p, Forall (fun s => ev_end s <= e) p -> flush p e = (p, []).
Proof.
  induction p as [|s p IH]; intros H; [reflexivity|]. inversion H as [|? ? Hs Hp]; subst. simpl.
  change (s_end s) with (ev_end s). destruct (ev_end s >? e) eqn:Eg; [apply Z.gtb_lt in Eg; lia|].
  rewrite (IH Hp). reflexivity.
Qed.

(* at a shift whatever is pending lies before the token and is flushed; the rest of the lexer's output lies behind it *)
Lemma shift_lex E pending lex : head_real lex -> Forall (fun t => t_sym t <> 0) (reals lex) ->
  ordered (map s_range pending ++ map l_range lex) E ->
  let nx := next_tok E (reals lex) in let lex' := if t_sym nx =? 0 then lex else tl lex in
  flush pending (t_end nx) = (pending, []) /\
  ordered (map s_range pending) (t_off nx) /\ Forall (fun s => ev_end s <= t_off nx) pending /\
  t_off nx <= t_end nx /\ ordered (map l_range lex') E /\ skipped lex' = skipped lex /\
  Forall (fun s => t_end nx <= ev_off s) (skipped lex') /\ t_end nx <= t_off (next_tok E (reals lex')).
Proof.
  intros Hh Hnz Ho nx lex'. apply ordered_app in Ho. destruct Ho as [Ho1 Ho2]. rewrite (head_real_span _ _ Hh) in Ho1. fold nx in Ho1.
  assert (Hpe : Forall (fun s => ev_end s <= t_off nx) pending).
  { apply ordered_bounds, Forall_map in Ho1. eapply Forall_impl; [|exact Ho1]. intros s Hs. apply Hs. }
  assert (Hle : t_off nx <= t_end nx /\ ordered (map l_range lex') E /\ skipped lex' = skipped lex /\
                Forall (fun s => t_end nx <= ev_off s) (skipped lex') /\ t_end nx <= t_off (next_tok E (reals lex'))).
  { subst nx lex'. destruct lex as [|[t|s] r]; [| |destruct Hh]; cbn [reals next_tok t_sym t_off t_end] in *.
    - rewrite Z.eqb_refl. repeat split; try apply Z.le_refl; constructor.
    - inversion Hnz as [|? ? Ht _]; subst. apply Z.eqb_neq in Ht. rewrite Ht. destruct Ho2 as (T1 & T2 & T3).
      cbn [tl skipped l_range fst snd] in *. repeat split; [lia|exact T3| |].
      + pose proof (ordered_bounds _ _ T3) as Hb. apply Forall_forall. intros s Hs. apply skipped_in in Hs.
        rewrite Forall_forall in Hb. specialize (Hb _ (in_map l_range _ _ Hs)). change (fst (l_range (LSkip s))) with (ev_off s) in Hb. lia.
      + rewrite next_off_span. destruct (reals_ordered _ _ T3) as [_ Hle]. lia. }
  destruct Hle as (L1 & L2 & L3 & L4 & L5). repeat split; try assumption.
  apply flush_all. eapply Forall_impl; [|exact Hpe]. intros s Hs. cbv beta in *. lia.
Qed.

Definition U_of (c : pconfig) : list event := pc_pending c ++ skipped (pc_lex c).
Definition R_of (c : pconfig) : list range := map s_range (pc_pending c) ++ map l_range (pc_lex c).
Definition N_of (E : Z) (c : pconfig) : Z := t_off (next_tok E (reals (pc_lex c))).
Definition F_of (c : pconfig) : list event := skips_of (pc_events c).

Section Loop.
Variable m : machine.
Variable evt : ev_table.
Variable rl : Z -> Z.
Variable E : Z.
Variable lex0 : list ltok.
Hypothesis Hord0 : ordered (map l_range lex0) E.

(* what is asked of the trees on the final stack, hence of every tree the run builds *)
Definition good_tree (t : tree) : Prop := wf_tree evt rl t /\ (is_leaf t \/ ~ In (E, E) (leaves t)).
Definition good_stack (st : list xentry) : Prop := Forall (fun e => good_tree (x_tree e)) st.

(* A: the end of the last shifted token *)
Record Inv (A : Z) (c : pconfig) : Prop := mkInv {
  i_x : exists lvs k, xinv evt true E (reals lex0) (erase c) lvs k /\ Forall (fun r => snd r <= A) lvs;
  i_acct : F_of c ++ U_of c = skipped lex0;
  i_ord : ordered (R_of c) E;
  i_U : Forall (fun s => A <= ev_off s) (U_of c);
  i_F : Forall (fun s => ev_end s <= A) (F_of c);
  i_A : A <= N_of E c;
  i_m : mokp (pc_events c);
  i_P : Forall (fun e => ev_end e <= A \/ (ev_off e = N_of E c /\ ev_end e = N_of E c)) (nodes_of (pc_events c))
}.

Lemma Inv_ext A c c2 : Inv A c -> pc_stack c2 = pc_stack c -> pc_state c2 = pc_state c ->
  reals (pc_lex c2) = reals (pc_lex c) -> R_of c2 = R_of c -> U_of c2 = U_of c -> pc_events c2 = pc_events c -> Inv A c2.
Proof.
  intros [H1 H2 H3 H4 H5 H6 H7 H8] E1 E2 E3 E4 E5 E6.
  constructor; unfold N_of, F_of, erase in *; rewrite ?E1, ?E2, ?E3, ?E4, ?E5, ?E6; assumption.
Qed.

Lemma xstep_back fixws c c' : xstep m evt fixws E c = XContinue c' -> good_stack (xc_stack c') -> good_stack (xc_stack c).
Proof.
  intros Hstep. destruct (xstep_cases _ _ _ _ _ _ Hstep) as [(q & _ & ->)|(rule & off & endoff & evs & endoff' & st & _ & El & _ & _ & ->)];
    cbv zeta; cbn [xc_stack]; intros H; inversion H as [|? ? [Hn Hl] Hr]; subst; [exact Hr|].
  cbn [x_tree] in *. rewrite <- (firstn_skipn (Z.to_nat (m_rule_len m rule)) (xc_stack c)). apply Forall_app. split; [|exact Hr].
  inversion Hn as [|? ? Hch _ _ _ _]; subst. destruct Hl as [[]|Hl]. rewrite leaves_node in Hl.
  apply Forall_forall. intros e He. apply -> in_rev in He. split.
  - rewrite Forall_forall in Hch. apply Hch, in_map, He.
  - right. intros Hin. apply Hl. unfold forest_leaves. apply in_flat_map. exists (x_tree e). split; [apply in_map, He|exact Hin].
Qed.

(* each event of a reduction ends at the end of a shifted token or is empty at the next token, and its ends are token
   boundaries, which no skipped token contains *)
Lemma reduce_events A x lvs k ln rule off endoff evs endoff' :
  xinv evt true E (reals lex0) x lvs k -> Forall (fun r => snd r <= A) lvs ->
  (ln < length (xc_stack x))%nat ->
  lhs_range (map range_of (rev (firstn ln (xc_stack x)))) (next_off E x) = (off, endoff) ->
  apply_rule true (ev_at evt rule) (map range_of (rev (firstn ln (xc_stack x)))) off endoff = (evs, endoff') ->
  good_tree (TNode rule (map x_tree (rev (firstn ln (xc_stack x))))) ->
  Forall (fun ev => (ev_end ev <= A \/ (ev_off ev = next_off E x /\ ev_end ev = next_off E x)) /\
                    forall s, In s (skipped lex0) -> compatible s ev = true) evs.
Proof.
  intros Hxi HL El Elhs Eapp [Hwn [[]|Hnoe]]. rewrite leaves_node in Hnoe.
  destruct (xinv_leaves _ _ _ _ _ _ _ Hxi (proj1 (reals_ordered _ _ Hord0))) as (Hw & _ & Hlv).
  destruct Hxi as (_ & Hsok & _). set (N := next_off E x) in *. set (ch := map x_tree (rev (firstn ln (xc_stack x)))) in *.
  destruct (sok_split _ _ _ _ _ _ _ Hsok El) as (_ & lvs_b & _ & _ & Elvs & _). fold ch in Elvs. subst lvs.
  apply wordered_app, proj2 in Hw. rewrite <- app_assoc in Hlv. apply Forall_app, proj2, Forall_app in Hlv. destruct Hlv as [Hlc Hli].
  apply Forall_app, proj2 in HL. rewrite Forall_forall in Hlc, HL.
  assert (Hne : forall r, In r (forest_leaves ch) -> fst r < snd r /\ In r (map tok_range (reals lex0))).
  { intros r Hr. destruct (Hlc r Hr) as [H| ->]; [exact H|contradiction]. }
  assert (Ho' : ordered (forest_leaves ch) N).
  { apply wordered_ne; [exact Hw|]. apply Forall_forall. intros r Hr. apply (Hne r Hr). }
  destruct (reduce_arrows evt rl _ _ _ _ _ _ _ _ _ _ Hsok El Elhs Eapp Hwn Ho') as [-> _].
  set (Q := fun z => z <= A /\ forall s, In s (skipped lex0) -> nocut s z).
  assert (HQ : forall r, In r (forest_leaves ch) -> Q (fst r) /\ Q (snd r)).
  { intros r Hr. destruct (Hne r Hr) as [H1 H2]. specialize (HL r Hr). cbv beta in HL.
    split; (split; [lia|]); intros s Hs; apply (range_nocut lex0 E O r s Hord0); auto using in_or_app. }
  assert (HN : forall s, In s (skipped lex0) -> nocut s N).
  { intros s Hs. subst N. unfold next_off. destruct (xc_input x) as [|t r]; cbn [next_tok t_off].
    - apply (range_nocut lex0 E 1 (E, E) s Hord0); [apply in_or_app; right; left; reflexivity|exact Hs].
    - inversion Hli as [|? ? [[_ Ht]|Ht] _]; subst.
      + apply (range_nocut lex0 E O (tok_range t) s Hord0); auto using in_or_app.
      + apply (range_nocut lex0 E 1 (tok_range t) s Hord0); [rewrite Ht; apply in_or_app; right; left; reflexivity|exact Hs]. }
  apply Forall_map. eapply Forall_impl; [|exact (wf_arrows_in _ _ _ _ Hwn)]. intros [[s e] ty] [Hse _].
  fold ch. pose proof (part_span_ok ch N Hw s e Hse) as Hoe. pose proof (arrow_ends Q ch N s e ty HQ) as Hf.
  rewrite arrow_event_span in *. unfold ev_off, ev_end in *. cbn [fst snd] in *.
  destruct Hf as [[E1 E2]|[[_ H1] [H2 H3]]].
  - split; [right; split; assumption|]. intros z Hz. rewrite E1, E2. apply nocut_compat; auto using Z.le_refl.
  - split; [left; exact H2|]. intros z Hz. apply nocut_compat; auto. lia.
Qed.

Lemma pstep_inv A c c' : Inv A c -> pstep m evt true E c = PContinue c' -> good_stack (pc_stack c') -> exists A', Inv A' c'.
Proof.
  intros HI Hstep Hgood. pose proof (pstep_spec m evt true E c) as S. rewrite Hstep in S.
  destruct (fetch_next (pc_pending c) (pc_lex c)) as [pending lex] eqn:Ef.
  destruct (fetch_next_spec _ _ _ _ Ef) as (Hr & Hs & HR & Hh). destruct S as [Hx Hcase].
  set (c2 := mkPC (pc_stack c) (pc_state c) lex pending (pc_events c)).
  assert (HI2 : Inv A c2) by (apply (Inv_ext A c); auto).
  assert (Ee : erase c = erase c2) by (unfold erase, c2; cbn; rewrite Hr; reflexivity). rewrite Ee in Hx, Hcase.
  clear HI Ef Hr Hs HR Ee. destruct HI2 as [(lvs & k & Hxi & HL) Hacct Ho HU HF HA Hm HP].
  destruct (xstep_inv _ _ _ _ _ _ _ _ _ Hxi Hx) as [k' Hxi'].
  unfold F_of, U_of, R_of, N_of in *. cbn [c2 pc_stack pc_state pc_lex pc_pending pc_events] in *.
  destruct (shifts m E (erase c2)) eqn:Esh.
  - (* shift: A becomes the end of the token *)
    destruct Hcase as (rep & Hfl & Hlex' & Hev').
    destruct (shift_lex E pending lex Hh (proj1 Hxi) Ho) as (Efl & Ho1 & Hpe & N1 & N2 & N5 & N3 & N4). cbv zeta in *.
    set (nx := next_tok E (reals lex)) in *. rewrite <- Hlex' in N2, N3, N4, N5. rewrite Efl in Hfl. injection Hfl as <- Hp'.
    exists (t_end nx).
    constructor; unfold F_of, U_of, R_of, N_of; rewrite <- ?Hp', ?Hev', ?skips_of_app, ?skips_of_PSkip, ?nodes_of_app, ?nodes_of_PSkip, ?app_nil_r; cbn [app map].
    + (* i_x *) exists (lvs ++ [tok_range nx]), k'. split; [exact Hxi'|]. apply Forall_app. split.
      * eapply Forall_impl; [|exact HL]. intros r Hr. cbv beta in *. lia.
      * constructor; [apply Z.le_refl|constructor].
    + (* i_acct *) rewrite N5, <- app_assoc. exact Hacct.
    + (* i_ord *) exact N2.
    + (* i_U *) exact N3.
    + (* i_F *) apply Forall_app in HU. apply Forall_app. split.
      * eapply Forall_impl; [|exact HF]. intros s Hs. cbv beta in *. lia.
      * eapply Forall_impl; [|exact Hpe]. intros s Hs. cbv beta in *. lia.
    + (* i_A *) exact N4.
    + (* i_m *) apply mokp_app. split; [exact Hm|]. split; [apply (ordered_skips_okp _ _ Ho1)|].
      apply Forall_app in HU. destruct HU as [HU _]. apply Forall_forall. intros x Hx0. apply Forall_map.
      rewrite Forall_forall in HU, Hpe, HP, HF. apply Forall_forall. intros s Hs. specialize (HU _ Hs). specialize (Hpe _ Hs).
      right. apply compatible_iff. destruct x as [e|s0]; simpl.
      * apply in_nodes_of in Hx0. destruct (HP _ Hx0) as [He|[He1 He2]]; lia.
      * apply in_skips_of in Hx0. specialize (HF _ Hx0). lia.
    + (* i_P *) eapply Forall_impl; [|exact HP]. intros e He. cbv beta in *. lia.
  - (* reduce: skip side unchanged *)
    destruct Hcase as (evs & Hlex' & Hp' & Hev').
    destruct (xstep_cases _ _ _ _ _ _ Hx) as [(q & Eq & _)|(rule & off & endoff & evs' & endoff' & st & _ & El & Elhs & Eapp & Ec')];
      [unfold shifts in Esh; rewrite Eq in Esh; discriminate|].
    cbv zeta in *.
    assert (Ev : evs' = evs).
    { apply (f_equal xc_events) in Ec'. cbn [erase xc_events c2 pc_events] in Ec'. rewrite Hev', nodes_of_app, nodes_of_PNode in Ec'.
      symmetry. exact (app_inv_head _ _ _ Ec'). }
    subst evs'. apply (f_equal xc_stack) in Ec'. cbn [erase xc_stack] in Ec'. rewrite Ec' in Hgood.
    pose proof (reduce_events A _ _ _ _ _ _ _ _ _ Hxi HL El Elhs Eapp (Forall_inv Hgood)) as Hfine.
    exists A. constructor; unfold F_of, U_of, R_of, N_of; rewrite ?Hlex', ?Hp', ?Hev', ?skips_of_app, ?skips_of_PNode, ?nodes_of_app, ?nodes_of_PNode, ?app_nil_r;
      try assumption.
    + (* i_x *) exists lvs, k'. split; assumption.
    + (* i_m *) apply mokp_app. split; [exact Hm|]. split; [apply mokp_nodes|].
      apply Forall_forall. intros x Hx0. apply Forall_map. eapply Forall_impl; [|exact Hfine]. intros ev [_ Hc].
      destruct x as [e0|s]; [left; exact I|right]. apply Hc. rewrite <- Hacct. apply in_or_app. left. apply in_skips_of. exact Hx0.
    + (* i_P *) apply Forall_app. split; [exact HP|]. eapply Forall_impl; [|exact Hfine]. intros ev [H _]. exact H.
Qed.

Lemma ploop_back fixws end_state fuel : forall c o c',
  pxrun_loop fuel m evt fixws E end_state c = (o, c') -> good_stack (pc_stack c') -> good_stack (pc_stack c).
Proof.
  induction fuel as [|f IH]; intros c o c' H Hg; cbn [pxrun_loop] in H.
  - injection H as _ <-. exact Hg.
  - destruct (pc_state c =? end_state); [injection H as _ <-; exact Hg|].
    pose proof (pstep_sim m evt fixws E c) as S. destruct (pstep m evt fixws E c) as [c1|o1]; [|injection H as _ <-; exact Hg].
    apply (xstep_back fixws (erase c) (erase c1) (proj1 S)). exact (IH _ _ _ H Hg).
Qed.

Lemma ploop_inv end_state fuel : forall c o c' A, Inv A c ->
  pxrun_loop fuel m evt true E end_state c = (o, c') -> good_stack (pc_stack c') -> exists A', Inv A' c'.
Proof.
  induction fuel as [|f IH]; intros c o c' A HI H Hg; cbn [pxrun_loop] in H.
  - injection H as _ <-. exists A. exact HI.
  - destruct (pc_state c =? end_state); [injection H as _ <-; exists A; exact HI|].
    destruct (pstep m evt true E c) as [c1|o1] eqn:Es; [|injection H as _ <-; exists A; exact HI].
    destruct (pstep_inv A c c1 HI Es (ploop_back _ _ _ _ _ _ H Hg)) as [A1 HI1]. exact (IH _ _ _ _ HI1 H Hg).
Qed.

End Loop.

(* node events and skipped tokens together, under the conditions of Events_nest.xrun_events_okp on the final stack *)
Theorem pxrun_events_okp m evt rl E fuel start end_state lex o c' :
  nested_table evt ->
  Forall (fun t => t_sym t <> 0) (reals lex) ->
  ordered (map l_range lex) E ->
  Forall (fun r => 0 <= fst r) (map l_range lex) -> 0 <= E ->
  pxrun fuel m evt true start end_state E lex = (o, c') ->
  Forall (fun e => wf_tree evt rl (x_tree e)) (pc_stack c') ->
  Forall (fun e => is_leaf (x_tree e) \/ ~ In (E, E) (leaves (x_tree e))) (pc_stack c') ->
  okp (stream_of c') /\ Forall (fun ev => 0 <= ev_off ev /\ ev_end ev <= E) (stream_of c').
Proof.
  intros Hnest Hnz Hord Hpos HE Hrun Hwf Hlf.
  destruct (pxrun_sim _ _ _ _ _ _ _ _ _ _ Hrun) as [Hx _].
  destruct (reals_ordered _ _ Hord) as [Hord' _]. rewrite Forall_map in Hpos.
  assert (Hsk : forall s, In s (skipped lex) -> 0 <= ev_off s /\ ev_end s <= E).
  { intros s Hs. apply skipped_in in Hs. pose proof (ordered_bounds _ _ Hord) as Hb. rewrite Forall_map in Hb.
    rewrite Forall_forall in Hpos, Hb. split; [exact (Hpos _ Hs)|apply (Hb _ Hs)]. }
  assert (Hpos' : Forall (fun t => 0 <= t_off t) (reals lex)).
  { apply Forall_forall. intros t Ht. rewrite Forall_forall in Hpos. exact (Hpos _ (reals_in _ _ Ht)). }
  destruct (xrun_events_okp m evt rl E fuel start end_state (reals lex) o (erase c') Hnest Hnz Hord' Hpos' HE Hx Hwf Hlf)
    as [Okn Inn]. cbn [erase xc_events] in Okn, Inn.
  assert (HI0 : Inv evt E lex 0 (mkPC [mkX 0 0 0 start (TLeaf 0 0 0)] start lex [] [])).
  { constructor; unfold F_of, N_of, U_of, R_of; cbn [pc_stack pc_state pc_lex pc_pending pc_events skips_of nodes_of app map].
    - exists [], O. split; [apply xinv_init; exact Hnz|constructor].
    - reflexivity.
    - exact Hord.
    - apply Forall_forall. intros s Hs. apply (Hsk s Hs).
    - constructor.
    - rewrite next_off_span. apply span_fst_ge; [apply Forall_map; exact Hpos'|exact HE].
    - exact I.
    - constructor. }
  destruct (ploop_inv m evt rl E lex Hord end_state fuel _ _ _ 0 HI0 Hrun (Forall_and Hwf Hlf)) as [A' HI].
  split; [apply merge_okp; [exact (i_m _ _ _ _ _ HI)|exact Okn]|].
  apply Forall_forall. intros ev Hev. apply (proj2 (stream_split (pc_events c'))) in Hev.
  destruct Hev as [Hev|Hev]; [rewrite Forall_forall in Inn; exact (Inn _ Hev)|].
  apply Hsk. rewrite <- (i_acct _ _ _ _ _ HI). apply in_or_app. left. exact Hev.
Qed.
