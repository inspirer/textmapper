(* Proofs about Gram/ActionRefs.v: the slot arithmetic of goParserAction, what numeric, named and first()/last()
   references evaluate to in the state run reaches a site in, the positions convert hands out (with an induction
   principle over convert), and that pick selects an expansion. *)
From Coq Require Import List ZArith Lia.
From TM Require Import Lib.ListX Gram.ActionRefs.
Import ListNotations.
Local Open Scope nat_scope.

Lemma slot_own_entries : forall (base st : list entry) i,
  i < length st -> slot (base ++ st) (length st - i) = nth_error st i.
Proof.
  intros base st i Hi. unfold slot.
  assert (Hk : (length st - i =? 0) = false) by (apply Nat.eqb_neq; lia).
  rewrite Hk. cbn [orb].
  assert (Hl : (length (base ++ st) <? length st - i) = false).
  { apply Nat.ltb_ge. rewrite app_length. lia. }
  rewrite Hl. rewrite app_length.
  replace (length base + length st - (length st - i)) with (length base + i) by lia.
  rewrite nth_error_app2 by lia. f_equal. lia.
Qed.

(* the symbols of the rule seen so far: (position, entry), latest first *)
Definition bindings := list (nat * entry).

Fixpoint b_get (b : bindings) (pos : nat) : option entry :=
  match b with
  | [] => None
  | (p, e) :: r => if Nat.eqb p pos then Some e else b_get r pos
  end.

(* remap + the rule's own stack entries agree with the bindings *)
Definition agree (st : list entry) (rm : remap) (b : bindings) : Prop :=
  forall pos,
    match rm_get rm pos with
    | Some i => exists e, nth_error st i = Some e /\ b_get b pos = Some e
    | None => b_get b pos = None
    end.

Lemma agree_nil : agree [] [] [].
Proof. intro pos. reflexivity. Qed.

Lemma agree_push : forall st rm b x, agree st rm b -> agree (st ++ [x]) rm b.
Proof.
  intros st rm b x H pos. specialize (H pos). destruct (rm_get rm pos) as [i|]; [|exact H].
  destruct H as (e & Hn & Hb). exists e. split; [|exact Hb].
  rewrite nth_error_app1; [exact Hn|]. apply nth_error_Some. congruence.
Qed.

Lemma agree_bind : forall st rm b pos c,
  agree st rm b -> agree (st ++ [c]) ((pos, length st) :: rm) ((pos, c) :: b).
Proof.
  intros st rm b pos c H pos'. cbn [rm_get b_get].
  destruct (Nat.eqb pos pos') eqn:E.
  - exists c. split; [|reflexivity]. rewrite nth_error_app2 by lia. now rewrite Nat.sub_diag.
  - apply (agree_push st rm b c H pos').
Qed.

Definition absent_arg (pr : prop) : arg := match pr with PValue => ANil | _ => AM1 end.

(* what the generated stack expression finds for a position: the entry bound to it *)
Lemma agree_slot : forall st rm b base p, agree st rm b ->
  match b_get b p with
  | Some e => exists i, rm_get rm p = Some i /\ slot (base ++ st) (length st - i) = Some e
  | None => rm_get rm p = None
  end.
Proof.
  intros st rm b base p H. specialize (H p). destruct (rm_get rm p) as [i|]; [|rewrite H; reflexivity].
  destruct H as (e & Hn & ->). exists i. split; [reflexivity|].
  rewrite slot_own_entries by (apply nth_error_Some; congruence). exact Hn.
Qed.

(* $N / ${N.offset} / ${N.endoffset} *)
Lemma eval_num_binds : forall ca rm st b base lhs n pr,
  agree st rm b -> S n < ca_maxpos ca ->
  eval_ref ca rm (length st) (base ++ st) lhs (RNum n) pr =
    match b_get b (S n) with
    | Some e => entry_arg e pr
    | None => absent_arg pr
    end.
Proof.
  intros ca rm st b base lhs n pr H Hmax. unfold eval_ref, locate, resolve.
  assert (Hle : (ca_maxpos ca <=? S n) = false) by (apply Nat.leb_gt; lia).
  rewrite Hle. pose proof (agree_slot st rm b base (S n) H) as Hs. destruct (b_get b (S n)) as [e|].
  - destruct Hs as (i & -> & Hs). rewrite Hs, Nat.eqb_refl. now destruct pr.
  - rewrite Hs. reflexivity.
Qed.

Definition present (b : bindings) (p : nat) : bool := match b_get b p with Some _ => true | None => false end.

Lemma filter_agree : forall st rm b ps, agree st rm b ->
  filter (fun p => match rm_get rm p with Some _ => true | None => false end) ps = filter (present b) ps.
Proof.
  intros st rm b ps H. apply filter_ext. intro p. unfold present. specialize (H p).
  destruct (rm_get rm p); [destruct H as (e & _ & Hb); now rewrite Hb | now rewrite H].
Qed.

(* $name / ${name.offset} / ${name.endoffset}: first / last position of the alias that is present *)
Lemma eval_name_binds : forall ca rm st b base lhs nm ps pr,
  agree st rm b -> nm_get (ca_names ca) nm = Some ps -> ps <> [] ->
  eval_ref ca rm (length st) (base ++ st) lhs (RName nm) pr =
    match filter (present b) ps with
    | [] => absent_arg pr
    | a0 :: rest =>
        match b_get b a0, b_get b (last (a0 :: rest) a0) with
        | Some e0, Some e1 =>
            match pr with
            | POffset => AInt (e_off e0)
            | PEndoffset => AInt (e_end e1)
            | PValue => match rest with
                        | [] => val_arg (e_val e0)
                        | _ => eval_ref ca rm (length st) (base ++ st) lhs (RName nm) PValue
                        end
            end
        | _, _ => AErr 4
        end
    end.
Proof.
  intros ca rm st b base lhs nm ps pr H Hn Hne. unfold eval_ref at 1, locate, resolve. rewrite Hn.
  destruct ps as [|p0 ps']; [congruence|].
  rewrite (filter_agree st rm b (p0 :: ps') H).
  destruct (filter (present b) (p0 :: ps')) as [|a0 rest] eqn:F; [reflexivity|].
  assert (Hp : forall p, In p (a0 :: rest) -> exists i e, rm_get rm p = Some i /\ b_get b p = Some e /\ slot (base ++ st) (length st - i) = Some e).
  { intros p Hp. rewrite <- F in Hp. apply filter_In in Hp. destruct Hp as [_ Hp]. unfold present in Hp.
    pose proof (agree_slot st rm b base p H) as Hs. destruct (b_get b p) as [e|]; [|discriminate].
    destruct Hs as (i & Hi & Hs). exists i, e. auto. }
  unfold last_of. destruct (Hp a0 (or_introl eq_refl)) as (i0 & e0 & R0 & B0 & S0).
  destruct (Hp _ (last_In (a0 :: rest) a0 ltac:(discriminate))) as (i1 & e1 & R1 & B1 & S1). rewrite R0, R1, B0, B1.
  destruct pr; rewrite ?S0, ?S1; try reflexivity. destruct rest as [|r1 rest'].
  - cbn [last] in R1. assert (i1 = i0) by congruence. subst i1. rewrite Nat.eqb_refl. reflexivity.
  - unfold eval_ref, locate, resolve. rewrite Hn, (filter_agree st rm b (p0 :: ps') H), F. unfold last_of. rewrite R0, R1, S0. reflexivity.
Qed.

Fixpoint state_after (ls : list litem) (st : list entry) (rm : remap) (b : bindings) (children : list entry) (cur : Z)
  : option (list entry * remap * bindings * list entry * Z) :=
  match ls with
  | [] => Some (st, rm, b, children, cur)
  | LRef pos :: r =>
      match children with
      | [] => None
      | c :: cs => state_after r (st ++ [c]) (if 0 <? pos then (pos, length st) :: rm else rm)
                               (if 0 <? pos then (pos, c) :: b else b) cs (e_end c)
      end
  | LMid _ :: r => state_after r (st ++ [mkE VNil cur cur]) rm b children cur
  | LFinal _ :: r => state_after r st rm b children cur
  | LMark _ :: r => state_after r st rm b children cur
  end.

(* which of the entries a rule pushes belong to a symbol with a position *)
Definition entry_tag (x : litem) : list bool :=
  match x with LRef pos => [0 <? pos] | LMid _ => [false] | LFinal _ | LMark _ => [] end.

Definition entry_tags (ls : list litem) : list bool := flat_map entry_tag ls.

Definition tagged (st : list entry) (rm : remap) (tags : list bool) : Prop :=
  length st = length tags /\ forall i, has_pos rm i = nth i tags false.

Lemma nth_snoc : forall (A : Type) (l : list A) x d i, nth i (l ++ [x]) d = if i =? length l then x else nth i l d.
Proof.
  intros A l x d i. destruct (Nat.eqb_spec i (length l)) as [->|Hne]; [rewrite app_nth2, Nat.sub_diag by lia; reflexivity|].
  destruct (Nat.lt_ge_cases i (length l)); [apply app_nth1; assumption|].
  rewrite !nth_overflow by (rewrite ?app_length; simpl; lia). reflexivity.
Qed.

Lemma tagged_push : forall st rm tags x, tagged st rm tags -> tagged (st ++ [x]) rm (tags ++ [false]).
Proof.
  intros st rm tags x [Hl Hi]. split; [rewrite !app_length; cbn; lia|]. intro i. rewrite nth_snoc, Hi.
  destruct (Nat.eqb_spec i (length tags)) as [->|_]; [apply nth_overflow; lia|reflexivity].
Qed.

Lemma tagged_bind : forall st rm tags pos x,
  tagged st rm tags -> tagged (st ++ [x]) ((pos, length st) :: rm) (tags ++ [true]).
Proof.
  intros st rm tags pos x [Hl Hi]. split; [rewrite !app_length; cbn; lia|].
  intro i. unfold has_pos. cbn [existsb snd]. fold (has_pos rm i).
  rewrite nth_snoc, Hi, Hl, (Nat.eqb_sym (length tags) i). destruct (i =? length tags); reflexivity.
Qed.

(* running up to a site keeps the stack, the remap and the bindings in agreement, and the remap marks exactly the
   entries of symbols with a position *)
Lemma state_after_inv : forall ls st rm b ch cur st' rm' b' ch' cur' tags,
  agree st rm b -> tagged st rm tags -> state_after ls st rm b ch cur = Some (st', rm', b', ch', cur') ->
  agree st' rm' b' /\ tagged st' rm' (tags ++ entry_tags ls).
Proof.
  induction ls as [|x ls IH]; intros st rm b ch cur st' rm' b' ch' cur' tags Ha Ht E.
  - cbn in E. inversion E; subst. unfold entry_tags. cbn. rewrite app_nil_r. split; assumption.
  - unfold entry_tags. cbn [flat_map]. fold (entry_tags ls). rewrite app_assoc.
    destruct x as [pos|cs|cs|m]; cbn [state_after entry_tag] in *; rewrite ?app_nil_r.
    + destruct ch as [|c ch0]; [discriminate|].
      refine (IH _ _ _ _ _ _ _ _ _ _ _ _ _ E); destruct (0 <? pos); auto using agree_bind, agree_push, tagged_bind, tagged_push.
    + exact (IH _ _ _ _ _ _ _ _ _ _ _ (agree_push _ _ _ _ Ha) (tagged_push _ _ _ _ Ht) E).
    + exact (IH _ _ _ _ _ _ _ _ _ _ _ Ha Ht E).
    + exact (IH _ _ _ _ _ _ _ _ _ _ _ Ha Ht E).
Qed.

Lemma state_after_start : forall l1 ch start st rm b ch' cur,
  state_after l1 [] [] [] ch start = Some (st, rm, b, ch', cur) -> agree st rm b /\ tagged st rm (entry_tags l1).
Proof.
  intros l1 ch start st rm b ch' cur E. apply (state_after_inv l1 [] [] [] ch start st rm b ch' cur []); [apply agree_nil| |exact E].
  split; [reflexivity|intro i; now destruct i].
Qed.

Lemma run_app : forall tab cas l1 l2 base st rm b ch cur st' rm' b' ch' cur',
  state_after l1 st rm b ch cur = Some (st', rm', b', ch', cur') ->
  run tab cas (l1 ++ l2) base st rm ch cur =
  run tab cas l1 base st rm ch cur ++ run tab cas l2 base st' rm' ch' cur'.
Proof.
  induction l1 as [|x l1 IH]; intros l2 base st rm b ch cur st' rm' b' ch' cur' E.
  - cbn in E. inversion E; subst. reflexivity.
  - destruct x as [pos|cs|cs|m]; cbn [state_after] in E; cbn [app run].
    + destruct ch as [|c ch0]; [discriminate|]. eapply IH; exact E.
    + rewrite <- app_assoc. f_equal. eapply IH; exact E.
    + rewrite <- app_assoc. f_equal. eapply IH; exact E.
    + eapply IH; exact E.
Qed.

Lemma eval_first_binds : forall ca rm st base lhs pr,
  eval_ref ca rm (length st) (base ++ st) lhs RFirst pr =
    match st with
    | [] => absent_arg pr
    | e0 :: _ => if has_pos rm 0 then entry_arg e0 pr else AErr 7
    end.
Proof.
  intros ca rm st base lhs pr. unfold eval_ref, locate.
  destruct st as [|e0 st']; [now destruct pr|].
  change (length (e0 :: st') =? 0) with false. cbv iota.
  destruct (has_pos rm 0); [|reflexivity].
  rewrite Nat.eqb_refl.
  assert (H : 0 < length (e0 :: st')) by (cbn; lia).
  pose proof (slot_own_entries base (e0 :: st') 0 H) as S0. rewrite S0. cbn [nth_error].
  now destruct pr.
Qed.

Lemma eval_last_binds : forall ca rm st base lhs pr,
  eval_ref ca rm (length st) (base ++ st) lhs RLast pr =
    match rev st with
    | [] => absent_arg pr
    | e1 :: _ => if has_pos rm (length st - 1) then entry_arg e1 pr else AErr 7
    end.
Proof.
  intros ca rm st base lhs pr. unfold eval_ref, locate.
  destruct (rev st) as [|e1 r] eqn:E.
  - assert (st = []) by (rewrite <- (rev_involutive st), E; reflexivity). subst st. now destruct pr.
  - assert (Hst : st = rev r ++ [e1]) by (rewrite <- (rev_involutive st), E; reflexivity).
    assert (Hl : length st = S (length r)) by (rewrite Hst, app_length, rev_length; cbn; lia).
    assert (Hz : (length st =? 0) = false) by (apply Nat.eqb_neq; lia). rewrite Hz.
    destruct (has_pos rm (length st - 1)); [|reflexivity].
    rewrite Nat.eqb_refl.
    assert (H : length st - 1 < length st) by lia.
    rewrite (slot_own_entries base st (length st - 1) H).
    assert (Hn : nth_error st (length st - 1) = Some e1).
    { rewrite Hst at 1. rewrite nth_error_app2 by (rewrite rev_length; lia).
      rewrite rev_length. replace (length st - 1 - length r) with 0 by lia. reflexivity. }
    rewrite Hn. now destruct pr.
Qed.

Theorem first_last_bind : forall ca l1 ch start st rm b ch' cur base lhs pr,
  state_after l1 [] [] [] ch start = Some (st, rm, b, ch', cur) ->
  eval_ref ca rm (length st) (base ++ st) lhs RFirst pr =
    match st with
    | [] => absent_arg pr
    | e0 :: _ => if hd false (entry_tags l1) then entry_arg e0 pr else AErr 7
    end /\
  eval_ref ca rm (length st) (base ++ st) lhs RLast pr =
    match rev st with
    | [] => absent_arg pr
    | e1 :: _ => if hd false (rev (entry_tags l1)) then entry_arg e1 pr else AErr 7
    end.
Proof.
  intros ca l1 ch start st rm b ch' cur base lhs pr E.
  destruct (state_after_start _ _ _ _ _ _ _ _ E) as [_ [Hl Hi]].
  split.
  - rewrite eval_first_binds. destruct st as [|e0 st']; [reflexivity|].
    rewrite Hi. destruct (entry_tags l1); [discriminate Hl | reflexivity].
  - rewrite eval_last_binds. destruct (rev st) as [|e1 r] eqn:Er; [reflexivity|].
    rewrite Hi, Hl.
    assert (Hn : forall (t : list bool), t <> [] -> nth (length t - 1) t false = hd false (rev t)).
    { intros t Ht. destruct (rev t) as [|x r'] eqn:Et.
      - exfalso. apply Ht. rewrite <- (rev_involutive t), Et. reflexivity.
      - assert (t = rev r' ++ [x]) by (rewrite <- (rev_involutive t), Et; reflexivity). subst t.
        rewrite app_length, rev_length. cbn [length hd]. rewrite app_nth2 by (rewrite rev_length; lia).
        rewrite rev_length. replace (length r' + 1 - 1 - length r') with 0 by lia. reflexivity. }
    rewrite Hn; [reflexivity|].
    intro Ht. rewrite Ht in Hl. cbn in Hl. apply length_zero_iff_nil in Hl. subst st. discriminate Er.
Qed.

Lemma in_multi_concat_iff : forall xs ys z,
  In z (multi_concat xs ys) <-> exists x y, In x xs /\ In y ys /\ z = x ++ y.
Proof.
  intros xs ys z. unfold multi_concat. rewrite in_flat_map. split.
  - intros (x & Hx & Hz). apply in_map_iff in Hz. destruct Hz as (y & <- & Hy). now exists x, y.
  - intros (x & y & Hx & Hy & ->). exists x. split; [exact Hx|]. apply in_map_iff. now exists y.
Qed.

Lemma in_multi_concat : forall xs ys x y, In x xs -> In y ys -> In (x ++ y) (multi_concat xs ys).
Proof. intros xs ys x y Hx Hy. apply in_multi_concat_iff. now exists x, y. Qed.

Lemma pick_in_expand : forall p sel, In (fst (pick p sel)) (expand p).
Proof.
  induction p; intro sel; cbn [pick expand].
  - now left.
  - now left.
  - now left.
  - destruct sel as [|[|] r]; cbn [fst].
    + apply in_or_app. right. now left.
    + apply in_or_app. left. apply IHp.
    + apply in_or_app. right. now left.
  - specialize (IHp1 sel). destruct (pick p1 sel) as [x r] eqn:E1. specialize (IHp2 r).
    destruct (pick p2 r) as [y r2] eqn:E2. cbn [fst] in *. now apply in_multi_concat.
  - destruct sel as [|[|] r]; apply in_or_app; [left; apply IHp1 | right; apply IHp2 | left; apply IHp1].
  - apply IHp.
  - apply IHp.
  - now left.
  - now left.
Qed.

Fixpoint positions (l : list item) : list nat :=
  match l with
  | [] => []
  | IRef p :: r => p :: positions r
  | ICmd _ :: r => positions r
  | IMark _ :: r => positions r
  end.

Lemma positions_app : forall a b, positions (a ++ b) = positions a ++ positions b.
Proof. induction a as [|[p|c|m] a IH]; intro b; cbn; [reflexivity| now rewrite IH | apply IH | apply IH]. Qed.

(* every position the item list l mentions lies in [lo, hi) *)
Definition within (lo hi : nat) (l : list item) : Prop := Forall (fun p => lo <= p < hi) (positions l).

Fixpoint incr_from (lo : nat) (l : list nat) : Prop :=
  match l with
  | [] => True
  | x :: r => lo <= x /\ incr_from (S x) r
  end.

Lemma incr_from_weaken : forall l lo lo', lo' <= lo -> incr_from lo l -> incr_from lo' l.
Proof. destruct l as [|x r]; intros lo lo' H I; [exact I|]. cbn in *. destruct I. split; [lia|assumption]. Qed.

Lemma incr_from_app : forall a b lo mid, lo <= mid ->
  incr_from lo a -> Forall (fun p => p < mid) a -> incr_from mid b -> incr_from lo (a ++ b).
Proof.
  induction a as [|x a IH]; intros b lo mid Hle Ia Fa Ib; cbn [app].
  - eapply incr_from_weaken; eauto.
  - cbn in Ia. destruct Ia as [Hx Ia]. inversion Fa; subst. cbn. split; [exact Hx|].
    eapply IH; eauto.
Qed.

Lemma incr_from_bound : forall l lo, incr_from lo l -> Forall (fun p => lo <= p) l.
Proof.
  induction l as [|x l IH]; intros lo I; [constructor|]. cbn in I. destruct I as [Hx I].
  constructor; [exact Hx|]. specialize (IH _ I). eapply Forall_impl; [|exact IH]. cbn. intros. lia.
Qed.

(* push_name as one function applied to both maps *)
Definition pn_fun (top : nmap) (nm : N) (ps : list nat) : nmap -> nmap :=
  match nm_get top (nm, Some 0%N) with
  | Some _ => fun m => nm_set m (nm, Some (find_free (S (length top)) top nm 1%N)) ps
  | None =>
      match nm_get top (nm, None) with
      | Some val => fun m => nm_set (nm_del (nm_set m (nm, Some 0%N) val) (nm, None)) (nm, Some 1%N) ps
      | None => fun m => nm_set m (nm, None) ps
      end
  end.

Lemma on_both_twice : forall s f g, on_both (on_both s f) g = on_both s (fun m => g (f m)).
Proof. intros s f g. unfold on_both. destruct (c_stack s); reflexivity. Qed.

Lemma push_name_fun : forall s nm ps, push_name s nm ps = on_both s (pn_fun (c_top s) nm ps).
Proof.
  intros s nm ps. unfold push_name, pn_fun.
  destruct (nm_get (c_top s) (nm, Some 0%N)); [reflexivity|].
  destruct (nm_get (c_top s) (nm, None)); [|reflexivity].
  now rewrite on_both_twice.
Qed.

Lemma on_both_top : forall s f, c_top (on_both s f) = f (c_top s).
Proof. intros s f. unfold on_both. destruct (c_stack s); reflexivity. Qed.

Lemma on_both_stack : forall s f,
  c_stack (on_both s f) = match c_stack s with [] => [] | m :: r => f m :: r end.
Proof. intros s f. unfold on_both. destruct (c_stack s); reflexivity. Qed.

Lemma on_both_cmds : forall s f, c_cmds (on_both s f) = c_cmds s.
Proof. intros s f. unfold on_both. destruct (c_stack s); reflexivity. Qed.

Lemma on_both_pos : forall s f, c_pos (on_both s f) = c_pos s.
Proof. intros s f. unfold on_both. destruct (c_stack s); reflexivity. Qed.

Lemma push_name_pos : forall s nm ps, c_pos (push_name s nm ps) = c_pos s.
Proof. intros s nm ps. rewrite push_name_fun. apply on_both_pos. Qed.

(* the state changes convertPart makes: allocatePos, pushRule, popRule, the push of an alias, a command's snapshot *)
Definition bump (s : cst) : cst := mkC (c_top s) (c_stack s) (S (c_pos s)) (c_cmds s).
Definition push_rule (s : cst) : cst := mkC (c_top s) ([] :: c_stack s) (c_pos s) (c_cmds s).
Definition pop_rule (s : cst) : cst :=
  match c_stack s with
  | child :: parent :: r => mkC (c_top s) (merge_names parent child :: r) (c_pos s) (c_cmds s)
  | [_] => mkC (c_top s) [] (c_pos s) (c_cmds s)
  | [] => s
  end.
Definition alias_push (nm : N) (ps : list nat) (s : cst) : cst := match ps with [] => s | _ => push_name s nm ps end.
Definition add_cmd (c : N) (s : cst) : cst :=
  mkC (c_top s) (c_stack s) (c_pos s) (c_cmds s ++ [(c, mkCA (cur_names s) (c_pos s))]).

Lemma pop_rule_pos s : c_pos (pop_rule s) = c_pos s.
Proof. unfold pop_rule. destruct (c_stack s) as [|child [|parent r]]; reflexivity. Qed.

Lemma alias_push_pos nm ps s : c_pos (alias_push nm ps s) = c_pos s.
Proof. destruct ps; [reflexivity|apply push_name_pos]. Qed.

(* P p s p' s': converting p in state s gives p' and leaves state s' *)
Section ConvertInd.
Variable P : part -> cst -> part -> cst -> Prop.
Hypothesis H_empty : forall s, P PEmpty s PEmpty s.
Hypothesis H_sym : forall sym nm p0 s, P (PSym sym nm p0) s (PSym sym nm (c_pos s)) (push_name (bump s) nm [c_pos s]).
Hypothesis H_list : forall lid p0 s, P (PList lid p0) s (PList lid (c_pos s)) (bump s).
Hypothesis H_opt : forall q s q' s', P q s q' s' -> P (POpt q) s (POpt q') s'.
Hypothesis H_seq : forall a b s a' s1 b' s2, P a s a' s1 -> P b s1 b' s2 -> P (PSeq a b) s (PSeq a' b') s2.
Hypothesis H_choice : forall a b s a' s1 b' s2, P a s a' s1 -> P b s1 b' s2 -> P (PChoice a b) s (PChoice a' b') s2.
Hypothesis H_scope : forall q s q' s1, P q (push_rule s) q' s1 -> P (PScope q) s (PScope q') (pop_rule s1).
Hypothesis H_alias : forall nm q s q' s1, convert q s = (q', s1) -> P q s q' s1 ->
  P (PAlias nm q) s (PAlias nm q') (alias_push nm (collect q') s1).
Hypothesis H_cmd : forall c s, P (PCmd c) s (PCmd c) (add_cmd c s).
Hypothesis H_mark : forall mk s, P (PMark mk) s (PMark mk) s.

Lemma convert_ind : forall p s, P p s (fst (convert p s)) (snd (convert p s)).
Proof.
  induction p; intro s; cbn [convert].
  - apply H_empty.
  - apply H_sym.
  - apply H_list.
  - specialize (IHp s). destruct (convert p s). apply H_opt, IHp.
  - specialize (IHp1 s). destruct (convert p1 s) as [a' s1]. specialize (IHp2 s1). destruct (convert p2 s1).
    exact (H_seq _ _ _ _ _ _ _ IHp1 IHp2).
  - specialize (IHp1 s). destruct (convert p1 s) as [a' s1]. specialize (IHp2 s1). destruct (convert p2 s1).
    exact (H_choice _ _ _ _ _ _ _ IHp1 IHp2).
  - specialize (IHp (push_rule s)). fold (push_rule s). destruct (convert p (push_rule s)). exact (H_scope _ _ _ _ IHp).
  - specialize (IHp s). destruct (convert p s) eqn:E. exact (H_alias nm _ _ _ _ E IHp).
  - apply H_cmd.
  - apply H_mark.
Qed.

End ConvertInd.

Lemma convert_pos_mono : forall p s, c_pos s <= c_pos (snd (convert p s)).
Proof.
  apply (convert_ind (fun _ s _ s' => c_pos s <= c_pos s')); intros;
    rewrite ?push_name_pos, ?pop_rule_pos, ?alias_push_pos; cbn [bump push_rule add_cmd c_pos] in *; lia.
Qed.

Lemma convert_expansions_increasing : forall p s x,
  In x (expand (fst (convert p s))) ->
  incr_from (c_pos s) (positions x) /\ Forall (fun q => q < c_pos (snd (convert p s))) (positions x).
Proof.
  intros p s. refine (proj2 (convert_ind (fun _ s p' s' => c_pos s <= c_pos s' /\ forall x, In x (expand p') ->
    incr_from (c_pos s) (positions x) /\ Forall (fun q => q < c_pos s') (positions x)) _ _ _ _ _ _ _ _ _ _ p s)); clear p s;
    intros; rewrite ?push_name_pos, ?pop_rule_pos, ?alias_push_pos; cbn [bump push_rule add_cmd c_pos expand] in *.
  - split; [lia|]. intros x [<-|[]]. split; constructor.
  - split; [lia|]. intros x [<-|[]]. split; [split; [lia|exact I]|constructor; [lia|constructor]].
  - split; [lia|]. intros x [<-|[]]. split; [split; [lia|exact I]|constructor; [lia|constructor]].
  - rename H into IHq. destruct IHq as [M IH]. split; [exact M|]. intros x Hin.
    apply in_app_or in Hin. destruct Hin as [Hin|[<-|[]]]; [now apply IH|]. split; constructor.
  - rename H into IHa, H0 into IHb. destruct IHa as [M1 IH1], IHb as [M2 IH2]. split; [lia|]. intros x Hin.
    apply in_multi_concat_iff in Hin. destruct Hin as (xa & xb & Ha & Hb & ->).
    destruct (IH1 xa Ha) as [I1 F1]. destruct (IH2 xb Hb) as [I2 F2]. rewrite positions_app. split.
    + eapply incr_from_app; [exact M1| exact I1 | exact F1 | exact I2].
    + apply Forall_app. split; [|exact F2]. eapply Forall_impl; [|exact F1]. cbn. intros. lia.
  - rename H into IHa, H0 into IHb. destruct IHa as [M1 IH1], IHb as [M2 IH2]. split; [lia|]. intros x Hin.
    apply in_app_or in Hin. destruct Hin as [Ha|Hb].
    + destruct (IH1 x Ha) as [I1 F1]. split; [exact I1|]. eapply Forall_impl; [|exact F1]. cbn. intros. lia.
    + destruct (IH2 x Hb) as [I2 F2]. split; [|exact F2]. eapply incr_from_weaken; [|exact I2]. exact M1.
  - rename H into IHq. exact IHq.
  - rename H0 into IHq. exact IHq.
  - split; [lia|]. intros x [<-|[]]. split; constructor.
  - split; [lia|]. intros x [<-|[]]. split; constructor.
Qed.

Lemma incr_from_NoDup : forall l lo, incr_from lo l -> NoDup l.
Proof.
  induction l as [|x l IH]; intros lo I; [constructor|]. cbn in I. destruct I as [_ I]. constructor.
  - intro Hin. pose proof (incr_from_bound l (S x) I) as F. rewrite Forall_forall in F. specialize (F x Hin). lia.
  - eapply IH; exact I.
Qed.

