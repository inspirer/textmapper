(* C05: what the boolean validators of OptimizeSpec.v say, cell by cell. *)
From Coq Require Import List ZArith Bool Lia.
From TM Require Import Gram.PTables Gram.Optimize Gram.OptimizeSpec Gram.ZTab_proofs.
Import ListNotations.
Local Open Scope Z_scope.

Lemma act_eqb_eq x y : act_eqb x y = true <-> x = y.
Proof.
  destruct x, y; cbn; try (split; [discriminate|discriminate]); try rewrite Z.eqb_eq;
    try (split; [intros ->; reflexivity|intros [= ->]; reflexivity]); tauto.
Qed.

Lemma check_gotos_iff t o terms :
  forallb (fun s => forallb (fun x =>
      let q := goto_state t s x in if q >=? 0 then goto_opt o terms s x =? q else true)
    (map (fun i => terms + i) (zseq (zlength (d_goto t) - 1 - terms)))) (zseq (zlength (d_action t))) = true <->
  (forall s x q, 0 <= s < zlength (d_action t) -> terms <= x < zlength (d_goto t) - 1 ->
     goto_state t s x = q -> 0 <= q -> goto_opt o terms s x = q).
Proof.
  rewrite forallb_zseq. split.
  - intros H s x q Hs Hx <- Hq. specialize (H s Hs). rewrite forallb_zseq_from in H. specialize (H x ltac:(lia)).
    cbn zeta in H. destruct (Z.geb_spec (goto_state t s x) 0); [now apply Z.eqb_eq|lia].
  - intros H s Hs. apply forallb_zseq_from. intros x Hx. cbn zeta.
    destruct (Z.geb_spec (goto_state t s x) 0); [|reflexivity]. apply Z.eqb_eq, H; [exact Hs|lia|reflexivity|assumption].
Qed.

Theorem check_enc_iff t o terms : check_enc t o terms = true <->
  (forall s a, 0 <= s < zlength (d_action t) -> 0 <= a < terms -> action_opt o s a = action_default t s a) /\
  (forall s x q, 0 <= s < zlength (d_action t) -> terms <= x < zlength (d_goto t) - 1 ->
     goto_state t s x = q -> 0 <= q -> goto_opt o terms s x = q).
Proof.
  unfold check_enc. rewrite andb_true_iff, check_gotos_iff, forallb_zseq. apply and_iff_compat_r. split.
  - intros H s a Hs Ha. apply act_eqb_eq. exact (proj1 (forallb_zseq _ _) (H s Hs) a Ha).
  - intros H s Hs. apply forallb_zseq. intros a Ha. apply act_eqb_eq. now apply H.
Qed.

Lemma check_enc_dr_iff t o terms : check_enc_dr t o terms = true <->
  (forall s a, 0 <= s < zlength (d_action t) -> 0 <= a < terms -> cell_ok_dr t o s a = true) /\
  (forall s x q, 0 <= s < zlength (d_action t) -> terms <= x < zlength (d_goto t) - 1 ->
     goto_state t s x = q -> 0 <= q -> goto_opt o terms s x = q).
Proof.
  unfold check_enc_dr. rewrite andb_true_iff, check_gotos_iff, forallb_zseq. apply and_iff_compat_r. split.
  - intros H s a Hs Ha. exact (proj1 (forallb_zseq _ _) (H s Hs) a Ha).
  - intros H s Hs. apply forallb_zseq. intros a Ha. now apply H.
Qed.

Lemma cell_ok_dr_sound t o s a : cell_ok_dr t o s a = true ->
  match action_default t s a with
  | Shift q => action_opt o s a = Shift q
  | Reduce r => action_opt o s a = Reduce r
  | Deep r => action_opt o s a = Deep r
  | Err =>
      (* never a shift; an explicit (nonassoc) error stays an error *)
      (forall q, action_opt o s a <> Shift q) /\
      (zn (d_action t) s < -2 ->
       (exists v, lalr_find (S (length (d_lalr t))) (d_lalr t) (- zn (d_action t) s - 3) a = Some v) ->
       action_opt o s a = Err) /\
      (forall r, action_opt o s a = Reduce r -> is_most_frequent r (row_reductions t s) = true)
  end.
Proof.
  unfold cell_ok_dr. intro H1. destruct (action_default t s a) eqn:Ed; try (now apply act_eqb_eq).
  destruct (zn (d_action t) s <? -2) eqn:E0.
  - destruct (lalr_find _ _ _ a) as [v|] eqn:Ef.
    + apply act_eqb_eq in H1. rewrite H1. split; [discriminate|]. split; [reflexivity|discriminate].
    + destruct (action_opt o s a) eqn:Eo; try discriminate.
      * split; [discriminate|]. split; [intros _ [v Hv]; discriminate|]. intros r' [= <-]. exact H1.
      * split; [discriminate|]. split; [reflexivity|discriminate].
  - apply act_eqb_eq in H1. rewrite H1. split; [discriminate|]. split; [reflexivity|discriminate].
Qed.
