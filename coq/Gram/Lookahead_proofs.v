(* C08: pick succeeds only when one alternative carries one polarity on the input and all others the opposite
   one (pick_spec); so every rule main_loop builds, for any order, selects an alternative whose conjunction holds,
   and the run-time selection of LookaheadRun.v is the unique satisfied alternative. *)
From Coq Require Import List ZArith Bool Lia.
From TM Require Import Lib.ListX Gram.Lookahead Gram.LookaheadRun.
Import ListNotations.
Local Open Scope Z_scope.

Definition dla := mkLA 0 [].

Local Notation go := pick_scan.

Definition pol (input : Z) (l : list lookahead) (j : nat) : option bool := accepts (la_preds (nth j l dla)) input.

(* what one of the two counters of the scan knows about the alternatives l seen so far: c = -1, none of them has
   polarity b; c >= 0, exactly alternative c has; c = -2, several have *)
Definition side (input : Z) (b : bool) (l : list lookahead) (c : Z) : Prop :=
  (c = -1 -> forall j, (j < length l)%nat -> pol input l j = Some (negb b)) /\
  (0 <= c -> (Z.to_nat c < length l)%nat /\
             forall j, (j < length l)%nat -> pol input l j = Some (if Nat.eqb j (Z.to_nat c) then b else negb b)) /\
  (c = -1 \/ c = -2 \/ 0 <= c).

Lemma side_snoc input b l la c v : side input b l c -> accepts (la_preds la) input = Some v ->
  side input b (l ++ [la]) (if eqb v b then (if c =? -1 then Z.of_nat (length l) else -2) else c).
Proof.
  intros (H1 & H2 & H3) Ha. unfold side. rewrite app_length. cbn [length].
  assert (Hp : forall j, (j < length l + 1)%nat ->
               pol input (l ++ [la]) j = if Nat.eqb j (length l) then Some v else pol input l j).
  { intros j Hj. unfold pol. destruct (Nat.eqb_spec j (length l)) as [->|Hne].
    - rewrite app_nth2, Nat.sub_diag by lia. exact Ha.
    - rewrite app_nth1 by lia. reflexivity. }
  destruct (eqb v b) eqn:Ev.
  - apply eqb_prop in Ev. subst v. destruct (Z.eqb_spec c (-1)) as [->|Hc]; (split; [lia|]); (split; [|lia]); [|lia].
    intros _. rewrite Nat2Z.id. split; [lia|]. intros j Hj. rewrite Hp by lia.
    destruct (Nat.eqb j (length l)) eqn:E; [reflexivity|]. apply Nat.eqb_neq in E. apply H1; [reflexivity|lia].
  - apply eqb_false_iff in Ev. assert (Hv : v = negb b) by (destruct v, b; auto; congruence).
    split; [|split; [|exact H3]].
    + intros Hc j Hj. rewrite Hp by lia. destruct (Nat.eqb j (length l)) eqn:E; [congruence|].
      apply Nat.eqb_neq in E. apply H1; [exact Hc|lia].
    + intros Hc. destruct (H2 Hc) as [Hr Hall]. split; [lia|]. intros j Hj. rewrite Hp by lia.
      destruct (Nat.eqb_spec j (length l)) as [->|E]; [|apply Hall; lia].
      destruct (Nat.eqb_spec (length l) (Z.to_nat c)); [lia|congruence].
Qed.

Lemma go_sides input : forall rest pre pos neg pos' neg',
  side input false pre pos -> side input true pre neg -> go input rest (length pre) pos neg = Some (pos', neg') ->
  side input false (pre ++ rest) pos' /\ side input true (pre ++ rest) neg'.
Proof.
  induction rest as [|la rest IH]; intros pre pos neg pos' neg' Hp Hn Hgo; cbn [pick_scan] in Hgo.
  - injection Hgo as <- <-. rewrite app_nil_r. auto.
  - destruct (accepts (la_preds la) input) as [v|] eqn:Ea; [|discriminate].
    pose proof (side_snoc input false pre la pos v Hp Ea) as Hp'. pose proof (side_snoc input true pre la neg v Hn Ea) as Hn'.
    replace (S (length pre)) with (length (pre ++ [la])) in Hgo by (rewrite app_length; cbn; lia).
    rewrite (app_assoc pre [la] rest : pre ++ la :: rest = (pre ++ [la]) ++ rest).
    destruct v; cbn [negb andb eqb] in *; [destruct (neg =? -1)|destruct (pos =? -1)]; eapply IH; eauto.
Qed.

(* what a successful pick means: alternative k carries polarity [negated] on the input, all others
   carry the opposite polarity *)
Theorem pick_spec input las k negated : pick input las = Some (k, negated) ->
  (k < length las)%nat /\
  forall j, (j < length las)%nat ->
    accepts (la_preds (nth j las dla)) input = Some (if Nat.eqb j k then negated else negb negated).
Proof.
  unfold pick. destruct (go input las 0%nat (-1) (-1)) as [[pos neg]|] eqn:Eg; [|discriminate].
  destruct (go_sides input las [] (-1) (-1) pos neg) as [(_ & Hp & _) (_ & Hn & _)]; [| |exact Eg|].
  1,2: split; [intros _ j Hj; cbn in Hj; lia|split; [lia|auto]].
  cbn [app] in Hp, Hn. destruct (pos >=? 0) eqn:Ep; [intros [= <- <-]; apply Hp; lia|].
  destruct (neg >=? 0) eqn:En; [|discriminate]. intros [= <- <-]. apply Hn. lia.
Qed.

Lemma nth_in_without {A} (l : list A) k j d : (j < length l)%nat -> j <> k ->
  In (nth j l d) (firstn k l ++ skipn (S k) l).
Proof.
  intros Hj Hne. apply in_or_app. destruct (Nat.lt_ge_cases j k) as [Hlt|Hge].
  - left. rewrite <- (nth_firstn' l k j d Hlt). apply nth_In. rewrite firstn_length. lia.
  - right. replace j with (S k + (j - S k))%nat by lia. rewrite <- nth_skipn'. apply nth_In.
    rewrite skipn_length. lia.
Qed.

Lemma swap_remove_keeps {A} (l : list A) k j d : (j < length l)%nat -> (k < length l)%nat -> j <> k ->
  In (nth j l d) (swap_remove l k).
Proof.
  intros Hj Hk Hne. unfold swap_remove.
  destruct (rev l) as [|z r] eqn:Er.
  { apply (f_equal (@length A)) in Er. rewrite rev_length in Er. cbn in Er. lia. }
  assert (Hl : l = rev r ++ [z]) by (rewrite <- (rev_involutive l), Er; reflexivity).
  assert (Hrl : removelast l = rev r) by (rewrite Hl; apply removelast_last).
  rewrite Hrl. assert (Hlen : length l = S (length (rev r))) by (rewrite Hl, app_length; cbn; lia).
  destruct (k <? length (rev r))%nat eqn:Ek.
  - apply Nat.ltb_lt in Ek. destruct (Nat.lt_ge_cases j (length (rev r))) as [Hjl|Hjl].
    + rewrite Hl, app_nth1 by exact Hjl.
      pose proof (nth_in_without (rev r) k j d Hjl Hne) as H. apply in_app_iff in H.
      apply in_or_app. destruct H; [now left|right; now right].
    + assert (j = length (rev r)) by lia. subst j. rewrite Hl, app_nth2, Nat.sub_diag by lia. cbn [nth].
      apply in_or_app. right. now left.
  - apply Nat.ltb_ge in Ek. assert (Hjl : (j < length (rev r))%nat) by lia.
    rewrite Hl, app_nth1 by exact Hjl. now apply nth_In.
Qed.

Lemma accepts_holds rho preds input ng :
  accepts preds input = Some ng -> forallb (fun '(i, neg) => xorb (rho i) neg) preds = true ->
  xorb (rho input) ng = true.
Proof.
  induction preds as [|[i neg] rest IH]; cbn [accepts forallb]; [discriminate|].
  intros Ha Hh. apply andb_true_iff in Hh as [H1 H2].
  destruct (i =? input) eqn:E; [apply Z.eqb_eq in E; subst i; now injection Ha as <-|now apply IH].
Qed.

Lemma try_order_pick order : forall i las i' next k negated,
  try_order order i las = Some (i', next, k, negated) -> pick next las = Some (k, negated).
Proof.
  induction order as [|nx rest IH]; intros i las i' next k negated H; cbn [try_order] in H; [discriminate|].
  destruct (pick nx las) as [[k0 n0]|] eqn:Ep; [now injection H as _ <- <- <-|eapply IH; eauto].
Qed.

Lemma eval_cases_app c1 c2 d rho : eval_cases (c1 ++ c2) d rho = eval_cases c1 (eval_cases c2 d rho) rho.
Proof.
  induction c1 as [|[[i n] t] c1 IH]; [reflexivity|]. cbn [app eval_cases]. now rewrite IH.
Qed.

Lemma main_loop_correct : forall fuel las order cases R,
  main_loop fuel las order cases = LaOk R ->
  exists newc, r_cases R = cases ++ newc /\
    forall rho la, In la las -> holds rho la = true -> eval_cases newc (r_default R) rho = la_nonterm la.
Proof.
  induction fuel as [|f IH]; intros las order cases R H; [discriminate|].
  cbn [main_loop] in H. destruct las as [|la0 [|la1 rest]]; [discriminate| |].
  - injection H as <-. exists []. split; [now rewrite app_nil_r|].
    intros rho la [<-|[]] _. reflexivity.
  - set (las := la0 :: la1 :: rest) in *.
    destruct (try_order order 0%nat las) as [[[[i next] k] negated]|] eqn:Et; [|discriminate].
    pose proof (try_order_pick _ _ _ _ _ _ _ Et) as Hp.
    destruct (pick_spec _ _ _ _ Hp) as [Hk Hpol].
    destruct (IH _ _ _ _ H) as [newc' [Hc Hev]].
    exists ((next, negated, la_nonterm (nth k las dla)) :: newc'). split; [now rewrite Hc, <- app_assoc|].
    intros rho la Hin Hh. apply (In_nth _ _ dla) in Hin as [j [Hj Hnth]].
    pose proof (Hpol j Hj) as Ha. rewrite Hnth in Ha.
    pose proof (accepts_holds rho _ _ _ Ha Hh) as Hx. cbn [eval_cases].
    destruct (Nat.eqb j k) eqn:Ejk.
    + apply Nat.eqb_eq in Ejk; subst j. rewrite Hx, Hnth. reflexivity.
    + apply Nat.eqb_neq in Ejk.
      replace (xorb (rho next) negated) with false by (destruct (rho next), negated; cbn in *; congruence).
      apply Hev; [|exact Hh]. rewrite <- Hnth. now apply swap_remove_keeps.
Qed.

(* C08: whenever the set is accepted, every assignment that makes some alternative's conjunction true
   selects that alternative *)
Theorem decision_correct las R : new_rule las = LaOk R ->
  forall rho la, In la las -> holds rho la = true -> eval_rule R rho = la_nonterm la.
Proof.
  unfold new_rule. destruct (build_graph las) as [g top]. destruct (dfs_top g top) as [st depth].
  destruct (d_oof st); [discriminate|]. destruct (d_cycle st); [discriminate|].
  destruct (negb _); [discriminate|]. intro H.
  destruct (main_loop_correct _ _ _ _ _ H) as [newc [Hc Hev]]. cbn [app] in Hc.
  intros rho la Hin Hh. unfold eval_rule. rewrite Hc. now apply Hev.
Qed.

(* hence two alternatives with different targets can never hold together: accepted sets are exclusive *)
Corollary accepted_is_exclusive las R : new_rule las = LaOk R ->
  forall rho la1 la2, In la1 las -> In la2 las -> la_nonterm la1 <> la_nonterm la2 ->
  holds rho la1 = true -> holds rho la2 = true -> False.
Proof.
  intros H rho la1 la2 H1 H2 Hne Hh1 Hh2.
  pose proof (decision_correct las R H rho la1 H1 Hh1). pose proof (decision_correct las R H rho la2 H2 Hh2). congruence.
Qed.

Lemma select_correct :
  forall alts rho t nt a,
  select alts rho t = SelOne nt -> In a (group alts t) -> holds rho (a_la a) = true ->
  nt = la_nonterm (a_la a).
Proof.
  intros alts rho t nt a Hs Hin Hh. unfold select in Hs.
  destruct (group alts t) as [|a1 [|a2 g]] eqn:Hg.
  - destruct Hin.
  - destruct Hin as [Heq|[]]. subst a1. now inversion Hs.
  - destruct (new_rule (map a_la (a1 :: a2 :: g))) as [R|w] eqn:Hr; [|discriminate].
    inversion Hs; subst nt.
    eapply decision_correct; [exact Hr| |exact Hh].
    apply in_map. exact Hin.
Qed.

Lemma group_spec : forall alts t a, In a (group alts t) <-> In a alts /\ In t (a_first a).
Proof.
  intros alts t a. unfold group. rewrite filter_In. split; intros [H1 H2]; split; auto.
  - apply existsb_exists in H2. destruct H2 as [x [Hx He]]. apply Z.eqb_eq in He. now subst x.
  - apply existsb_exists. exists t. split; auto. apply Z.eqb_refl.
Qed.

Lemma select_on_correct :
  forall ntok defs alts t rest nt a,
  select_on ntok defs alts (t :: rest) = SelOne nt ->
  In a alts -> In t (a_first a) -> holds (rho_at ntok defs (t :: rest)) (a_la a) = true ->
  nt = la_nonterm (a_la a).
Proof.
  intros ntok defs alts t rest nt a Hs Hin Hf Hh. unfold select_on in Hs.
  eapply select_correct; eauto. apply group_spec. auto.
Qed.

(* two alternatives applicable on the same terminal whose conjunctions both hold reduce to the same
   nonterminal whenever the compiler accepted the set (the generated code cannot be put in a position where
   two different alternatives are both "the" satisfied one) *)
Lemma select_unique :
  forall alts rho t nt a b,
  select alts rho t = SelOne nt -> In a (group alts t) -> In b (group alts t) ->
  holds rho (a_la a) = true -> holds rho (a_la b) = true ->
  la_nonterm (a_la a) = la_nonterm (a_la b).
Proof.
  intros alts rho t nt a b Hs Ha Hb Hha Hhb.
  rewrite <- (select_correct _ _ _ _ _ Hs Ha Hha). now apply (select_correct _ _ _ _ _ Hs Hb Hhb).
Qed.
