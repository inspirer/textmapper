(* gotoState (linear and binary search) is a lookup in the (from, to) pairs of a symbol: used for minimize (C06) and
   for Optimize (C05). Then, for minimize only: insertion sort + compaction of remapped edges. *)
From Coq Require Import List ZArith Bool Lia ZifyBool.
From TM Require Import Lib.ListX Gram.PTables Gram.Optimize Gram.Minimize Gram.ZTab_proofs Gram.MinimizeWf.
Import ListNotations.
Local Open Scope Z_scope.

(* [q] is what a lookup of [s] in the association list [l] may return *)
Definition goto_rel (l : list (Z * Z)) (s q : Z) : Prop :=
  In (s, q) l \/ (q = -1 /\ forall q', ~ In (s, q') l).

Fixpoint pairs_from (ft : list Z) (i : Z) (cnt : nat) : list (Z * Z) :=
  match cnt with O => [] | S c => (zn ft i, zn ft (i + 1)) :: pairs_from ft (i + 2) c end.

Lemma pairs_from_map ft c : forall i,
  map (fun k => (zn ft (i + 2 * k), zn ft (i + 2 * k + 1))) (zseq (Z.of_nat c)) = pairs_from ft i c.
Proof.
  induction c as [|c IH]; intro i; [reflexivity|].
  unfold zseq in *. rewrite Nat2Z.id in *. cbn [seq map pairs_from]. rewrite <- IH, <- seq_shift, !map_map.
  f_equal; [f_equal; f_equal; lia|]. apply map_ext. intro k. f_equal; f_equal; lia.
Qed.

Lemma seg_pairs_from t x :
  seg t x = pairs_from (d_from_to t) (zn (d_goto t) x) (Z.to_nat ((zn (d_goto t) (x + 1) - zn (d_goto t) x) / 2)).
Proof.
  unfold seg. rewrite <- pairs_from_map. f_equal. unfold zseq. now rewrite Nat2Z.id.
Qed.

Lemma pairs_from_In ft c : forall i a b, In (a, b) (pairs_from ft i c) <->
  exists k, 0 <= k < Z.of_nat c /\ a = zn ft (i + 2 * k) /\ b = zn ft (i + 2 * k + 1).
Proof.
  induction c as [|c IH]; intros i a b; cbn [pairs_from In].
  - split; [tauto|]. intros (k & Hk & _). lia.
  - rewrite IH. split.
    + intros [[= <- <-]|(k & Hk & -> & ->)].
      * exists 0. split; [lia|]. split; f_equal; lia.
      * exists (k + 1). split; [lia|]. split; f_equal; lia.
    + intros (k & Hk & -> & ->). destruct (Z.eq_dec k 0) as [->|Hne].
      * left. f_equal; f_equal; lia.
      * right. exists (k - 1). split; [lia|]. split; f_equal; lia.
Qed.

Lemma goto_linear_spec ft s c : forall fuel i, (c < fuel)%nat ->
  goto_rel (pairs_from ft i c) s (goto_linear fuel ft i (i + 2 * Z.of_nat c) s).
Proof.
  induction c as [|c IH]; intros fuel i Hf; (destruct fuel as [|f]; [lia|]); cbn [goto_linear pairs_from].
  - replace (i <? i + 2 * Z.of_nat 0) with false by lia. right. split; [reflexivity|]. intros q' [].
  - replace (i <? i + 2 * Z.of_nat (S c)) with true by lia. destruct (Z.eqb_spec (zn ft i) s) as [E|E].
    + left. left. now rewrite E.
    + replace (i + 2 * Z.of_nat (S c)) with (i + 2 + 2 * Z.of_nat c) by lia.
      destruct (IH f (i + 2) ltac:(lia)) as [H|[H1 H2]].
      * left. right. exact H.
      * right. split; [exact H1|]. intros q' [[= E1 _]|H3]; [contradiction|]. exact (H2 q' H3).
Qed.

Lemma si_cons a l : strictly_increasing (a :: l) = true -> strictly_increasing l = true /\ forall x, In x l -> a < x.
Proof.
  revert a. induction l as [|b l IH]; intros a H; [split; [reflexivity|intros x []]|].
  cbn [strictly_increasing] in H. apply andb_true_iff in H. destruct H as [H1 H2]. split; [exact H2|].
  destruct (IH b H2) as [_ H3]. intros x [<-|Hx]; [lia|]. specialize (H3 x Hx). lia.
Qed.

Lemma si_functional (l : list (Z * Z)) : strictly_increasing (map fst l) = true ->
  forall s q q', In (s, q) l -> In (s, q') l -> q = q'.
Proof.
  induction l as [|[a b] l IH]; intros H s q q' H1 H2; [contradiction|]. cbn [map fst] in H.
  destruct (si_cons _ _ H) as [H3 H4].
  assert (Hno : forall q0, In (a, q0) l -> False).
  { intros q0 Hin. apply (in_map fst) in Hin. apply H4 in Hin. cbn in Hin. lia. }
  destruct H1 as [H1|H1], H2 as [H2|H2]; [congruence| | |now apply (IH H3 s)].
  - injection H1 as -> ->. destruct (Hno _ H2).
  - injection H2 as -> ->. destruct (Hno _ H1).
Qed.

Lemma si_pairs_from ft c : forall i, strictly_increasing (map fst (pairs_from ft i c)) = true ->
  forall j k, 0 <= j < k -> k < Z.of_nat c -> zn ft (i + 2 * j) < zn ft (i + 2 * k).
Proof.
  induction c as [|c IH]; intros i H j k Hj Hk; [lia|]. cbn [pairs_from map fst] in H.
  destruct (si_cons _ _ H) as [H1 H2]. destruct (Z.eq_dec j 0) as [->|Hne].
  - replace (i + 2 * 0) with i by lia. apply H2. apply (in_map fst _ (zn ft (i + 2 * k), zn ft (i + 2 * k + 1))).
    apply pairs_from_In. exists (k - 1). split; [lia|]. split; f_equal; lia.
  - specialize (IH (i + 2) H1 (j - 1) (k - 1) ltac:(lia) ltac:(lia)).
    now replace (i + 2 + 2 * (j - 1)) with (i + 2 * j) in IH by lia; replace (i + 2 + 2 * (k - 1)) with (i + 2 * k) in IH by lia.
Qed.

Lemma si_pairs_from_adjacent ft c : forall i,
  (forall k, 0 <= k -> k + 1 < Z.of_nat c -> zn ft (i + 2 * k) < zn ft (i + 2 * (k + 1))) ->
  strictly_increasing (map fst (pairs_from ft i c)) = true.
Proof.
  induction c as [|c IH]; intros i H; [reflexivity|]. specialize (IH (i + 2)).
  destruct c as [|c]; [reflexivity|]. cbn [pairs_from map fst strictly_increasing] in *. apply andb_true_iff. split.
  - specialize (H 0 ltac:(lia) ltac:(lia)). replace (i + 2 * 0) with i in H by lia.
    replace (i + 2 * (0 + 1)) with (i + 2) in H by lia. lia.
  - apply IH. intros k Hk Hk1. specialize (H (k + 1) ltac:(lia) ltac:(lia)).
    replace (i + 2 * (k + 1)) with (i + 2 + 2 * k) in H by lia.
    now replace (i + 2 * (k + 1 + 1)) with (i + 2 + 2 * (k + 1)) in H by lia.
Qed.

(* the probe (min+max)>>1 &^ 1 falls on the pair in the middle *)
Lemma bin_mid base a b : base mod 2 = 0 -> Z.shiftr (base + 2 * a + (base + 2 * b)) 1 / 2 * 2 = base + 2 * ((a + b) / 2).
Proof. intro H. rewrite Z.shiftr_div_pow2 by lia. change (2 ^ 1) with 2. Z.div_mod_to_equations. lia. Qed.

(* the invariant of the search: every occurrence of the key lies in the window [a, b) *)
Lemma goto_binary_spec ft s base c : base mod 2 = 0 -> strictly_increasing (map fst (pairs_from ft base c)) = true ->
  forall fuel a b, 0 <= a <= b -> b <= Z.of_nat c -> (Z.to_nat (b - a) < fuel)%nat ->
  (forall k, 0 <= k < Z.of_nat c -> zn ft (base + 2 * k) = s -> a <= k < b) ->
  goto_rel (pairs_from ft base c) s (goto_binary fuel ft (base + 2 * a) (base + 2 * b) s).
Proof.
  intros Hb Hsi. pose proof (si_pairs_from ft c base Hsi) as Hmono. clear Hsi.
  induction fuel as [|f IH]; intros a b Hab Hbc Hf Hwin; [lia|]. cbn [goto_binary].
  destruct (Z.ltb_spec (base + 2 * a) (base + 2 * b)).
  2:{ right. split; [reflexivity|]. intros q' Hin. destruct (proj1 (pairs_from_In _ _ _ _ _) Hin) as (k & Hk & E & _).
      specialize (Hwin k Hk (eq_sym E)). lia. }
  cbv zeta. rewrite (bin_mid base a b Hb). set (mid := (a + b) / 2).
  assert (Hmid : a <= mid < b) by (split; [apply Z.div_le_lower_bound|apply Z.div_lt_upper_bound]; lia).
  destruct (Z.eqb_spec (zn ft (base + 2 * mid)) s) as [E1|E1].
  { left. apply (proj2 (pairs_from_In _ _ _ _ _)). exists mid. split; [lia|]. split; [now symmetry|reflexivity]. }
  (* the keys on the far side of the probe are all smaller (larger) than the sought one *)
  destruct (Z.ltb_spec (zn ft (base + 2 * mid)) s) as [E2|E2].
  - replace (base + 2 * mid + 2) with (base + 2 * (mid + 1)) by lia. apply IH; [lia..|].
    intros k Hk E. specialize (Hwin k Hk E). destruct (Z_lt_le_dec k mid) as [Hlt|Hge]; [|assert (k <> mid) by congruence; lia].
    pose proof (Hmono k mid ltac:(lia) ltac:(lia)). lia.
  - apply IH; [lia..|].
    intros k Hk E. specialize (Hwin k Hk E). destruct (Z_lt_le_dec mid k) as [Hlt|Hge]; [|assert (k <> mid) by congruence; lia].
    pose proof (Hmono mid k ltac:(lia) ltac:(lia)). lia.
Qed.

(* the part of wf_goto_sym that the search needs *)
Definition goto_layout_ok (t : default_enc) (x : Z) : Prop :=
  let mn := zn (d_goto t) x in let mx := zn (d_goto t) (x + 1) in
  0 <= mn <= mx /\ mx <= zlength (d_from_to t) /\ mn mod 2 = 0 /\ mx mod 2 = 0 /\
  strictly_increasing (map fst (seg t x)) = true.

Theorem goto_state_spec t x s : goto_layout_ok t x -> goto_rel (seg t x) s (goto_state t s x).
Proof.
  intros (H1 & H2 & H3 & H4 & H5). rewrite seg_pairs_from in *. unfold goto_state.
  set (mn := zn (d_goto t) x) in *. set (mx := zn (d_goto t) (x + 1)) in *. set (ft := d_from_to t) in *.
  set (c := Z.to_nat ((mx - mn) / 2)) in *.
  assert (Hmx : mx = mn + 2 * Z.of_nat c) by (unfold c; Z.div_mod_to_equations; lia).
  assert (Hc : (c < S (length ft))%nat) by (unfold zlength in H2; lia).
  rewrite Hmx. destruct (mn + 2 * Z.of_nat c - mn <? 32); [now apply goto_linear_spec|].
  pose proof (goto_binary_spec ft s mn c H3 H5 (S (length ft)) 0 (Z.of_nat c)) as Hb.
  rewrite Z.mul_0_r, Z.add_0_r in Hb. apply Hb; [lia|lia|lia|tauto].
Qed.

Lemma goto_rel_functional l s q q' : strictly_increasing (map fst l) = true -> goto_rel l s q -> goto_rel l s q' -> q = q'.
Proof.
  intros Hsi [H1|[-> H1]] [H2|[-> H2]]; [eapply si_functional; eauto| | |reflexivity].
  - exfalso. eapply H2; eauto.
  - exfalso. eapply H1; eauto.
Qed.

Fixpoint nondec (l : list Z) : bool :=
  match l with a :: (b :: _) as rest => (a <=? b) && nondec rest | _ => true end.

(* inserting above a lower bound [lo] that sits in front of the list *)
Lemma insert_edge_by e l : insert_edge e l = insert_by (fun e x => fst e <? fst x) e l.
Proof. reflexivity. Qed.

Lemma insert_edge_nondec_from e : forall l lo, lo <= fst e -> nondec (lo :: map fst l) = true ->
  nondec (lo :: map fst (insert_edge e l)) = true.
Proof.
  induction l as [|y l IH]; intros lo Hlo H; cbn [insert_edge map nondec] in *; [lia|].
  apply andb_true_iff in H. destruct H as [H1 H2]. destruct (Z.ltb_spec (fst e) (fst y)); cbn [map nondec].
  - rewrite H2. lia.
  - rewrite (IH (fst y)) by (assumption || lia). lia.
Qed.

Lemma insert_edge_nondec e l : nondec (map fst l) = true -> nondec (map fst (insert_edge e l)) = true.
Proof.
  destruct l as [|y l]; intro H; [reflexivity|]. cbn [insert_edge]. destruct (Z.ltb_spec (fst e) (fst y)).
  - cbn [map nondec] in *. rewrite H. lia.
  - now apply (insert_edge_nondec_from e l (fst y)).
Qed.

Lemma isort_nondec edges : forall acc, nondec (map fst acc) = true ->
  nondec (map fst (fold_left (fun acc e => insert_edge e acc) edges acc)) = true.
Proof.
  induction edges as [|e edges IH]; intros acc H; [exact H|]. cbn [fold_left]. apply IH. now apply insert_edge_nondec.
Qed.

Lemma compact_aux_si l : forall prev, nondec (prev :: map fst l) = true ->
  strictly_increasing (prev :: map fst (compact_aux prev l)) = true.
Proof.
  induction l as [|b l IH]; intros prev H; [reflexivity|]. cbn [map] in H. cbn [nondec] in H.
  apply andb_true_iff in H. destruct H as [H1 H2]. cbn [compact_aux]. destruct (Z.eqb_spec (fst b) prev) as [E|E].
  - rewrite E in H2. now apply IH.
  - cbn [map]. change (strictly_increasing (prev :: fst b :: ?r)) with ((prev <? fst b) && strictly_increasing (fst b :: r)).
    rewrite (IH _ H2). lia.
Qed.

Lemma compact_aux_incl l : forall prev x, In x (compact_aux prev l) -> In x l.
Proof.
  induction l as [|b l IH]; intros prev x; cbn [compact_aux]; [tauto|].
  destruct (fst b =? prev); cbn [In]; [intro H; right; eapply IH; eauto|].
  intros [H|H]; [now left|right; eapply IH; eauto].
Qed.

Lemma compact_aux_keeps l : forall prev f q, In (f, q) l -> f = prev \/ exists q', In (f, q') (compact_aux prev l).
Proof.
  induction l as [|b l IH]; intros prev f q; cbn [In compact_aux]; [tauto|].
  destruct (Z.eqb_spec (fst b) prev) as [E|E].
  - intros [->|H]; [left; exact E|]. eapply IH; eauto.
  - intros [->|H].
    + right. exists q. now left.
    + destruct (IH (fst b) f q H) as [->|[q' Hq']].
      * right. exists (snd b). left. now destruct b.
      * right. exists q'. now right.
Qed.

(* sort + compact of a functional edge list is a lookup table for the same function *)
Definition rebuilt (edges : list (Z * Z)) : list (Z * Z) :=
  compact_by_from (fold_left (fun acc e => insert_edge e acc) edges []).

Lemma rebuilt_spec edges :
  strictly_increasing (map fst (rebuilt edges)) = true /\
  (forall x, In x (rebuilt edges) -> In x edges) /\
  (forall f q, In (f, q) edges -> exists q', In (f, q') (rebuilt edges)).
Proof.
  unfold rebuilt. pose proof (isort_nondec edges [] eq_refl) as Hs.
  assert (Hin : forall x, In x (fold_left (fun acc e => insert_edge e acc) edges []) <-> In x edges \/ In x []).
  { intro x. rewrite (fold_left_ext _ _ edges [] (fun acc e => insert_edge_by e acc)). apply isort_by_In. }
  destruct (fold_left _ edges []) as [|a l]; cbn [compact_by_from].
  - split; [reflexivity|]. split; [intros x []|]. intros f q H. destruct (proj2 (Hin (f, q)) (or_introl H)).
  - split; [now apply compact_aux_si|]. split.
    + intros x Hx. destruct (Hin x) as [[H|[]] _]; [|exact H].
      destruct Hx as [->|Hx]; [now left|right; eapply compact_aux_incl; eauto].
    + intros f q H. destruct (proj2 (Hin (f, q)) (or_introl H)) as [->|H'']; [exists q; now left|].
      destruct (compact_aux_keeps l (fst a) f q H'') as [->|[q' Hq']].
      * exists (snd a). left. now destruct a.
      * exists q'. now right.
Qed.
