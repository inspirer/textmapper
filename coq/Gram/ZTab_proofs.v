(* The vocabulary of the table models (PTables.v, Optimize.v): zn, zlength, zseq, memz, set_at, Lalr rows read as
   association lists; and insertion into an ordered list, of which the sorts of Minimize.v and Optimize.v are instances. *)
From Coq Require Import List ZArith Lia.
From Coq Require FinFun.
From TM Require Import Lib.ListX Gram.PTables Gram.Optimize.
Import ListNotations.
Local Open Scope Z_scope.

Section InsertBy.
Context {A : Type} (lt : A -> A -> bool).

Fixpoint insert_by (e : A) (l : list A) : list A :=
  match l with
  | [] => [e]
  | x :: rest => if lt e x then e :: l else x :: insert_by e rest
  end.

Lemma insert_by_In e l x : In x (insert_by e l) <-> e = x \/ In x l.
Proof.
  induction l as [|y l IH]; cbn [insert_by In]; [reflexivity|].
  destruct (lt e y); cbn [In]; [reflexivity|]. rewrite IH. split; intros [H|[H|H]]; auto.
Qed.

Lemma isort_by_In l : forall acc x, In x (fold_left (fun acc e => insert_by e acc) l acc) <-> In x l \/ In x acc.
Proof.
  induction l as [|e l IH]; intros acc x; cbn [fold_left In]; [tauto|].
  rewrite IH, insert_by_In. split; [intros [H|[H|H]]|intros [[H|H]|H]]; auto.
Qed.
End InsertBy.

Lemma zlength_nonneg l : 0 <= zlength l.
Proof. unfold zlength. lia. Qed.

Lemma zn_nonneg l i : 0 <= i -> zn l i = nth (Z.to_nat i) l (-1000000).
Proof. intro H. unfold zn. destruct (Z.ltb_spec i 0); [lia|reflexivity]. Qed.

Lemma zn_nth l i d : 0 <= i < zlength l -> zn l i = nth (Z.to_nat i) l d.
Proof. unfold zn, zlength. intro H. destruct (Z.ltb_spec i 0); [lia|]. apply nth_indep. lia. Qed.

Lemma zn_nth_error l i v : 0 <= i -> nth_error l (Z.to_nat i) = Some v -> zn l i = v.
Proof. intros H Hn. unfold zn. destruct (Z.ltb_spec i 0); [lia|]. now apply nth_error_nth. Qed.

Lemma zn_out l i : ~ (0 <= i < zlength l) -> zn l i = -1000000.
Proof. unfold zn, zlength. intro H. destruct (Z.ltb_spec i 0); [reflexivity|]. apply nth_overflow. lia. Qed.

Lemma zn_app1 l1 l2 i : i < zlength l1 -> zn (l1 ++ l2) i = zn l1 i.
Proof. unfold zn, zlength. intro H. destruct (Z.ltb_spec i 0); [reflexivity|]. apply app_nth1. lia. Qed.

Lemma zn_app2 l1 l2 i : zlength l1 <= i -> zn (l1 ++ l2) i = zn l2 (i - zlength l1).
Proof.
  unfold zlength. intro H. rewrite !zn_nonneg, app_nth2 by lia. f_equal. lia.
Qed.

Lemma zn_map (f : Z -> Z) l i : 0 <= i < zlength l -> zn (map f l) i = f (zn l i).
Proof.
  intro H. rewrite (zn_nth l i (-1000000) H). apply zn_nth_error; [lia|].
  apply map_nth_error, nth_error_nth'. unfold zlength in H. lia.
Qed.

Lemma in_zseq n x : In x (zseq n) <-> 0 <= x < n.
Proof. apply in_map_of_nat_seq. Qed.

Lemma zseq_length n : length (zseq n) = Z.to_nat n.
Proof. unfold zseq. now rewrite map_length, seq_length. Qed.

Lemma NoDup_zseq n : NoDup (zseq n).
Proof. unfold zseq. apply FinFun.Injective_map_NoDup; [|apply seq_NoDup]. intros a b E. lia. Qed.

Lemma nth_error_map_zseq {A} (f : Z -> A) n i : 0 <= i < n -> nth_error (map f (zseq n)) (Z.to_nat i) = Some (f i).
Proof.
  intro H. unfold zseq. apply map_nth_error. rewrite (nth_error_nth' _ 0) by (rewrite map_length, seq_length; lia).
  rewrite (map_nth Z.of_nat _ 0%nat), seq_nth by lia. f_equal. lia.
Qed.

Lemma nth_map_zseq {A} (f : Z -> A) n i d : 0 <= i < n -> nth (Z.to_nat i) (map f (zseq n)) d = f i.
Proof. intro H. apply nth_error_nth. now apply nth_error_map_zseq. Qed.

Lemma zn_map_zseq (f : Z -> Z) n i : 0 <= i < n -> zn (map f (zseq n)) i = f i.
Proof. intro H. apply zn_nth_error; [lia|]. now apply nth_error_map_zseq. Qed.

Lemma nth_zseq n i d : 0 <= i < n -> nth (Z.to_nat i) (zseq n) d = i.
Proof. intro H. rewrite <- (map_id (zseq n)). now apply nth_map_zseq. Qed.

Lemma zn_zseq n i : 0 <= i < n -> zn (zseq n) i = i.
Proof. intro H. rewrite <- (map_id (zseq n)). now apply zn_map_zseq. Qed.

Lemma zlength_map_zseq {A} (f : Z -> A) n : 0 <= n -> Z.of_nat (length (map f (zseq n))) = n.
Proof. intro H. rewrite map_length, zseq_length. lia. Qed.

Lemma forallb_zseq f n : forallb f (zseq n) = true <-> forall x, 0 <= x < n -> f x = true.
Proof. rewrite forallb_forall. split; intros H x Hx; apply H; now apply in_zseq. Qed.

Lemma forallb_zseq_from f b n :
  forallb f (map (fun i => b + i) (zseq n)) = true <-> forall x, b <= x < b + n -> f x = true.
Proof.
  rewrite forallb_forall. split.
  - intros H x Hx. apply H. apply in_map_iff. exists (x - b). split; [lia|]. apply in_zseq. lia.
  - intros H x Hx. apply in_map_iff in Hx. destruct Hx as (i & <- & Hi). apply in_zseq in Hi. apply H. lia.
Qed.

Lemma combine_seq {A B} (g : nat -> B) (l : list A) d : forall s,
  combine (map g (seq s (length l))) l = map (fun i => (g i, nth (i - s) l d)) (seq s (length l)).
Proof.
  induction l as [|x l IH]; intro s; [reflexivity|]. cbn [length seq map combine]. rewrite Nat.sub_diag, IH. f_equal.
  apply map_ext_in. intros i Hi. apply in_seq in Hi. now replace (i - s)%nat with (S (i - S s)) by lia.
Qed.

Lemma map_combine_zseq {A B} (f : Z * A -> B) (l : list A) d :
  map f (combine (zseq (Z.of_nat (length l))) l) =
  map (fun i => f (i, nth (Z.to_nat i) l d)) (zseq (Z.of_nat (length l))).
Proof.
  unfold zseq. rewrite Nat2Z.id, (combine_seq Z.of_nat l d 0), !map_map. apply map_ext. intro i.
  now rewrite Nat2Z.id, Nat.sub_0_r.
Qed.

Lemma memz_In x l : memz x l = true <-> In x l.
Proof.
  unfold memz. rewrite existsb_exists. split.
  - intros [y [Hy E]]. apply Z.eqb_eq in E. now subst.
  - intro H. exists x. split; [exact H|apply Z.eqb_refl].
Qed.

Lemma memz_nIn x l : memz x l = false <-> ~ In x l.
Proof. rewrite <- memz_In. destruct (memz x l); split; congruence. Qed.

Lemma set_at_length l i v : length (set_at l i v) = length l.
Proof.
  unfold set_at. destruct (i <? 0); [reflexivity|]. set (n := Z.to_nat i).
  transitivity (length (firstn n l ++ skipn n l)); [|now rewrite firstn_skipn].
  rewrite !app_length. f_equal. now destruct (skipn n l).
Qed.

Lemma set_at_same l i v : 0 <= i < zlength l -> zn (set_at l i v) i = v.
Proof.
  intro H. unfold set_at, zn, zlength in *. destruct (Z.ltb_spec i 0); [lia|]. set (n := Z.to_nat i).
  assert (Hl : length (firstn n l) = n) by (apply firstn_length_le; lia).
  rewrite app_nth2, Hl, Nat.sub_diag by lia. destruct (skipn n l) eqn:E; [|reflexivity].
  apply (f_equal (@length Z)) in E. rewrite skipn_length in E. cbn in E. lia.
Qed.

Lemma set_at_other l i v j : j <> i -> zn (set_at l i v) j = zn l j.
Proof.
  intro Hne. unfold set_at. destruct (Z.ltb_spec i 0); [reflexivity|].
  unfold zn. destruct (Z.ltb_spec j 0); [reflexivity|].
  set (n := Z.to_nat i). set (m := Z.to_nat j). assert (Hmn : m <> n) by lia.
  transitivity (nth m (firstn n l ++ skipn n l) (-1000000)); [|now rewrite firstn_skipn].
  destruct (Nat.lt_ge_cases m (length (firstn n l))) as [Hlt|Hge].
  - now rewrite !app_nth1 by exact Hlt.
  - rewrite !app_nth2 by exact Hge. destruct (skipn n l) as [|x r] eqn:Es; [reflexivity|].
    apply (f_equal (@length Z)) in Es. rewrite skipn_length in Es. cbn in Es.
    rewrite firstn_length_le in * by lia. destruct (m - n)%nat eqn:E; [lia|reflexivity].
Qed.

(* writing an association list into an array: every slot holds what its last writer put there *)
Section FoldSetAt.
Context {A : Type} (key val : A -> Z).

Lemma fold_set_at_length l : forall init,
  length (fold_left (fun a e => set_at a (key e) (val e)) l init) = length init.
Proof. induction l as [|e l IH]; intro init; cbn [fold_left]; [reflexivity|]. now rewrite IH, set_at_length. Qed.

Lemma fold_set_at_zn l k : forall init, 0 <= k < zlength init ->
  let r := zn (fold_left (fun a e => set_at a (key e) (val e)) l init) k in
  (exists e, In e l /\ key e = k /\ r = val e) \/ ((forall e, In e l -> key e <> k) /\ r = zn init k).
Proof.
  induction l as [|x l IH]; intros init Hk; cbn [fold_left]; [right; split; [intros e []|reflexivity]|].
  destruct (IH (set_at init (key x) (val x))) as [(e & He & Hr)|[Hno Hr]].
  { unfold zlength. now rewrite set_at_length. }
  - left. exists e. split; [now right|exact Hr].
  - cbv zeta. rewrite Hr. destruct (Z.eq_dec (key x) k) as [E|E].
    + left. exists x. split; [now left|]. split; [exact E|]. rewrite E. now apply set_at_same.
    + right. split; [intros e [<-|He]; [exact E|now apply Hno]|]. apply set_at_other. congruence.
Qed.

Lemma fold_set_at_find l k init : NoDup (map key l) -> 0 <= k < zlength init ->
  zn (fold_left (fun a e => set_at a (key e) (val e)) l init) k =
  match find (fun e => key e =? k) l with Some e => val e | None => zn init k end.
Proof.
  intros Hnd Hk. destruct (fold_set_at_zn l k init Hk) as [(e & He & Hke & ->)|[Hno ->]];
    destruct (find _ l) as [e'|] eqn:Ef; try reflexivity.
  - apply find_some in Ef. destruct Ef as [He' Hk']. f_equal. apply (NoDup_map_inj key l Hnd); [assumption..|lia].
  - apply find_none with (x := e) in Ef; [lia|exact He].
  - apply find_some in Ef. destruct Ef as [He' Hk']. destruct (Hno e' He'). lia.
Qed.
End FoldSetAt.

Lemma lalr_row_short l : forall f a, 0 <= a -> (length (lalr_row f l a) <= Z.to_nat (zlength l - a))%nat.
Proof.
  induction f as [|f IH]; intros a Ha; cbn [lalr_row length]; [lia|].
  destruct (Z.geb_spec (zn l a) 0) as [H|H]; cbn [length]; [|lia].
  assert (a < zlength l) by (destruct (Z_lt_le_dec a (zlength l)); [assumption|rewrite zn_out in H; lia]).
  specialize (IH (a + 2) ltac:(lia)). lia.
Qed.

Lemma lalr_row_terms l : forall fuel a e, In e (lalr_row fuel l a) -> 0 <= fst e.
Proof.
  induction fuel as [|f IH]; intros a e H; [contradiction|]. cbn [lalr_row] in H.
  destruct (Z.geb_spec (zn l a) 0); [|contradiction]. destruct H as [<-|H]; [assumption|exact (IH _ _ H)].
Qed.

Lemma lalr_walk_row l x : forall f a, (length (lalr_row f l a) < f)%nat ->
  lalr_walk f l a x =
  match find (fun e => fst e =? x) (lalr_row f l a) with
  | Some e => snd e
  | None => zn l (a + 2 * Z.of_nat (length (lalr_row f l a)) + 1)
  end.
Proof.
  induction f as [|f IH]; intros a Hlen; [lia|]. cbn [lalr_walk lalr_row] in *.
  destruct (zn l a >=? 0).
  - cbn [length find fst snd] in *. destruct (zn l a =? x); cbn [negb andb]; [reflexivity|].
    rewrite IH by lia. destruct (find _ _); [reflexivity|]. f_equal. lia.
  - cbn [andb find length]. f_equal. lia.
Qed.

Definition row_of (t : default_enc) (a : Z) : list (Z * Z) := lalr_row (S (length (d_lalr t))) (d_lalr t) (- a - 3).

Lemma lalr_lookup_terminated t a x : a <= -3 ->
  zn (d_lalr t) (- a - 3 + 2 * Z.of_nat (length (row_of t a)) + 1) = -2 ->
  lalr_lookup t a x = match find (fun e => fst e =? x) (row_of t a) with Some e => snd e | None => -2 end.
Proof.
  intros Ha Hend. unfold lalr_lookup. rewrite lalr_walk_row; [fold (row_of t a); now destruct (find _ _)|].
  pose proof (lalr_row_short (d_lalr t) (S (length (d_lalr t))) (- a - 3)). unfold zlength in *. lia.
Qed.

Lemma lalr_find_row l x : forall fuel a,
  lalr_find fuel l a x = option_map snd (find (fun e => fst e =? x) (lalr_row fuel l a)).
Proof.
  induction fuel as [|f IH]; intro a; cbn [lalr_find lalr_row]; [reflexivity|].
  destruct (zn l a >=? 0); [|reflexivity]. cbn [find fst].
  destruct (zn l a =? x); [reflexivity|apply IH].
Qed.
