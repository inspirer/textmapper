(* First-occurrence numbering (container.IntSliceSet.Insert in a loop / Minimize.number_all), and the numbering of the
   values of a key function ([numbers]) that the partition steps of minimize instantiate. *)
From Coq Require Import List ZArith Lia.
From TM Require Import Lib.ListX Gram.PTables Gram.Optimize Gram.Minimize Gram.ZTab_proofs Gram.Minimize_proofs.
Import ListNotations.
Local Open Scope Z_scope.

Lemma zn_of_nat l k d : (k < length l)%nat -> zn l (Z.of_nat k) = nth k l d.
Proof. intro H. rewrite (zn_nth l _ d) by (unfold zlength; lia). now rewrite Nat2Z.id. Qed.

Lemma zlength_map0 {A} (l : list A) : zlength (map (fun _ => 0) l) = Z.of_nat (length l).
Proof. unfold zlength. now rewrite map_length. Qed.

Lemma index_of_spec sig seen : forall i,
  match index_of sig seen i with
  | Some k => exists j, k = i + Z.of_nat j /\ (j < length seen)%nat /\ nth j seen [] = sig
  | None => ~ In sig seen
  end.
Proof.
  induction seen as [|s rest IH]; intro i; cbn [index_of In]; [tauto|]. destruct (zlist_eqb s sig) eqn:E.
  - apply zlist_eqb_eq in E. exists 0%nat. cbn. split; [lia|]. split; [lia|exact E].
  - assert (s <> sig) by (intro Hs; apply zlist_eqb_eq in Hs; congruence).
    specialize (IH (i + 1)). destruct (index_of sig rest (i + 1)); [|tauto].
    destruct IH as (j & Hk & Hj & Hn). exists (S j). cbn [length nth]. split; [lia|]. split; [lia|exact Hn].
Qed.

Lemma insert_sig_spec seen sig :
  (In sig seen /\ exists k, insert_sig seen sig = (seen, k) /\ 0 <= k < Z.of_nat (length seen) /\ nth (Z.to_nat k) seen [] = sig) \/
  (~ In sig seen /\ insert_sig seen sig = (seen ++ [sig], Z.of_nat (length seen))).
Proof.
  unfold insert_sig. pose proof (index_of_spec sig seen 0) as H. destruct (index_of sig seen 0) as [k|].
  - destruct H as (j & -> & Hj & Hn). left. split; [rewrite <- Hn; now apply nth_In|].
    exists (Z.of_nat j). rewrite Nat2Z.id. split; [reflexivity|]. split; [lia|exact Hn].
  - right. now rewrite zlength_map0.
Qed.

Definition na_step (st : list (list Z) * list Z) (sig : list Z) : list (list Z) * list Z :=
  let '(seen, ids) := st in let '(seen', k) := insert_sig seen sig in (seen', ids ++ [k]).

Lemma number_all_fold sigs :
  number_all sigs = (snd (fold_left na_step sigs ([], [])), Z.of_nat (length (fst (fold_left na_step sigs ([], []))))).
Proof.
  unfold number_all. rewrite (fold_left_ext _ na_step) by (intros [seen ids] sig; reflexivity).
  destruct (fold_left na_step sigs ([], [])) as [seen ids]. cbn [fst snd]. now rewrite zlength_map0.
Qed.

(* [seen] lists the distinct signatures of [done] in the order of their first occurrence, and [ids] points into it *)
Record na_inv (done seen : list (list Z)) (ids : list Z) : Prop := {
  nai_len : length ids = length done;
  nai_nodup : NoDup seen;
  nai_set : forall x, In x seen <-> In x done;
  nai_ids : forall i, (i < length done)%nat ->
     0 <= nth i ids 0 < Z.of_nat (length seen) /\ nth (Z.to_nat (nth i ids 0)) seen [] = nth i done []
}.

Lemma na_step_inv done seen ids sig : na_inv done seen ids ->
  na_inv (done ++ [sig]) (fst (na_step (seen, ids) sig)) (snd (na_step (seen, ids) sig)).
Proof.
  intros [Hl Hnd Hset Hids]. unfold na_step.
  assert (Hlast : forall k, nth (length done) (ids ++ [k]) 0 = k /\ nth (length done) (done ++ [sig]) [] = sig).
  { intro k. rewrite <- Hl at 1. rewrite !app_nth2, !Nat.sub_diag by lia. now split. }
  destruct (insert_sig_spec seen sig) as [(Hin & k & -> & Hk & Hn)|(Hin & ->)]; cbn [fst snd];
    (constructor; [rewrite !app_length; cbn; lia| | |]).
  - exact Hnd.
  - intro x. rewrite in_app_iff, Hset. cbn. split; [tauto|]. intros [Hx|[<-|[]]]; [exact Hx|now apply Hset].
  - intros i Hi. rewrite app_length in Hi. cbn in Hi. destruct (Nat.eq_dec i (length done)) as [->|Hne].
    + destruct (Hlast k) as [-> ->]. now split.
    + rewrite !app_nth1 by lia. apply Hids. lia.
  - apply NoDup_snoc; [exact Hnd|exact Hin].
  - intro x. rewrite !in_app_iff, Hset. tauto.
  - intros i Hi. rewrite !app_length in *. cbn in Hi. destruct (Nat.eq_dec i (length done)) as [->|Hne].
    + destruct (Hlast (Z.of_nat (length seen))) as [-> ->]. cbn [length]. split; [lia|].
      now rewrite Nat2Z.id, app_nth2, Nat.sub_diag by lia.
    + rewrite (app_nth1 ids), (app_nth1 done) by lia. destruct (Hids i ltac:(lia)) as [R1 R2].
      rewrite app_nth1 by lia. split; [lia|exact R2].
Qed.

Lemma na_fold_inv sigs : forall done seen ids, na_inv done seen ids ->
  na_inv (done ++ sigs) (fst (fold_left na_step sigs (seen, ids))) (snd (fold_left na_step sigs (seen, ids))).
Proof.
  induction sigs as [|sig sigs IH]; intros done seen ids Hinv; cbn [fold_left]; [now rewrite app_nil_r|].
  pose proof (na_step_inv _ _ _ sig Hinv) as H. destruct (na_step (seen, ids) sig) as [s1 i1].
  rewrite (app_assoc done [sig] sigs : done ++ sig :: sigs = _). now apply IH.
Qed.

Lemma number_all_inv sigs ids c : number_all sigs = (ids, c) ->
  exists seen, na_inv sigs seen ids /\ c = Z.of_nat (length seen) /\ fold_left na_step sigs ([], []) = (seen, ids).
Proof.
  rewrite number_all_fold. pose proof (na_fold_inv sigs [] [] []) as I.
  destruct (fold_left na_step sigs ([], [])) as [seen ids0]. intros [= <- <-]. exists seen.
  split; [|now split]. apply I. constructor; [reflexivity|constructor|tauto|cbn; lia].
Qed.

Theorem number_all_spec sigs ids c : number_all sigs = (ids, c) ->
  length ids = length sigs /\
  (forall i, (i < length sigs)%nat -> 0 <= nth i ids 0 < c) /\
  (forall i j, (i < length sigs)%nat -> (j < length sigs)%nat -> (nth i ids 0 = nth j ids 0 <-> nth i sigs [] = nth j sigs [])) /\
  (forall k, 0 <= k < c -> exists i, (i < length sigs)%nat /\ nth i ids 0 = k) /\
  (exists seen, NoDup seen /\ (forall x, In x seen <-> In x sigs) /\ c = Z.of_nat (length seen)).
Proof.
  intro H. destruct (number_all_inv _ _ _ H) as (seen & [Hl Hnd Hset Hids] & -> & _).
  (* ids are indices into the duplicate-free [seen]: equal indices, equal entries *)
  assert (Hinj : forall a b, 0 <= a < Z.of_nat (length seen) -> 0 <= b < Z.of_nat (length seen) ->
                   nth (Z.to_nat a) seen [] = nth (Z.to_nat b) seen [] -> a = b).
  { intros a b Ha Hb E. apply (proj1 (NoDup_nth seen []) Hnd) in E; lia. }
  split; [exact Hl|]. split; [intros i Hi; apply (Hids i Hi)|]. split; [|split].
  - intros i j Hi Hj. destruct (Hids i Hi) as [A1 A2], (Hids j Hj) as [B1 B2]. rewrite <- A2, <- B2. split.
    + now intros ->.
    + now apply Hinj.
  - intros k Hk. destruct (In_nth sigs (nth (Z.to_nat k) seen []) []) as (i & Hi & Hn).
    { apply Hset, nth_In. lia. }
    exists i. split; [exact Hi|]. destruct (Hids i Hi) as [A1 A2]. apply Hinj; [assumption..|congruence].
  - now exists seen.
Qed.

Lemma number_all_count_le sigs ids c : number_all sigs = (ids, c) -> 0 <= c <= Z.of_nat (length sigs).
Proof.
  intro H. destruct (number_all_spec _ _ _ H) as (_ & _ & _ & _ & seen & Hnd & Hset & ->). split; [lia|].
  apply inj_le, NoDup_incl_length; [exact Hnd|]. intros x. apply Hset.
Qed.

Theorem number_all_snoc a x ids c : number_all a = (ids, c) ->
  exists k c', number_all (a ++ [x]) = (ids ++ [k], c') /\
    (~ In x a -> k = c /\ c' = c + 1) /\
    (In x a -> c' = c /\ exists j, (j < length a)%nat /\ nth j a [] = x /\ k = nth j ids 0).
Proof.
  intro H. destruct (number_all_inv _ _ _ H) as (seen & [Hl Hnd Hset Hids] & -> & F).
  rewrite number_all_fold, fold_left_app, F. cbn [fold_left na_step].
  destruct (insert_sig_spec seen x) as [(Hin & k & -> & Hk & Hn)|(Hin & ->)]; cbn [fst snd]; rewrite Hset in Hin;
    eexists _, _; (split; [reflexivity|]); (split; intro Hx); try contradiction.
  - split; [reflexivity|]. destruct (In_nth a x [] Hx) as (j & Hj & Hj').
    exists j. split; [exact Hj|]. split; [exact Hj'|]. destruct (Hids j Hj) as [A1 A2].
    rewrite Hj', <- Hn in A2. apply (proj1 (NoDup_nth seen []) Hnd) in A2; lia.
  - rewrite app_length. cbn. lia.
Qed.

Theorem number_all_nodup a : NoDup a -> number_all a = (zseq (Z.of_nat (length a)), Z.of_nat (length a)).
Proof.
  induction a as [|x a IH] using rev_ind; intro Hnd; [reflexivity|].
  assert (Hnd' : NoDup a /\ ~ In x a).
  { apply NoDup_remove in Hnd. rewrite app_nil_r in Hnd. exact Hnd. }
  destruct Hnd' as [Ha Hx]. destruct (number_all_snoc a x _ _ (IH Ha)) as (k & c' & E & N & _).
  destruct (N Hx) as [-> ->]. rewrite E, app_length. cbn [length]. f_equal; [|lia].
  unfold zseq. rewrite !Nat2Z.id. replace (length a + 1)%nat with (S (length a)) by lia.
  rewrite seq_S, map_app. reflexivity.
Qed.

Theorem number_all_nodup_prefix a b ids c : NoDup a -> number_all (a ++ b) = (ids, c) ->
  forall i, (i < length a)%nat -> nth i ids 0 = Z.of_nat i.
Proof.
  intros Hnd. revert ids c. induction b as [|x b IH] using rev_ind; intros ids c H i Hi.
  - rewrite app_nil_r, (number_all_nodup a Hnd) in H. injection H as <- _.
    rewrite <- (Nat2Z.id i) at 1. apply nth_zseq. lia.
  - destruct (number_all (a ++ b)) as [ids0 c0] eqn:E. destruct (number_all_snoc _ x _ _ E) as (k & c' & E' & _).
    rewrite app_assoc, E' in H. injection H as <- _. pose proof (proj1 (number_all_spec _ _ _ E)) as Hl.
    rewrite app_length in Hl. rewrite app_nth1 by lia. now apply (IH ids0 c0).
Qed.

(* [ids] numbers the states by their keys, in the order of first occurrence, with [c] numbers in all *)
Record numbers (key : Z -> list Z) (N : Z) (ids : list Z) (c : Z) : Prop := {
  kn_len : zlength ids = N;
  kn_range : forall s, 0 <= s < N -> 0 <= zn ids s < c;
  kn_eq : forall s s', 0 <= s < N -> 0 <= s' < N -> (zn ids s = zn ids s' <-> key s = key s');
  kn_surj : forall k, 0 <= k < c -> exists s, 0 <= s < N /\ zn ids s = k;
  kn_count : 0 <= c <= N;
  kn_front : forall k, k <= N -> (forall i j, 0 <= i < k -> 0 <= j < k -> key i = key j -> i = j) ->
             forall i, 0 <= i < k -> zn ids i = i
}.

Lemma number_all_keys (key : Z -> list Z) N ids c : 0 <= N -> number_all (map key (zseq N)) = (ids, c) ->
  numbers key N ids c.
Proof.
  intros HN H. destruct (number_all_spec _ _ _ H) as (L & R & E & S & _). pose proof (number_all_count_le _ _ _ H) as C.
  rewrite map_length, zseq_length in *.
  assert (Hzn : forall s, 0 <= s < N -> zn ids s = nth (Z.to_nat s) ids 0) by (intros s Hs; apply zn_nth; unfold zlength; lia).
  constructor; [unfold zlength; lia| | | |lia|].
  - intros s Hs. rewrite Hzn by exact Hs. apply R. lia.
  - intros s s' Hs Hs'. rewrite !Hzn, E, !nth_map_zseq by lia. reflexivity.
  - intros k Hk. destruct (S k Hk) as (i & Hi & Hn). exists (Z.of_nat i). rewrite Hzn, Nat2Z.id by lia. split; [lia|exact Hn].
  - intros k Hk Hinj i Hi. rewrite Hzn by lia.
    rewrite <- (firstn_skipn (Z.to_nat k) (map key (zseq N))) in H.
    assert (Hlen : length (firstn (Z.to_nat k) (map key (zseq N))) = Z.to_nat k)
      by (rewrite firstn_length, map_length, zseq_length; lia).
    rewrite (number_all_nodup_prefix _ _ _ _ ) with (2 := H); [lia| |lia].
    apply (proj2 (NoDup_nth _ [])). intros a b Ha Hb Eab. rewrite Hlen in Ha, Hb.
    rewrite !nth_firstn' in Eab by lia. rewrite <- (Nat2Z.id a), <- (Nat2Z.id b), !nth_map_zseq in Eab by lia.
    apply Hinj in Eab; lia.
Qed.
