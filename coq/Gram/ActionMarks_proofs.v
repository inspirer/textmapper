(* State markers (.name) in Gram/ActionRefs.v: they are transparent for everything an action reference is
   resolved with (positions, Names tables, expansions, actualPos, numRefs, stack slots), and the only effect
   they have on a rule with actions is the rejection [mixes]. *)
From Coq Require Import List.
From TM Require Import Gram.ActionRefs Gram.ActionRefs_proofs.
Import ListNotations.
Local Open Scope nat_scope.

Fixpoint drop_marks (l : list item) : list item :=
  match l with
  | [] => []
  | IMark _ :: r => drop_marks r
  | x :: r => x :: drop_marks r
  end.

Fixpoint drop_lmarks (l : list litem) : list litem :=
  match l with
  | [] => []
  | LMark _ :: r => drop_lmarks r
  | x :: r => x :: drop_lmarks r
  end.

Lemma drop_marks_app : forall a b, drop_marks (a ++ b) = drop_marks a ++ drop_marks b.
Proof.
  induction a as [|[pos|c|m] a IH]; intro b; cbn [app drop_marks]; [reflexivity| | |apply IH]; now rewrite IH.
Qed.

Lemma collect_erase : forall p, collect (erase_marks p) = collect p.
Proof.
  induction p; cbn [erase_marks collect]; try reflexivity; try assumption; now rewrite IHp1, IHp2.
Qed.

(* convertPart: same positions, same names, same CmdArgs snapshots; the converted body is the erased one *)
Lemma convert_erase : forall p s,
  convert (erase_marks p) s = (erase_marks (fst (convert p s)), snd (convert p s)).
Proof.
  apply convert_ind with (P := fun p s p' s' => convert (erase_marks p) s = (erase_marks p', s'));
    cbn [erase_marks convert]; try reflexivity.
  - intros q s q' s' IH. rewrite IH. reflexivity.
  - intros a b s a' s1 b' s2 IHa IHb. rewrite IHa, IHb. reflexivity.
  - intros a b s a' s1 b' s2 IHa IHb. rewrite IHa, IHb. reflexivity.
  - intros q s q' s1 IH. fold (push_rule s). rewrite IH. reflexivity.
  - intros nm q s q' s1 _ IH. rewrite IH, collect_erase. reflexivity.
Qed.

Lemma pick_erase : forall p sel,
  pick (erase_marks p) sel = (drop_marks (fst (pick p sel)), snd (pick p sel)).
Proof.
  induction p; intro sel; cbn [erase_marks pick].
  - reflexivity.
  - reflexivity.
  - reflexivity.
  - destruct sel as [|[|] r]; [reflexivity | apply IHp | reflexivity].
  - rewrite IHp1. destruct (pick p1 sel) as [x r]. cbn [fst snd]. rewrite IHp2.
    destruct (pick p2 r) as [y r2]. cbn [fst snd]. now rewrite drop_marks_app.
  - destruct sel as [|[|] r]; [apply IHp1 | apply IHp2 | apply IHp1].
  - apply IHp.
  - apply IHp.
  - reflexivity.
  - reflexivity.
Qed.

Lemma multi_concat_cons : forall (x : list item) xs ys,
  multi_concat (x :: xs) ys = map (fun y => x ++ y) ys ++ multi_concat xs ys.
Proof. reflexivity. Qed.

Lemma multi_concat_drop : forall xs ys,
  multi_concat (map drop_marks xs) (map drop_marks ys) = map drop_marks (multi_concat xs ys).
Proof.
  induction xs as [|x xs IH]; intro ys; [reflexivity|].
  cbn [map]. rewrite !multi_concat_cons, map_app, IH. f_equal.
  rewrite !map_map. apply map_ext. intro y. now rewrite drop_marks_app.
Qed.

Lemma expand_erase : forall p, expand (erase_marks p) = map drop_marks (expand p).
Proof.
  induction p; cbn [erase_marks expand]; try reflexivity; try assumption.
  - now rewrite IHp, map_app.
  - now rewrite IHp1, IHp2, multi_concat_drop.
  - now rewrite IHp1, IHp2, map_app.
Qed.

(* compiler.go traverse: a marker is appended to rule.RHS and changes nothing else *)
Lemma traverse_drop : forall l pend, traverse (drop_marks l) pend = drop_lmarks (traverse l pend).
Proof.
  induction l as [|[pos|c|m] l IH]; intro pend; cbn [drop_marks traverse].
  - destruct pend; reflexivity.
  - rewrite IH. destruct pend; reflexivity.
  - apply IH.
  - cbn [drop_lmarks]. apply IH.
Qed.

(* the run-time side: no stack entry, numRefs and actualPos unchanged *)
Lemma run_drop : forall tab cas ls base st rm ch cur,
  run tab cas (drop_lmarks ls) base st rm ch cur = run tab cas ls base st rm ch cur.
Proof.
  induction ls as [|[pos|cs|cs|m] ls IH]; intros base st rm ch cur; cbn [drop_lmarks run].
  - reflexivity.
  - destruct ch as [|c ch0]; [reflexivity | apply IH].
  - f_equal. apply IH.
  - f_equal. apply IH.
  - apply IH.
Qed.

Theorem markers_transparent : forall tab body lead sel base ch start,
  run_node tab (erase_marks body) lead sel base ch start = run_node tab body lead sel base ch start.
Proof.
  intros tab body lead sel base ch start. unfold run_node, convert_rule.
  rewrite convert_erase. destruct (convert body (mkC [] [] 1 [])) as [b' cs]. cbn [fst snd].
  rewrite pick_erase. cbn [fst].
  assert (E : (if lead then [IRef 0] else []) ++ drop_marks (fst (pick b' sel)) =
              drop_marks ((if lead then [IRef 0] else []) ++ fst (pick b' sel))).
  { rewrite drop_marks_app. now destruct lead. }
  rewrite E, traverse_drop. apply run_drop.
Qed.

(* the rejection needs a marker: a rule without state markers never "mixes" *)
Lemma mixes_drop : forall ls, mixes (drop_lmarks ls) false = false.
Proof. induction ls as [|[pos|cs|cs|m] ls IH]; cbn [drop_lmarks mixes orb]; assumption || reflexivity. Qed.
