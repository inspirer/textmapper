(* C01: second boolean validator for the correct-prefix property ("a syntax error is not reported early").
   check_live: every state has an item; the symbols after the dot of every item are productive; every item
   [A -> . alpha] of a real rule is justified by an item [B -> beta . A gamma] of the same state, and chains of
   such justifications through items with the dot at 0 are well-founded (rank hint, untrusted).
   Together with Validator.check it is proved (Validator_proofs.v) to imply that the tokens shifted before
   a reported syntax error are a prefix of a sentence.  Executable definitions only. *)
From Coq Require Import List ZArith Bool Arith.
From TM Require Import Gram.Cfg Gram.PTables Gram.Run Gram.Derive Gram.Validator.
Import ListNotations.
Local Open Scope Z_scope.

Definition rank_tbl := list (list Z).   (* per state, per rule number (augmented numbering): rank of [rule, dot 0] *)

Definition lrank (rk : rank_tbl) (q : Z) (r : nat) : Z :=
  if q <? 0 then -1 else nth r (nth (Z.to_nat q) rk []) (-1).

Definition dot_sym_is (g : grammar) (r' d' : nat) (X : Z) : bool :=
  match arule g r' with
  | Some rl' => match nth_error (r_rhs rl') d' with Some Y => Y =? X | None => false end
  | None => false
  end.

Definition check_live (g : grammar) (nstates : Z) (ann : cert) (rk : rank_tbl) : bool :=
  let ps := productive_set g in
  forallb (fun q =>
      match items ann q with [] => false | _ => true end &&
      forallb (fun it : citem => let '(r, d, _) := it in
          match arule g r with
          | Some rl =>
              forallb (is_productive g ps) (skipn d (r_rhs rl)) &&
              (if Nat.eqb d 0 && (r <? nrules g)%nat then
                 existsb (fun it' : citem => let '(r', d', _) := it' in
                     dot_sym_is g r' d' (r_lhs rl) &&
                     (negb (Nat.eqb d' 0) || ((0 <=? lrank rk q r') && (lrank rk q r' <? lrank rk q r))))
                   (items ann q)
               else true)
          | None => false
          end) (items ann q)) (states nstates).

(* ---- untrusted rank hint: round j ranks the dot-0 items that are justified by an item ranked before ---- *)
Fixpoint set_nth (l : list Z) (n : nat) (v : Z) : list Z :=
  match l, n with
  | [], _ => []
  | _ :: t, O => v :: t
  | x :: t, S k => x :: set_nth t k v
  end.

Definition live_rank_state (g : grammar) (its : list citem) : list Z :=
  let nr := nrules g in
  let init := map (fun r => if (r <? nr)%nat then -1 else 0) (seq 0 (nr + ninputs g)) in
  let step (j : Z) (rk : list Z) : list Z :=
    fold_left (fun acc (it : citem) => let '(r, d, _) := it in
        if Nat.eqb d 0 && (r <? nr)%nat && (nth r rk (-1) <? 0) then
          match arule g r with
          | Some rl =>
              if existsb (fun it' : citem => let '(r', d', _) := it' in
                     dot_sym_is g r' d' (r_lhs rl) && (negb (Nat.eqb d' 0) || (0 <=? nth r' rk (-1)))) its
              then set_nth acc r j else acc
          | None => acc
          end
        else acc) its rk in
  snd (fold_left (fun (x : Z * list Z) _ => let '(j, rk) := x in (j + 1, step j rk)) its (1, init)).

Definition live_ranks (g : grammar) (ann : cert) : rank_tbl := map (live_rank_state g) ann.
