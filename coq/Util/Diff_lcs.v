(* L (Util/Diff.v) is the maximum length of a common subsequence (L_ub, L_wit); monotonicity, symmetry under
   swapping and reversal and the recursion at the far end follow; the quadratic table computes L.
   Order of the proofs about util/diff: Diff_lcs; Diff_proofs (edit scripts, the bound |a|+|b|-2L, trace / lcs_gen
   with any sound oracle); Diff_dist (the edit graph); Diff_greedy (Myers' greedy lemma, independent); Diff_min
   (minimality for any optimal oracle); Diff_myers (middle is sound, total, optimal); Diff_total (trace, lcs never fail). *)
From Coq Require Import List ZArith Lia.
From TM Require Import Util.Diff.
Import ListNotations.
Local Open Scope Z_scope.

Lemma zlen_cons x (l : list Z) : zlen (x :: l) = 1 + zlen l.
Proof. unfold zlen. cbn [length]. lia. Qed.

Lemma zlen_app (x y : list Z) : zlen (x ++ y) = zlen x + zlen y.
Proof. unfold zlen. rewrite app_length. lia. Qed.

Lemma zlen_rev (l : list Z) : zlen (rev l) = zlen l.
Proof. unfold zlen. now rewrite rev_length. Qed.

Lemma zlen_nonneg (l : list Z) : 0 <= zlen l.
Proof. unfold zlen. lia. Qed.

Lemma zlen_zero (x : list Z) : zlen x = 0 -> x = [].
Proof. destruct x; [reflexivity|rewrite zlen_cons; pose proof (zlen_nonneg x); lia]. Qed.

Lemma L_nil_r a : L a [] = 0.
Proof. destruct a; reflexivity. Qed.

Lemma L_cons x a y b : L (x :: a) (y :: b) = if x =? y then 1 + L a b else Z.max (L a (y :: b)) (L (x :: a) b).
Proof. reflexivity. Qed.

Lemma L_nonneg a : forall b, 0 <= L a b.
Proof.
  induction a as [|x a IH]; intro b; [reflexivity|].
  induction b as [|y b IHb]; [reflexivity|]. rewrite L_cons. destruct (x =? y); [specialize (IH b); lia|lia].
Qed.

Inductive Sub : list Z -> list Z -> Prop :=
| Sub_nil l : Sub [] l
| Sub_take x s l : Sub s l -> Sub (x :: s) (x :: l)
| Sub_skip x s l : Sub s l -> Sub s (x :: l).

Lemma Sub_refl l : Sub l l.
Proof. induction l; constructor; auto. Qed.

Lemma Sub_drop s l : Sub s l -> Sub (tl s) l.
Proof. induction 1; cbn [tl]; [constructor|now apply Sub_skip|now apply Sub_skip]. Qed.

Lemma Sub_tl s x l : Sub s (x :: l) -> Sub (tl s) l.
Proof. inversion 1; subst; cbn [tl]; [constructor|assumption|now apply Sub_drop]. Qed.

Lemma Sub_app s1 l1 s2 l2 : Sub s1 l1 -> Sub s2 l2 -> Sub (s1 ++ s2) (l1 ++ l2).
Proof.
  intros H1 H2. induction H1 as [l|x s l H IH|x s l H IH]; cbn [app].
  - induction l as [|y l IHl]; [exact H2|now apply Sub_skip].
  - now apply Sub_take.
  - now apply Sub_skip.
Qed.

Lemma Sub_app_l (s t : list Z) : Sub s (s ++ t).
Proof. rewrite <- (app_nil_r s) at 1. apply Sub_app; [apply Sub_refl|constructor]. Qed.

Lemma Sub_app_r (s t : list Z) : Sub t (s ++ t).
Proof. apply (Sub_app [] s t t); [constructor|apply Sub_refl]. Qed.

Lemma Sub_rev s l : Sub s l -> Sub (rev s) (rev l).
Proof.
  induction 1 as [l|x s l H IH|x s l H IH]; cbn [rev].
  - constructor.
  - apply Sub_app; [exact IH|apply Sub_refl].
  - rewrite <- (app_nil_r (rev s)). apply Sub_app; [exact IH|constructor].
Qed.

Lemma Sub_trans s l l' : Sub s l -> Sub l l' -> Sub s l'.
Proof.
  intros H1 H2. revert s H1. induction H2 as [l'|x l l' H IH|x l l' H IH]; intros s H1.
  - inversion H1; subst. constructor.
  - inversion H1; subst; [constructor|apply Sub_take; auto|apply Sub_skip; auto].
  - apply Sub_skip. auto.
Qed.

Lemma Sub_In s l x : Sub s l -> In x s -> In x l.
Proof. induction 1; intro Hx; [destruct Hx|destruct Hx as [<-|Hx]; [now left|right; auto]|right; auto]. Qed.

Lemma zlen_tl (s : list Z) : zlen s <= 1 + zlen (tl s).
Proof. destruct s; cbn [tl]; [unfold zlen; cbn; lia|rewrite zlen_cons; lia]. Qed.

Lemma L_ub : forall a b s, Sub s a -> Sub s b -> zlen s <= L a b.
Proof.
  induction a as [|x a IHa]; intros b.
  { intros s Ha _. inversion Ha; subst. cbn. reflexivity. }
  induction b as [|y b IHb]; intros s Ha Hb.
  { inversion Hb; subst. cbn. reflexivity. }
  rewrite L_cons. destruct (x =? y) eqn:E.
  - pose proof (IHa b (tl s) (Sub_tl _ _ _ Ha) (Sub_tl _ _ _ Hb)). pose proof (zlen_tl s). lia.
  - apply Z.eqb_neq in E.
    inversion Ha as [|? s' ? Ha'|? ? ? Ha']; subst.
    + pose proof (L_nonneg a (y :: b)). cbn. lia.
    + inversion Hb as [|? ? ? Hb'|? ? ? Hb']; subst; [congruence|].
      pose proof (IHb (x :: s') Ha Hb'). lia.
    + pose proof (IHa (y :: b) s Ha' Hb). lia.
Qed.

Lemma L_wit : forall a b, exists s, Sub s a /\ Sub s b /\ zlen s = L a b.
Proof.
  induction a as [|x a IHa]; intro b.
  { exists []. repeat split; constructor. }
  induction b as [|y b IHb].
  { exists []. repeat split; constructor. }
  rewrite L_cons. destruct (x =? y) eqn:E.
  - apply Z.eqb_eq in E. subst y. destruct (IHa b) as [s [H1 [H2 H3]]].
    exists (x :: s). repeat split; [now constructor|now constructor|rewrite zlen_cons; lia].
  - destruct (Z.le_ge_cases (L a (y :: b)) (L (x :: a) b)) as [Hle|Hge].
    + destruct IHb as [s [H1 [H2 H3]]]. exists s. repeat split; [exact H1|now apply Sub_skip|lia].
    + destruct (IHa (y :: b)) as [s [H1 [H2 H3]]]. exists s. repeat split; [now apply Sub_skip|exact H2|lia].
Qed.

Lemma L_is_lcs a b : (exists s, Sub s a /\ Sub s b /\ zlen s = L a b) /\
                     (forall s, Sub s a -> Sub s b -> zlen s <= L a b).
Proof. split; [apply L_wit|apply L_ub]. Qed.

Lemma L_mono a a' b b' : Sub a a' -> Sub b b' -> L a b <= L a' b'.
Proof.
  intros Ha Hb. destruct (L_wit a b) as [s [H1 [H2 <-]]]. 
  apply L_ub; [exact (Sub_trans _ _ _ H1 Ha)|exact (Sub_trans _ _ _ H2 Hb)].
Qed.

Lemma L_cons_le x a b : L (x :: a) b <= 1 + L a b.
Proof.
  destruct (L_wit (x :: a) b) as [s [H1 [H2 <-]]].
  pose proof (L_ub a b (tl s) (Sub_tl _ _ _ H1) (Sub_drop _ _ H2)). pose proof (zlen_tl s). lia.
Qed.

Lemma L_comm a b : L a b = L b a.
Proof.
  apply Z.le_antisymm.
  - destruct (L_wit a b) as [s [H1 [H2 <-]]]. now apply L_ub.
  - destruct (L_wit b a) as [s [H1 [H2 <-]]]. now apply L_ub.
Qed.

Lemma L_rev_le a b : L a b <= L (rev a) (rev b).
Proof.
  destruct (L_wit a b) as [s [H1 [H2 <-]]]. rewrite <- zlen_rev. apply L_ub; now apply Sub_rev.
Qed.

Lemma L_rev a b : L (rev a) (rev b) = L a b.
Proof.
  apply Z.le_antisymm; [|apply L_rev_le].
  pose proof (L_rev_le (rev a) (rev b)) as H. now rewrite !rev_involutive in H.
Qed.

Lemma L_app_ge a1 a2 b1 b2 : L a1 b1 + L a2 b2 <= L (a1 ++ a2) (b1 ++ b2).
Proof.
  destruct (L_wit a1 b1) as [s1 [H1 [H2 <-]]]. destruct (L_wit a2 b2) as [s2 [H3 [H4 <-]]].
  rewrite <- zlen_app. apply L_ub; now apply Sub_app.
Qed.

Lemma L_le_len_l a b : L a b <= zlen a.
Proof.
  destruct (L_wit a b) as [s [H1 [_ <-]]]. clear b.
  induction H1; rewrite ?zlen_cons; try lia. apply zlen_nonneg.
Qed.

Lemma L_le_len_r a b : L a b <= zlen b.
Proof. rewrite L_comm. apply L_le_len_l. Qed.

Lemma L_common p : forall a b, L (p ++ a) (p ++ b) = zlen p + L a b.
Proof.
  induction p as [|x p IH]; intros a b; [reflexivity|].
  cbn [app]. rewrite L_cons, Z.eqb_refl, IH, zlen_cons. lia.
Qed.

Lemma L_suffix_common a b p : L (a ++ p) (b ++ p) = L a b + zlen p.
Proof. rewrite <- L_rev, !rev_app_distr, L_common, zlen_rev, L_rev. lia. Qed.

Lemma L_snoc_neq a b x y : x <> y ->
  L (a ++ [x]) (b ++ [y]) = Z.max (L a (b ++ [y])) (L (a ++ [x]) b).
Proof.
  intro Hne. rewrite <- L_rev, !rev_app_distr. cbn [rev app]. rewrite L_cons.
  destruct (x =? y) eqn:E; [apply Z.eqb_eq in E; congruence|].
  rewrite <- (L_rev a (b ++ [y])), <- (L_rev (a ++ [x]) b), !rev_app_distr. reflexivity.
Qed.

Lemma L_snoc_ge a b x : L a b <= L (a ++ [x]) b.
Proof. apply L_mono; [apply Sub_app_l|apply Sub_refl]. Qed.

Lemma L_snoc_le a b x : L (a ++ [x]) b <= 1 + L a b.
Proof. rewrite <- L_rev, rev_app_distr, <- (L_rev a b). apply L_cons_le. Qed.

Lemma L_single_in x b : In x b -> L [x] b = 1.
Proof.
  intro H. apply Z.le_antisymm; [apply (L_le_len_l [x] b)|].
  apply in_split in H as [l1 [l2 ->]]. apply (L_ub [x] (l1 ++ x :: l2) [x] (Sub_refl _)), (Sub_app [] l1 [x] (x :: l2)); repeat constructor.
Qed.

Lemma L_single_notin x b : ~ In x b -> L [x] b = 0.
Proof.
  intro H. destruct (L_wit [x] b) as [s [H1 [H2 <-]]].
  destruct s as [|c s]; [reflexivity|]. exfalso. apply H.
  destruct (Sub_In _ _ c H1 (or_introl eq_refl)) as [->|[]]. apply (Sub_In _ _ c H2). now left.
Qed.

Definition Lrow (a b : list Z) : list Z := map (fun j => L a (skipn j b)) (seq 0 (S (length b))).

Lemma Lrow_cons a y b : Lrow a (y :: b) = L a (y :: b) :: Lrow a b.
Proof.
  unfold Lrow. cbn [length]. change (seq 0 (S (S (length b)))) with (0%nat :: seq 1 (S (length b))).
  cbn [map skipn]. f_equal. rewrite <- seq_shift, map_map. reflexivity.
Qed.

Lemma Lrow_nil a : Lrow a [] = [0].
Proof. unfold Lrow. cbn. now rewrite L_nil_r. Qed.

Lemma Lrow_head a b : exists t, Lrow a b = L a b :: t.
Proof. unfold Lrow. cbn [seq map skipn]. eauto. Qed.

Lemma lcs_row_spec x a' : forall b, lcs_row x b (Lrow a' b) = Lrow (x :: a') b.
Proof.
  induction b as [|y b IH].
  - rewrite !Lrow_nil. reflexivity.
  - rewrite !Lrow_cons. destruct (Lrow_head a' b) as [t Ht].
    cbn [lcs_row]. rewrite Ht. rewrite <- Ht, IH.
    destruct (Lrow_head (x :: a') b) as [t' Ht']. rewrite Ht'. cbn [hd]. rewrite <- Ht'.
    reflexivity.
Qed.

Lemma lcs_table_spec a b : lcs_table a b = Lrow a b.
Proof.
  unfold lcs_table. induction a as [|x a IH]; cbn [fold_right].
  - unfold Lrow. change (fun j : nat => L [] (skipn j b)) with (fun _ : nat => 0).
    generalize (S (length b)). intro n. generalize 0%nat. induction n as [|n IHn]; intro k; [reflexivity|].
    cbn [repeat seq map]. now rewrite <- IHn.
  - rewrite IH. apply lcs_row_spec.
Qed.

Theorem lcs_len_spec a b : lcs_len a b = L a b.
Proof. unfold lcs_len. rewrite lcs_table_spec. destruct (Lrow_head a b) as [t ->]. reflexivity. Qed.
