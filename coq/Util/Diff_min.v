(* The script of trace / lcs_gen is minimal for any middle-snake oracle that keeps the buffer's length and
   splits the problem optimally (mid_optimal). *)
From Coq Require Import List ZArith Lia.
From TM Require Import Util.Diff Util.Diff_lcs Util.Diff_proofs.
Import ListNotations.
Local Open Scope Z_scope.

Definition mid_optimal (mid : list Z -> list Z -> list Z -> mid_result) : Prop :=
  forall a b buf ai bi s buf', 2 <= zlen a -> 2 <= zlen b ->
  2 * (zlen a + zlen b + 2) <= zlen buf ->
  mid a b buf = MidFound ai bi s buf' ->
  zlen buf' = zlen buf /\
  (0 <= ai -> 0 <= bi -> 0 <= s -> ai + s <= zlen a -> bi + s <= zlen b ->
   L a b = L (sub a 0 ai) (sub b 0 bi) + s + L (sub a (ai + s) (zlen a)) (sub b (bi + s) (zlen b))).

Section TraceCost.
Variable mid : list Z -> list Z -> list Z -> mid_result.
Hypothesis Hopt : mid_optimal mid.

Theorem trace_cost : forall fuel a b buf chunks ret buf',
  2 * (zlen a + zlen b + 2) <= zlen buf ->
  trace mid fuel a b buf chunks = TraceOk ret buf' ->
  zlen buf' = zlen buf /\
  exists new, ret = chunks ++ new /\ cost new = zlen a + zlen b - 2 * L a b.
Proof.
  intros fuel a b buf chunks ret buf' Hbuf H. destruct (trace_splits _ _ _ _ _ _ _ _ H) as (new & -> & S).
  enough (zlen buf' = zlen buf /\ cost new = zlen a + zlen b - 2 * L a b) as [H1 H2] by eauto.
  clear H. induction S as [a b buf sc Hs|a b buf ai bi s buf1 n1 buf2 n2 buf3 Es Em R1 R2 R3 R4 R5 _ IH1 _ IH2].
  - split; [reflexivity|apply (small_spec _ _ _ Hs)].
  - destruct (small_none _ _ Es) as [Hla Hlb].
    destruct (Hopt a b buf ai bi s buf1 Hla Hlb Hbuf Em) as [Hb1 HL]. specialize (HL R1 R2 R3 R4 R5).
    rewrite !sub_length in IH1, IH2 by lia.
    destruct (IH1 ltac:(lia)) as [Hb2 Hn1]. destruct (IH2 ltac:(lia)) as [Hb3 Hn2].
    rewrite !cost_app, cost_keep. lia.
Qed.
End TraceCost.

Theorem lcs_gen_minimal mid a b chunks : mid_optimal mid ->
  lcs_gen mid a b = LcsOk chunks -> cost chunks = zlen a + zlen b - 2 * L a b.
Proof.
  intros Hopt H. destruct (lcs_gen_eq mid a b) as (front & a' & b' & back & -> & -> & _ & _ & E).
  rewrite E in H. clear E.
  destruct (trace _ _ _ _ _ _) as [ret buf'| |] eqn:Et in H; try discriminate. injection H as <-.
  apply trace_cost in Et as [_ [new [-> Hnew]]]; [|exact Hopt|unfold zlen; rewrite repeat_length; lia].
  rewrite merge_chunks_cost, !cost_app, !cost_keep, Hnew, !zlen_app, L_common, L_suffix_common. lia.
Qed.
