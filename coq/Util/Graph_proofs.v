(* Transposition and Matrix.Closure (Warshall) of Util/Graph.v, the list update [upd], and induction principles
   for loops: over the prefixes of the list a fold runs through, and over [seq 0 n]. *)
From Coq Require Import List Bool Arith Lia.
From TM Require Import Util.Graph.
Import ListNotations.

Lemma prefix_ind {A} (l : list A) (P : list A -> Prop) :
  P [] -> (forall pre x post, l = pre ++ x :: post -> P pre -> P (pre ++ [x])) -> P l.
Proof.
  intros H0 Hs. assert (H : forall post pre, l = pre ++ post -> P pre -> P l).
  { induction post as [|x post IH]; intros pre E Hp; [now rewrite E, app_nil_r|].
    apply (IH (pre ++ [x])); [now rewrite <- app_assoc|]. eapply Hs; eauto. }
  now apply (H l []).
Qed.

Lemma fold_left_prefix_ind {A B} (f : A -> B -> A) (l : list B) (P : list B -> A -> Prop) a :
  P [] a -> (forall pre x post a, l = pre ++ x :: post -> P pre a -> P (pre ++ [x]) (f a x)) ->
  P l (fold_left f l a).
Proof.
  intros H0 Hs. apply (prefix_ind l (fun pre => P pre (fold_left f pre a))); [exact H0|].
  intros pre x post E Hp. rewrite fold_left_app. now apply (Hs pre x post).
Qed.

Lemma fold_left_seq_ind {A} (f : A -> nat -> A) (P : nat -> A -> Prop) n a :
  P 0 a -> (forall k a, k < n -> P k a -> P (S k) (f a k)) -> P n (fold_left f (seq 0 n) a).
Proof.
  intros H0 Hs. assert (H : forall k, k <= n -> P k (fold_left f (seq 0 k) a)).
  { induction k as [|k IH]; intro Hk; [exact H0|]. rewrite seq_S, fold_left_app. apply Hs; [lia|apply IH; lia]. }
  now apply H.
Qed.

Lemma NoDup_lt_length (l : list nat) n : NoDup l -> (forall x, In x l -> x < n) -> length l <= n.
Proof.
  intros Hnd Hlt. rewrite <- (seq_length n 0). apply NoDup_incl_length; [exact Hnd|].
  intros x Hx. apply in_seq. specialize (Hlt x Hx). lia.
Qed.

Lemma FOP_app_iff {A} (R : A -> A -> Prop) (l1 l2 : list A) :
  ForallOrdPairs R (l1 ++ l2) <->
  ForallOrdPairs R l1 /\ ForallOrdPairs R l2 /\ (forall x y, In x l1 -> In y l2 -> R x y).
Proof.
  induction l1 as [|a l1 IH]; cbn [app].
  - split; [intro H; repeat split; [constructor|exact H|intros x y []]|tauto].
  - split.
    + intro H. inversion H as [|? ? Hf Hp]; subst. apply IH in Hp as [H1 [H2 H3]].
      rewrite Forall_forall in Hf. repeat split.
      * constructor; [|exact H1]. apply Forall_forall. intros y Hy. apply Hf. apply in_or_app. now left.
      * exact H2.
      * intros x y [<-|Hx] Hy; [apply Hf; apply in_or_app; now right|now apply H3].
    + intros [H1 [H2 H3]]. inversion H1 as [|? ? Hf Hp]; subst. constructor.
      * rewrite Forall_forall in *. intros y Hy. apply in_app_or in Hy as [Hy|Hy]; [now apply Hf|].
        apply H3; [now left|exact Hy].
      * apply IH. repeat split; [exact Hp|exact H2|]. intros x y Hx Hy. apply H3; [now right|exact Hy].
Qed.

Lemma FOP_impl_in {A} (R R' : A -> A -> Prop) (l : list A) :
  (forall x y, In x l -> In y l -> R x y -> R' x y) -> ForallOrdPairs R l -> ForallOrdPairs R' l.
Proof.
  induction l as [|a l IH]; intros H Hp; [constructor|].
  inversion Hp as [|? ? Hf Hp']; subst. constructor.
  - rewrite Forall_forall in *. intros y Hy. apply H; [now left|now right|now apply Hf].
  - apply IH; [|exact Hp']. intros x y Hx Hy. apply H; now right.
Qed.

Lemma count_occ_map_const (a x : nat) (l : list nat) :
  count_occ Nat.eq_dec (map (fun _ => a) l) x = if Nat.eq_dec a x then length l else 0.
Proof.
  induction l as [|y l IH]; cbn [map count_occ length]; [now destruct (Nat.eq_dec a x)|].
  rewrite IH. destruct (Nat.eq_dec a x); reflexivity.
Qed.

Lemma length_filter_eqb (t : nat) (l : list nat) :
  length (filter (Nat.eqb t) l) = count_occ Nat.eq_dec l t.
Proof.
  induction l as [|y l IH]; cbn [filter count_occ]; [reflexivity|].
  destruct (Nat.eqb_spec t y) as [->|Hne].
  - destruct (Nat.eq_dec y y); [cbn; now rewrite IH|congruence].
  - destruct (Nat.eq_dec y t); [congruence|exact IH].
Qed.

(* [froms t k g] numbers the rows of g from k on: row i is recorded as often as it has an edge to t *)
Lemma froms_lt (t : nat) (g : graph) : forall k x, x < k -> count_occ Nat.eq_dec (froms t k g) x = 0.
Proof.
  induction g as [|edges g IH]; intros k x H; cbn [froms]; [reflexivity|].
  rewrite count_occ_app, count_occ_map_const, IH by lia. destruct (Nat.eq_dec k x); [lia|reflexivity].
Qed.

Lemma froms_count (t : nat) (g : graph) : forall k i,
  count_occ Nat.eq_dec (froms t k g) (k + i) = count_occ Nat.eq_dec (nth i g []) t.
Proof.
  induction g as [|edges g IH]; intros k i; cbn [froms]; [now destruct i|].
  rewrite count_occ_app, count_occ_map_const, length_filter_eqb. destruct i as [|i]; cbn [nth].
  - rewrite Nat.add_0_r, froms_lt by lia. destruct (Nat.eq_dec k k); [apply Nat.add_0_r|congruence].
  - rewrite <- Nat.add_succ_comm, IH. destruct (Nat.eq_dec k (S k + i)); [lia|reflexivity].
Qed.

Lemma transpose_length g : length (transpose g) = length g.
Proof. unfold transpose. now rewrite map_length, seq_length. Qed.

Lemma transpose_nth g t : t < length g -> nth t (transpose g) [] = froms t 0 g.
Proof.
  intro H. unfold transpose.
  rewrite (nth_indep _ [] (froms (length g) 0 g)) by (now rewrite map_length, seq_length).
  change (froms (length g) 0 g) with ((fun t => froms t 0 g) (length g)).
  rewrite map_nth. now rewrite seq_nth.
Qed.

(* every edge from->to of g (with multiplicity) is an edge to->from of the transpose, and nothing else *)
Theorem transpose_spec g from to : from < length g -> to < length g ->
  count_occ Nat.eq_dec (nth to (transpose g) []) from = count_occ Nat.eq_dec (nth from g []) to.
Proof. intros _ Ht. rewrite (transpose_nth g to Ht). exact (froms_count to g 0 from). Qed.

Theorem transpose_sources_in_range g to x : In x (nth to (transpose g) []) -> x < length g.
Proof.
  intro H. destruct (Nat.lt_ge_cases to (length g)) as [Ht|Ht].
  - rewrite (transpose_nth g to Ht) in H. apply (count_occ_In Nat.eq_dec) in H.
    pose proof (froms_count to g 0 x) as E. cbn [Nat.add] in E. rewrite E in H. destruct (Nat.lt_ge_cases x (length g)) as [Hx|Hx]; [exact Hx|].
    rewrite nth_overflow in H by exact Hx. inversion H.
  - rewrite nth_overflow in H by (rewrite transpose_length; lia). destruct H.
Qed.

Definition mwf (n : nat) (m : matrix) : Prop := length m = n /\ Forall (fun r => length r = n) m.

Definition E (m : matrix) (a b : nat) : Prop := has_edge m a b = true.

(* a path a -> ... -> b of at least one edge whose intermediate vertices satisfy S *)
Inductive path (m : matrix) (S : nat -> Prop) : nat -> nat -> Prop :=
| path_edge a b : E m a b -> path m S a b
| path_step a c b : E m a c -> S c -> path m S c b -> path m S a b.

Lemma path_mono m (S S' : nat -> Prop) a b : (forall c, S c -> S' c) -> path m S a b -> path m S' a b.
Proof. intros H P. induction P; [now apply path_edge|eapply path_step; eauto]. Qed.

Lemma path_trans m S a c b : path m S a c -> S c -> path m S c b -> path m S a b.
Proof.
  intros P Hc Q. induction P as [a c Hac | a d c Had Hd P IH].
  - eapply path_step; eauto.
  - eapply path_step; [exact Had|exact Hd|]. now apply IH.
Qed.

Lemma path_split m k a b :
  path m (fun v => v < S k) a b <->
  path m (fun v => v < k) a b \/ (path m (fun v => v < k) a k /\ path m (fun v => v < k) k b).
Proof.
  split.
  - intro P. induction P as [a b Hab | a c b Hac Hc P IH].
    + left. now apply path_edge.
    + destruct (Nat.eq_dec c k) as [->|Hne].
      * right. split; [now apply path_edge|]. destruct IH as [IH|[_ IH]]; exact IH.
      * assert (c < k) by lia. destruct IH as [IH|[IH1 IH2]].
        -- left. eapply path_step; eauto.
        -- right. split; [eapply path_step; eauto|exact IH2].
  - intros [P|[P Q]].
    + eapply path_mono; [|exact P]. cbn; lia.
    + eapply path_trans with (c := k).
      * eapply path_mono; [|exact P]. cbn; lia.
      * lia.
      * eapply path_mono; [|exact Q]. cbn; lia.
Qed.

Lemma upd_cons {A} (a : A) l i x : upd (a :: l) (S i) x = a :: upd l i x.
Proof. reflexivity. Qed.

Lemma upd_length {A} (l : list A) i x : length (upd l i x) = length l.
Proof.
  revert i; induction l as [|a l IH]; intros [|i]; try reflexivity.
  rewrite upd_cons. cbn [length]. now rewrite IH.
Qed.

Lemma upd_nth {A} (l : list A) i x d j : i < length l ->
  nth j (upd l i x) d = if Nat.eq_dec j i then x else nth j l d.
Proof.
  revert i j; induction l as [|a l IH]; intros i j Hi; [inversion Hi|].
  destruct i as [|i]; [now destruct j|]. rewrite upd_cons. destruct j as [|j]; [reflexivity|].
  cbn [nth length] in *. rewrite IH by lia. destruct (Nat.eq_dec j i), (Nat.eq_dec (S j) (S i)); congruence.
Qed.

Lemma upd_Forall {A} (P : A -> Prop) l i x : Forall P l -> P x -> Forall P (upd l i x).
Proof.
  intros Hl Hx. revert i; induction Hl as [|a l Ha Hl IH]; intros [|i]; try (now constructor).
  rewrite upd_cons. constructor; [exact Ha|apply IH].
Qed.

Lemma or_rows_length a : forall b, length (or_rows a b) = length a.
Proof. induction a as [|x a IH]; destruct b; cbn; auto. Qed.

Lemma or_rows_nth a : forall b j, length a = length b ->
  nth j (or_rows a b) false = nth j a false || nth j b false.
Proof.
  induction a as [|x a IH]; destruct b as [|y b]; cbn [length or_rows]; intros j H; try discriminate.
  - destruct j; reflexivity.
  - destruct j; cbn [nth]; [reflexivity|]. apply IH. lia.
Qed.

Lemma mwf_row n m i : mwf n m -> i < n -> length (nth i m []) = n.
Proof.
  intros [Hl Hf] Hi. rewrite Forall_forall in Hf. apply Hf. apply nth_In. lia.
Qed.

Lemma has_edge_range n m a b : mwf n m -> has_edge m a b = true -> a < n /\ b < n.
Proof.
  intros Hwf H. unfold has_edge in H.
  destruct (Nat.lt_ge_cases a n) as [Ha|Ha].
  - split; [exact Ha|]. destruct (Nat.lt_ge_cases b n) as [Hb|Hb]; [exact Hb|].
    rewrite nth_overflow in H; [discriminate|]. rewrite (mwf_row n m a Hwf Ha). exact Hb.
  - destruct Hwf as [Hl _]. rewrite (nth_overflow m) in H by lia. destruct b; discriminate.
Qed.

Lemma closure_step_spec n k m j : mwf n m -> j < n -> k < n ->
  mwf n (closure_step k m j) /\
  forall a b, has_edge (closure_step k m j) a b =
    if Nat.eq_dec a j then has_edge m j b || (has_edge m j k && has_edge m k b) else has_edge m a b.
Proof.
  intros Hwf Hj Hk. unfold closure_step.
  destruct (has_edge m j k) eqn:Ejk.
  - split.
    + destruct Hwf as [Hl Hf]. split; [now rewrite upd_length|].
      apply upd_Forall; [exact Hf|]. rewrite or_rows_length. apply (mwf_row n m j (conj Hl Hf) Hj).
    + intros a b. unfold has_edge at 1. rewrite upd_nth by (destruct Hwf; lia).
      destruct (Nat.eq_dec a j) as [->|Hne]; [|reflexivity].
      rewrite or_rows_nth by (rewrite !(mwf_row n m) by assumption; reflexivity). reflexivity.
  - split; [exact Hwf|]. intros a b. destruct (Nat.eq_dec a j) as [->|]; [|reflexivity].
    cbn. now rewrite orb_false_r.
Qed.

(* every row a gets  row a | (m[a][k] ? row k : 0); row k itself keeps its contents *)
Lemma inner_loop_spec n k m : mwf n m -> k < n ->
  let m' := fold_left (closure_step k) (seq 0 n) m in
  mwf n m' /\ forall a b, has_edge m' a b = has_edge m a b || (has_edge m a k && has_edge m k b).
Proof.
  intros Hwf Hk. cbv zeta.
  pose (P := fun j m' => mwf n m' /\ forall a b, has_edge m' a b =
          if a <? j then has_edge m a b || (has_edge m a k && has_edge m k b) else has_edge m a b).
  destruct (fold_left_seq_ind (closure_step k) P n m) as [Hwf' H].
  - split; [exact Hwf|reflexivity].
  - intros j m' Hj [Hwfj Hm']. destruct (closure_step_spec n k m' j Hwfj Hj Hk) as [Hwf1 H1].
    split; [exact Hwf1|]. intros a b. rewrite H1. destruct (Nat.eq_dec a j) as [->|Hne].
    + rewrite !Hm', Nat.ltb_irrefl, (proj2 (Nat.ltb_lt j (S j))) by lia.
      destruct (k <? j); [|reflexivity]. now destruct (has_edge m k b), (has_edge m k k).
    + rewrite Hm'. destruct (Nat.ltb_spec a j), (Nat.ltb_spec a (S j)); try lia; reflexivity.
  - split; [exact Hwf'|]. intros a b. rewrite H. destruct (Nat.ltb_spec a n) as [_|Ha]; [reflexivity|].
    destruct (has_edge m a k) eqn:E; [|now rewrite orb_false_r]. apply (has_edge_range n m a k Hwf) in E. lia.
Qed.

Lemma outer_loop_spec n m0 : mwf n m0 ->
  let m := fold_left (fun m i => fold_left (closure_step i) (seq 0 n) m) (seq 0 n) m0 in
  mwf n m /\ forall a b, has_edge m a b = true <-> path m0 (fun v => v < n) a b.
Proof.
  intro Hwf. apply (fold_left_seq_ind _
    (fun k m => mwf n m /\ forall a b, has_edge m a b = true <-> path m0 (fun v => v < k) a b)).
  - split; [exact Hwf|]. intros a b. split; [apply path_edge|]. intro P. inversion P; subst; [assumption|lia].
  - intros k m Hk [Hwfk Hk']. destruct (inner_loop_spec n k m Hwfk Hk) as [Hwf' H']. split; [exact Hwf'|].
    intros a b. rewrite H', path_split, orb_true_iff, andb_true_iff, !Hk'. reflexivity.
Qed.

Definition reach (m : matrix) (a b : nat) : Prop := path m (fun _ => True) a b.

Lemma path_in_range n m S a b : mwf n m -> path m S a b -> path m (fun v => v < n) a b.
Proof.
  intros Hwf P. induction P as [a b H|a c b H Hc P IH]; [now apply path_edge|].
  eapply path_step; [exact H| |exact IH]. apply (has_edge_range n m a c Hwf H).
Qed.

(* Matrix.Closure adds exactly the pairs connected by a path of one or more edges *)
Theorem matrix_closure_spec n m : mwf n m ->
  mwf n (matrix_closure m) /\
  forall a b, has_edge (matrix_closure m) a b = true <-> reach m a b.
Proof.
  intro Hwf. unfold matrix_closure. assert (Hl : length m = n) by apply Hwf. rewrite Hl.
  destruct (outer_loop_spec n m Hwf) as [Hwf' H]. split; [exact Hwf'|].
  intros a b. rewrite H. split.
  - apply path_mono. trivial.
  - apply (path_in_range n m _ a b Hwf).
Qed.
