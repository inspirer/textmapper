(* The model's middle (forward / backward / middle_loop with the shared buffer) always returns, and returns the
   meeting (Meet) of a forward and a reverse furthest point whose costs add up to at most the edit distance; hence
   mid_optimal middle and lcs yields a minimum script. *)
From Coq Require Import List ZArith Bool Lia.
From TM Require Import Util.Graph Util.Graph_proofs Util.Diff Util.Diff_lcs Util.Diff_proofs Util.Diff_dist
  Util.Diff_greedy Util.Diff_min.
Import ListNotations.
Local Open Scope Z_scope.

Lemma setb_upd buf i x : setb buf i x = if i <? 0 then buf else upd buf (Z.to_nat i) x.
Proof. reflexivity. Qed.

Lemma zlen_setb buf i x : zlen (setb buf i x) = zlen buf.
Proof. rewrite setb_upd. destruct (i <? 0); [reflexivity|]. unfold zlen. now rewrite upd_length. Qed.

Lemma getb_setb buf i x j : 0 <= i < zlen buf ->
  getb (setb buf i x) j = if j =? i then x else getb buf j.
Proof.
  intros Hi. rewrite setb_upd. unfold getb, zlen in *. rewrite (proj2 (Z.ltb_ge i 0)) by lia.
  destruct (Z.ltb_spec j 0) as [Hj|Hj]; [now rewrite (proj2 (Z.eqb_neq j i)) by lia|].
  rewrite upd_nth by lia. destruct (Nat.eq_dec (Z.to_nat j) (Z.to_nat i)), (Z.eqb_spec j i); lia || reflexivity.
Qed.

Lemma overlap_test (c : bool) k l h p q :
  c && (k >=? l) && (k <=? h) && (p >=? q) = true <-> c = true /\ l <= k <= h /\ q <= p.
Proof. rewrite !andb_true_iff, !Z.geb_le, Z.leb_le. tauto. Qed.

Definition same_par (x y : Z) : Prop := exists j, x = y + 2 * j.

Lemma same_par_refl x : same_par x x.
Proof. exists 0. lia. Qed.

Lemma same_par_step x y : same_par x y -> same_par (x + 2) y.
Proof. intros [j ->]. exists (j + 1). lia. Qed.

Lemma not_same_par_succ x y : same_par x y -> same_par x (y - 1) -> False.
Proof. intros [j H1] [j' H2]. lia. Qed.

(* a point at exact distance d lies on a diagonal of the window of round d, of the parity of d *)
Lemma dist_window c c' x y d : 0 <= x <= zlen c -> 0 <= y <= zlen c' -> dist c c' x y = d ->
  Z.max (- d) (d - 2 * zlen c') <= x - y <= Z.min d (2 * zlen c - d) /\ same_par (x - y) d.
Proof.
  intros Hx Hy Hd. pose proof (dist_ge_diff c c' x y ltac:(lia) ltac:(lia)). pose proof (dist_le_sum c c' x y).
  split; [lia|]. exists (L (pre c x) (pre c' y) - y). unfold dist in Hd. lia.
Qed.

Lemma Vok_update c c' cond fuel : zlen c < Z.of_nat fuel ->
  (forall x y, grid_match (zlen c) (zlen c') cond x y = gmatch c c' x y) ->
  forall d k vm vp, 0 <= d -> - d <= k <= d -> (d = 0 -> vp = 0) ->
  (1 <= d -> - d < k -> Vok (dist c c') (d - 1) (k - 1) vm) ->
  (1 <= d -> k < d -> Vok (dist c c') (d - 1) (k + 1) vp) ->
  Vok (dist c c') d k (newx (zlen c) (zlen c') cond fuel d k vm vp).
Proof.
  intros Hf Hmc d k vm vp Hd Hk H0 Hm Hp. apply newx_ok; try assumption.
  - intros x y Hx Hy. now apply dist_right.
  - intros x y Hx Hy. now apply dist_down.
  - intros x y Hx Hy. rewrite Hmc. now apply dist_match.
  - intros x y Hx Hy. rewrite Hmc. now apply dist_mismatch.
  - intros x y Hx Hy. now apply dist_ge_diff.
  - reflexivity.
Qed.

Section Myers.
Variables a b : list Z.
Local Notation m := (zlen a).
Local Notation n := (zlen b).
Local Notation delta := (zlen b - zlen a).
Local Notation mx := ((zlen a + zlen b + 2) / 2).
Local Notation fuelN := (S (length a + length b)).
Local Notation distR := (dist (rev a) (rev b)).

Definition condf (x y : Z) : bool := elt a x =? elt b y.
Definition condr (x y : Z) : bool := elt a (m - x - 1) =? elt b (n - y - 1).
Definition Vf := Vok (dist a b).
Definition Vr := Vok distR.

Definition win_lo (d : Z) : Z := Z.max (- d) (d - 2 * n).
Definition win_hi (d : Z) : Z := Z.min d (2 * m - d).
Definition bufV1 (buf : list Z) (k : Z) : Z := getb buf (mx + k).
Definition bufV2 (buf : list Z) (k : Z) : Z := getb buf (2 * mx + (mx + k)).

Lemma mx_bounds : m + n + 1 <= 2 * mx <= m + n + 2.
Proof.
  pose proof (Z.div_mod (m + n + 2) 2 ltac:(lia)). pose proof (Z.mod_pos_bound (m + n + 2) 2 ltac:(lia)). lia.
Qed.

Lemma fuelN_ok : m < Z.of_nat fuelN.
Proof. unfold zlen. lia. Qed.

Lemma Dtot_bounds : 0 <= Dtot a b <= m + n.
Proof.
  unfold Dtot. pose proof (L_nonneg a b). pose proof (L_le_len_l a b). pose proof (L_le_len_r a b). lia.
Qed.

Lemma rdist_nonneg x y : 0 <= x <= m -> 0 <= y <= n -> 0 <= rdist a b x y.
Proof.
  intros Hx Hy. rewrite rdist_as_dist by assumption.
  pose proof (dist_ge_diff (rev a) (rev b) (m - x) (n - y) ltac:(lia) ltac:(lia)). lia.
Qed.

Lemma in_window_f px py d : 0 <= px <= m -> 0 <= py <= n -> dist a b px py = d ->
  win_lo d <= px - py <= win_hi d /\ same_par (px - py) d.
Proof. apply dist_window. Qed.

Lemma in_window_r px py d : 0 <= px <= m -> 0 <= py <= n -> rdist a b px py = d ->
  win_lo d <= (m - px) - (n - py) <= win_hi d /\ same_par ((m - px) - (n - py)) d.
Proof.
  intros Hx Hy Hd. rewrite rdist_as_dist in Hd by lia.
  pose proof (dist_window (rev a) (rev b) (m - px) (n - py) d) as H. rewrite !zlen_rev in H. apply H; lia || assumption.
Qed.

Lemma condr_gmatch x y : grid_match m n condr x y = gmatch (rev a) (rev b) x y.
Proof. unfold grid_match, gmatch, condr. now rewrite !zlen_rev, !elt_rev. Qed.

Lemma Vf_update d k vm vp : 0 <= d -> - d <= k <= d -> (d = 0 -> vp = 0) ->
  (1 <= d -> - d < k -> Vf (d - 1) (k - 1) vm) ->
  (1 <= d -> k < d -> Vf (d - 1) (k + 1) vp) ->
  Vf d k (newx m n condf fuelN d k vm vp).
Proof. apply Vok_update; [apply fuelN_ok|reflexivity]. Qed.

Lemma Vr_update d k vm vp : 0 <= d -> - d <= k <= d -> (d = 0 -> vp = 0) ->
  (1 <= d -> - d < k -> Vr (d - 1) (k - 1) vm) ->
  (1 <= d -> k < d -> Vr (d - 1) (k + 1) vp) ->
  Vr d k (newx m n condr fuelN d k vm vp).
Proof.
  pose proof (Vok_update (rev a) (rev b) condr fuelN) as H. rewrite !zlen_rev in H.
  apply H; [apply fuelN_ok|apply condr_gmatch].
Qed.

(* [V k'] is furthest reaching on every diagonal k' < k of round d *)
Definition RowBelow (dst : Z -> Z -> Z) (V : Z -> Z) (d k : Z) : Prop :=
  forall k', win_lo d <= k' <= win_hi d -> k' < k -> same_par k' d -> Vok dst d k' (V k').
Definition FullRow (dst : Z -> Z -> Z) (V : Z -> Z) (d : Z) : Prop :=
  forall k', win_lo d <= k' <= win_hi d -> same_par k' d -> Vok dst d k' (V k').
(* what round d reads: the full row of round d - 1, or the initial 0 on diagonal 1 *)
Definition PrevRow (dst : Z -> Z -> Z) (V : Z -> Z) (d : Z) : Prop :=
  (d = 0 -> V 1 = 0) /\ (1 <= d -> FullRow dst V (d - 1)).

Lemma Row_Full dst V d k : win_hi d < k -> RowBelow dst V d k -> FullRow dst V d.
Proof. intros Hk H k' Hr. apply H; lia. Qed.

Lemma Row_lo dst V d : RowBelow dst V d (win_lo d).
Proof. intros k' Hr Hk. lia. Qed.

Lemma Prev_frame dst V V' d : (forall k', - n <= k' -> same_par k' (d - 1) -> V' k' = V k') ->
  PrevRow dst V d -> PrevRow dst V' d.
Proof.
  intros HV [P0 P1]. pose proof (zlen_nonneg b). split.
  - intros ->. rewrite HV; [now apply P0|lia|now exists 1].
  - intros H1 k' Hr Pk'. rewrite HV; [now apply P1|unfold win_lo in Hr; lia|exact Pk'].
Qed.

Lemma Row_extend dst V V' d k x : (forall k', V' k' = if k' =? k then x else V k') ->
  same_par k d -> Vok dst d k x -> RowBelow dst V d k -> RowBelow dst V' d (k + 2).
Proof.
  intros HV [j2 ->] Hx Hcur k' W L1 Pk'. rewrite HV. destruct (Z.eqb_spec k' (d + 2 * j2)) as [->|Hne]; [exact Hx|].
  apply Hcur; auto. destruct Pk' as [j1 ->]. lia.
Qed.

Lemma Prev_keep dst V V' d k x : (forall k', V' k' = if k' =? k then x else V k') ->
  same_par k d -> PrevRow dst V d -> PrevRow dst V' d.
Proof.
  intros HV Hpar. apply Prev_frame. intros k' _ Pk'. rewrite HV.
  destruct (Z.eqb_spec k' k) as [->|_]; [destruct (not_same_par_succ _ _ Hpar Pk')|reflexivity].
Qed.

Lemma row_step dst cond V d k :
  (forall d k vm vp, 0 <= d -> - d <= k <= d -> (d = 0 -> vp = 0) ->
     (1 <= d -> - d < k -> Vok dst (d - 1) (k - 1) vm) -> (1 <= d -> k < d -> Vok dst (d - 1) (k + 1) vp) ->
     Vok dst d k (newx m n cond fuelN d k vm vp)) ->
  0 <= d -> win_lo d <= k <= win_hi d -> same_par k d -> PrevRow dst V d ->
  Vok dst d k (newx m n cond fuelN d k (V (k - 1)) (V (k + 1))).
Proof.
  intros Hupd Hd Hk [j Hj] [P0 P1]. unfold win_lo, win_hi in Hk. apply Hupd; [lia|lia| | |].
  - intros ->. replace k with 0 by lia. now apply P0.
  - intros H1 Hk'. apply (P1 H1); [unfold win_lo, win_hi; lia|exists j; lia].
  - intros H1 Hk'. apply (P1 H1); [unfold win_lo, win_hi; lia|exists (j + 1); lia].
Qed.

(* the split reported when the forward point fx on diagonal k has met the reverse point ru *)
Definition split_of (k fx ru : Z) : Z * Z * Z :=
  (m - ru, m - ru - k,
   count_snake fuelN (fun s => elt a (m - ru + s) =? elt b (m - ru - k + s)) (fx - (m - ru)) 0).

(* forward_S, backward_S: the definitions are unfolded by hand first; left to itself, the conversion test compares
   the folded and the unfolded form of x afresh at each of its occurrences. *)
Lemma forward_S f d k limit ps pl buf :
  forward a b (S f) d k limit ps pl buf =
  if k >? limit then (buf, None) else
  let x := newx m n condf fuelN d k (getb buf (mx + k - 1)) (getb buf (mx + k + 1)) in
  let buf' := setb buf (mx + k) x in
  if Z.odd delta && (- delta - k >=? ps) && (- delta - k <=? pl) && (x >=? m - bufV2 buf' (- delta - k))
  then (buf', Some (split_of k x (bufV2 buf' (- delta - k))))
  else forward a b f d (k + 2) limit ps pl buf'.
Proof. unfold bufV2, split_of, newx, condf, zlen. reflexivity. Qed.

Lemma backward_S f d k start limit buf :
  backward a b (S f) d k start limit buf =
  if k >? limit then (buf, None) else
  let x := newx m n condr fuelN d k (getb buf (2 * mx + (mx + k - 1))) (getb buf (2 * mx + (mx + k + 1))) in
  let buf' := setb buf (2 * mx + mx + k) x in
  if negb (Z.odd delta) && (- delta - k >=? start) && (- delta - k <=? limit) && (bufV1 buf' (- delta - k) >=? m - x)
  then (buf', Some (m - x, n - (x - k),
          count_snake fuelN (fun s => elt a (m - x + s) =? elt b (n - (x - k) + s)) (bufV1 buf' (- delta - k) - (m - x)) 0))
  else backward a b f d (k + 2) start limit buf'.
Proof. unfold bufV1, newx, condr, zlen. reflexivity. Qed.

Lemma middle_loop_S f d ps pl buf :
  middle_loop a b (S f) d ps pl buf =
  if d >? mx then MidFatal buf else
  match forward a b fuelN d (win_lo d) (win_hi d) ps pl buf with
  | (buf, Some (ai, bi, s)) => MidFound ai bi s buf
  | (buf, None) =>
    match backward a b fuelN d (win_lo d) (win_lo d) (win_hi d) buf with
    | (buf, Some (ai, bi, s)) => MidFound ai bi s buf
    | (buf, None) => middle_loop a b f (d + 1) (win_lo d) (win_hi d) buf
    end
  end.
Proof.
  assert (El : - d + (if d >? n then 2 * (d - n) else 0) = win_lo d) by (unfold win_lo; destruct (Z.gtb_spec d n); lia).
  assert (Eh : d - (if d >? m then 2 * (d - m) else 0) = win_hi d) by (unfold win_hi; destruct (Z.gtb_spec d m); lia).
  rewrite <- El, <- Eh. reflexivity.
Qed.

Lemma count_snake_spec cond lim : forall fuel s0, let r := count_snake fuel cond lim s0 in
  s0 <= r /\ (forall j, s0 <= j < r -> cond j = true) /\
  (lim - s0 < Z.of_nat fuel -> r <= Z.max lim s0 /\ (r < lim -> cond r = false)).
Proof.
  induction fuel as [|f IH]; intro s0; cbn [count_snake]; cbn zeta; [repeat split; intros; lia|].
  destruct (Z.ltb_spec s0 lim) as [Hlt|Hge]; cbn [andb]; [|repeat split; intros; lia].
  destruct (cond s0) eqn:E; [|repeat split; intros; lia || exact E].
  destruct (IH (s0 + 1)) as [H1 [H2 H3]]. split; [lia|]. split.
  - intros j Hj. destruct (Z.eq_dec j s0) as [->|Hne]; [exact E|apply H2; lia].
  - intro Hf. destruct (H3 ltac:(lia)) as [H4 H5]. split; [lia|exact H5].
Qed.

Definition snake_ok (r : Z * Z * Z) : Prop :=
  let '(ai, bi, s) := r in forall j, 0 <= j < s -> elt a (ai + j) = elt b (bi + j).

Lemma snake_ok_count ai bi fuel lim :
  snake_ok (ai, bi, count_snake fuel (fun s => elt a (ai + s) =? elt b (bi + s)) lim 0).
Proof. intros j Hj. apply Z.eqb_eq. exact (proj1 (proj2 (count_snake_spec _ lim fuel 0)) j Hj). Qed.

Lemma forward_sound : forall fuel d k limit ps pl buf buf' r,
  forward a b fuel d k limit ps pl buf = (buf', Some r) -> snake_ok r.
Proof.
  induction fuel as [|f IH]; intros d k limit ps pl buf buf' r H; [discriminate|].
  rewrite forward_S in H. destruct (k >? limit); [discriminate|].
  set (x := newx _ _ _ _ _ _ _ _) in H. cbv zeta in H.
  match type of H with (if ?c then _ else _) = _ => destruct c end; [|eapply IH; eauto].
  match type of H with (_, Some ?t) = _ => replace r with t by congruence end. apply snake_ok_count.
Qed.

Lemma backward_sound : forall fuel d k start limit buf buf' r,
  backward a b fuel d k start limit buf = (buf', Some r) -> snake_ok r.
Proof.
  induction fuel as [|f IH]; intros d k start limit buf buf' r H; [discriminate|].
  rewrite backward_S in H. destruct (k >? limit); [discriminate|].
  set (x := newx _ _ _ _ _ _ _ _) in H. cbv zeta in H.
  match type of H with (if ?c then _ else _) = _ => destruct c end; [|eapply IH; eauto].
  match type of H with (_, Some ?t) = _ => replace r with t by congruence end. apply snake_ok_count.
Qed.

Lemma middle_loop_sound : forall fuel d ps pl buf ai bi s buf',
  middle_loop a b fuel d ps pl buf = MidFound ai bi s buf' -> snake_ok (ai, bi, s).
Proof.
  induction fuel as [|f IH]; intros d ps pl buf ai bi s buf' H; [discriminate|].
  rewrite middle_loop_S in H. destruct (d >? _); [discriminate|].
  destruct (forward _ _ _ _ _ _ _ _ _) as [buf1 [[[ai1 bi1] s1]|]] eqn:Ef in H.
  { injection H as <- <- <- _. exact (forward_sound _ _ _ _ _ _ _ _ _ Ef). }
  destruct (backward _ _ _ _ _ _ _ _) as [buf2 [[[ai2 bi2] s2]|]] eqn:Eb in H.
  { injection H as <- <- <- _. exact (backward_sound _ _ _ _ _ _ _ _ Eb). }
  eapply IH; eauto.
Qed.

(* A forward furthest point (fx, fx - k) of cost df and a reverse furthest point of cost dr on the same
   diagonal have met, and no cheaper meeting exists (df + dr <= D). *)
Record Meet (df dr k fx ru : Z) : Prop := {
  mt_f : Vf df k fx;
  mt_r : Vr dr (- delta - k) ru;
  mt_overlap : m - ru <= fx;
  mt_dr : 0 <= dr;
  mt_df : dr <= df <= dr + 1;
  mt_sum : df + dr <= Dtot a b
}.

Definition SplitOfMeet (r : Z * Z * Z) : Prop := exists df dr k fx ru, Meet df dr k fx ru /\ r = split_of k fx ru.

Lemma point_forces_overlap df dr k fx ru px py : Vf df k fx -> Vr dr (- delta - k) ru ->
  0 <= px <= m -> 0 <= py <= n -> px - py = k -> dist a b px py <= df -> rdist a b px py <= dr -> m - ru <= fx.
Proof.
  intros [_ [_ [_ F]]] [_ [_ [_ R]]] Hpx Hpy <- Hd Hr. rewrite rdist_as_dist in Hr by assumption.
  specialize (F px ltac:(lia) ltac:(lia)). replace (px - (px - py)) with py in F by lia.
  specialize (R (m - px) ltac:(lia) ltac:(lia)). replace (m - px - (- delta - (px - py))) with (n - py) in R by lia.
  specialize (F Hd). specialize (R Hr). lia.
Qed.

Definition OptSplit (ai bi s : Z) : Prop :=
  0 <= ai -> 0 <= bi -> 0 <= s -> ai + s <= m -> bi + s <= n ->
  dist a b ai bi + rdist a b (ai + s) (bi + s) <= Dtot a b.

Lemma overlap_opt ai bi s : SplitOfMeet (ai, bi, s) -> OptSplit ai bi s.
Proof.
  intros (df & dr & k & fx & u & [[_ [_ [F _]]] [_ [_ [R _]]] Hov _ _ Hsum] & [= -> -> Es]) A1 A2 A3 A4 A5.
  pose proof (dist_diag_mono_n a b (m - u) (m - u - k) A1 A2 (fx - (m - u)) ltac:(lia)) as M1.
  replace (m - u + (fx - (m - u))) with fx in M1 by lia.
  replace (m - u - k + (fx - (m - u))) with (fx - k) in M1 by lia.
  pose proof (rdist_diag_mono a b (m - u) (m - u - k) s A1 A2 A3 A4 A5) as M2.
  rewrite (rdist_as_dist a b (m - u) (m - u - k)) in M2 by lia.
  replace (m - (m - u)) with u in M2 by lia. replace (n - (m - u - k)) with (u - (- delta - k)) in M2 by lia. lia.
Qed.

Variable len0 : Z.
Hypothesis Hlen0 : 2 * (m + n + 2) <= len0.

Lemma win_idx d k : 0 <= d -> 2 * d <= m + n + 1 -> win_lo d <= k <= win_hi d ->
  0 <= mx + k < len0 /\ 0 <= 2 * mx + mx + k < len0 /\ - n <= k <= m.
Proof. pose proof mx_bounds. pose proof (zlen_nonneg a). pose proof (zlen_nonneg b). unfold win_lo, win_hi. lia. Qed.

Lemma V1_set1 buf k x k' : 0 <= mx + k < zlen buf ->
  bufV1 (setb buf (mx + k) x) k' = if k' =? k then x else bufV1 buf k'.
Proof.
  intros Hr. unfold bufV1. rewrite getb_setb by lia.
  destruct (Z.eqb_spec (mx + k') (mx + k)), (Z.eqb_spec k' k); lia || reflexivity.
Qed.

Lemma V2_set1 buf k x k' : 0 <= mx + k < zlen buf -> k - k' < 2 * mx -> bufV2 (setb buf (mx + k) x) k' = bufV2 buf k'.
Proof.
  intros Hr Hk. unfold bufV2. rewrite getb_setb by lia.
  now rewrite (proj2 (Z.eqb_neq _ _)) by lia.
Qed.

Lemma V2_set2 buf k x k' : 0 <= 2 * mx + mx + k < zlen buf ->
  bufV2 (setb buf (2 * mx + mx + k) x) k' = if k' =? k then x else bufV2 buf k'.
Proof.
  intros Hr. unfold bufV2. rewrite getb_setb by lia.
  destruct (Z.eqb_spec (2 * mx + (mx + k')) (2 * mx + mx + k)), (Z.eqb_spec k' k); lia || reflexivity.
Qed.

Lemma V1_set2 buf k x k' : 0 <= 2 * mx + mx + k < zlen buf -> k' - k < 2 * mx ->
  bufV1 (setb buf (2 * mx + mx + k) x) k' = bufV1 buf k'.
Proof.
  intros Hr Hk. unfold bufV1. rewrite getb_setb by lia.
  now rewrite (proj2 (Z.eqb_neq _ _)) by lia.
Qed.

Lemma par_flip_odd k d : Z.odd delta = true -> same_par k d -> same_par (- delta - k) (d - 1).
Proof. intros Ho [j ->]. apply Z.odd_spec in Ho as [q Hq]. exists (- q - j - d). lia. Qed.

Lemma par_flip_even k d : Z.odd delta = false -> same_par k d -> same_par (- delta - k) d.
Proof.
  intros He [j ->]. rewrite <- Z.negb_even in He. apply negb_false_iff, Z.even_spec in He as [q Hq].
  exists (- q - j - d). lia.
Qed.

(* before diagonal k: row d is complete below k, rows d - 1 of both directions are in place, and no point
   of cost d / d - 1 lies on a diagonal below k (such a point would have been reported as a meeting) *)
Record FwdInv (d k : Z) (buf : list Z) : Prop := {
  fi_len : zlen buf = len0;
  fi_cur : RowBelow (dist a b) (bufV1 buf) d k;
  fi_p1 : PrevRow (dist a b) (bufV1 buf) d;
  fi_p2 : PrevRow distR (bufV2 buf) d;
  fi_nm : Z.odd delta = true -> forall px py, 0 <= px <= m -> 0 <= py <= n ->
          dist a b px py = d -> rdist a b px py = d - 1 -> k <= px - py
}.

Lemma forward_pass d ps pl : 0 <= d -> 2 * d <= m + n + 1 ->
  (Z.odd delta = true -> 2 * d - 1 <= Dtot a b) ->
  ((d = 0 /\ ps = 0 /\ pl = 0) \/ (1 <= d /\ ps = win_lo (d - 1) /\ pl = win_hi (d - 1))) ->
  forall fuel k buf, FwdInv d k buf -> same_par k d -> win_lo d <= k -> win_hi d - k < 2 * Z.of_nat fuel ->
  match forward a b fuel d k (win_hi d) ps pl buf with
  | (buf', Some r) => zlen buf' = len0 /\ SplitOfMeet r
  | (buf', None) => exists k', win_hi d < k' /\ FwdInv d k' buf'
  end.
Proof.
  intros Hd H2d Hlow Hps. induction fuel as [|f IH]; intros k buf HI Hpar Hlo Hfuel.
  { exists k. split; [lia|exact HI]. }
  rewrite forward_S. destruct (Z.gtb_spec k (win_hi d)) as [Hgt|Hle].
  { exists k. split; [lia|exact HI]. }
  cbv zeta. destruct HI as [Hlen Hcur Hp1 Hp2 Hnm].
  destruct (win_idx d k Hd H2d (conj Hlo Hle)) as (I1 & I2 & I3). pose proof mx_bounds as Hmx.
  assert (Hx : Vf d k (newx m n condf fuelN d k (getb buf (mx + k - 1)) (getb buf (mx + k + 1)))).
  { rewrite <- (Z.add_sub_assoc mx k 1), <- (Z.add_assoc mx k 1).
    exact (row_step _ _ (bufV1 buf) d k Vf_update Hd (conj Hlo Hle) Hpar Hp1). }
  set (x := newx _ _ _ _ _ _ _ _) in *. set (buf' := setb buf (mx + k) x). set (k2 := - delta - k).
  assert (Hlen' : zlen buf' = len0) by (unfold buf'; now rewrite zlen_setb).
  assert (F1 : forall k', bufV1 buf' k' = if k' =? k then x else bufV1 buf k') by (intro; apply V1_set1; lia).
  assert (F2 : forall k', - n <= k' -> bufV2 buf' k' = bufV2 buf k') by (intros; apply V2_set1; lia).
  assert (Hp2' : PrevRow distR (bufV2 buf') d) by (apply (Prev_frame _ (bufV2 buf)); auto).
  assert (Hk2 : Z.odd delta = true -> 1 <= d -> win_lo (d - 1) <= k2 <= win_hi (d - 1) -> Vr (d - 1) k2 (bufV2 buf' k2)).
  { intros Hodd H1 Hr. apply (proj2 Hp2' H1); [exact Hr|now apply par_flip_odd]. }
  match goal with |- context[if ?c then _ else _] => destruct c eqn:Ec end.
  - apply overlap_test in Ec as (Eo & [E1 E2] & E3).
    split; [exact Hlen'|]. exists d, (d - 1), k, x, (bufV2 buf' k2). split; [|reflexivity].
    assert (1 <= d /\ win_lo (d - 1) <= k2 <= win_hi (d - 1)) as [H1 Hr].
    { destruct Hps as [(-> & -> & ->)|(H1 & -> & ->)]; [|auto]. apply Z.odd_spec in Eo as [q Hq].
      pose proof (zlen_nonneg a). pose proof (zlen_nonneg b). unfold win_lo, win_hi in Hlo, Hle. unfold k2 in E1, E2. lia. }
    specialize (Hlow Eo). constructor; [exact Hx|exact (Hk2 Eo H1 Hr)|exact E3|lia..].
  - apply IH; [|now apply same_par_step|lia|lia].
    constructor; [exact Hlen'|exact (Row_extend _ _ _ d k x F1 Hpar Hx Hcur)|exact (Prev_keep _ _ _ d k x F1 Hpar Hp1)|exact Hp2'|].
    intros Hodd px py Hpx Hpy Hdist Hrd. specialize (Hnm Hodd px py Hpx Hpy Hdist Hrd).
    destruct (in_window_f px py d Hpx Hpy Hdist) as [_ [j1 Pj]]. destruct Hpar as [j2 Pk].
    destruct (Z.eq_dec (px - py) k) as [Ek|Hne]; [exfalso|lia].
    pose proof (rdist_nonneg px py Hpx Hpy) as Hrn.
    destruct (in_window_r px py (d - 1) Hpx Hpy Hrd) as [Wr _].
    replace (m - px - (n - py)) with k2 in Wr by (unfold k2; lia).
    pose proof (point_forces_overlap d (d - 1) k x (bufV2 buf' k2) px py Hx (Hk2 Hodd ltac:(lia) Wr) Hpx Hpy Ek ltac:(lia) ltac:(lia)).
    apply not_true_iff_false in Ec. apply Ec, overlap_test. split; [exact Hodd|].
    destruct Hps as [(-> & -> & ->)|(_ & -> & ->)]; lia.
Qed.

Record BwdInv (d k : Z) (buf : list Z) : Prop := {
  bi_len : zlen buf = len0;
  bi_cur : RowBelow distR (bufV2 buf) d k;
  bi_p : PrevRow distR (bufV2 buf) d;
  bi_f : FullRow (dist a b) (bufV1 buf) d;
  bi_nm : Z.odd delta = false -> forall px py, 0 <= px <= m -> 0 <= py <= n ->
          dist a b px py = d -> rdist a b px py = d -> k <= (m - px) - (n - py)
}.

Lemma backward_pass d : 0 <= d -> 2 * d <= m + n + 1 ->
  (Z.odd delta = false -> 2 * d <= Dtot a b) ->
  forall fuel k buf, BwdInv d k buf -> same_par k d -> win_lo d <= k -> win_hi d - k < 2 * Z.of_nat fuel ->
  match backward a b fuel d k (win_lo d) (win_hi d) buf with
  | (buf', Some r) => zlen buf' = len0 /\ SplitOfMeet r
  | (buf', None) => exists k', win_hi d < k' /\ BwdInv d k' buf'
  end.
Proof.
  intros Hd H2d Hlow. induction fuel as [|f IH]; intros k buf HI Hpar Hlo Hfuel.
  { exists k. split; [lia|exact HI]. }
  rewrite backward_S. destruct (Z.gtb_spec k (win_hi d)) as [Hgt|Hle].
  { exists k. split; [lia|exact HI]. }
  cbv zeta. destruct HI as [Hlen Hcur Hp Hf Hnm].
  destruct (win_idx d k Hd H2d (conj Hlo Hle)) as (I1 & I2 & I3). pose proof mx_bounds as Hmx.
  assert (Hx : Vr d k (newx m n condr fuelN d k (getb buf (2 * mx + (mx + k - 1))) (getb buf (2 * mx + (mx + k + 1))))).
  { rewrite <- (Z.add_sub_assoc mx k 1), <- (Z.add_assoc mx k 1).
    exact (row_step _ _ (bufV2 buf) d k Vr_update Hd (conj Hlo Hle) Hpar Hp). }
  set (x := newx _ _ _ _ _ _ _ _) in *. set (buf' := setb buf (2 * mx + mx + k) x). set (k1 := - delta - k).
  assert (Hlen' : zlen buf' = len0) by (unfold buf'; now rewrite zlen_setb).
  assert (F2 : forall k', bufV2 buf' k' = if k' =? k then x else bufV2 buf k') by (intro; apply V2_set2; lia).
  assert (F1 : forall k', k' <= m -> bufV1 buf' k' = bufV1 buf k') by (intros; apply V1_set2; lia).
  assert (Hk1 : Z.odd delta = false -> win_lo d <= k1 <= win_hi d -> Vf d k1 (bufV1 buf' k1)).
  { intros Hev Hr. rewrite F1 by (unfold win_hi in Hr; lia). apply Hf; [exact Hr|now apply par_flip_even]. }
  match goal with |- context[if ?c then _ else _] => destruct c eqn:Ec end.
  - apply overlap_test in Ec as (Eo%negb_true_iff & [E1 E2] & E3).
    split; [exact Hlen'|]. exists d, d, k1, (bufV1 buf' k1), x.
    split; [|unfold split_of; now replace (m - x - k1) with (n - (x - k)) by (unfold k1; lia)].
    specialize (Hlow Eo). constructor; [exact (Hk1 Eo (conj E1 E2))| |exact E3|lia..].
    now replace (- delta - k1) with k by (unfold k1; lia).
  - apply IH; [|now apply same_par_step|lia|lia].
    constructor; [exact Hlen'|exact (Row_extend _ _ _ d k x F2 Hpar Hx Hcur)|exact (Prev_keep _ _ _ d k x F2 Hpar Hp)| |].
    { intros k' Hr Pk'. rewrite F1 by (unfold win_hi in Hr; lia). now apply Hf. }
    intros Hev px py Hpx Hpy Hdist Hrd. specialize (Hnm Hev px py Hpx Hpy Hdist Hrd).
    destruct (in_window_r px py d Hpx Hpy Hrd) as [_ [j1 Pj]]. destruct Hpar as [j2 Pk].
    destruct (Z.eq_dec (m - px - (n - py)) k) as [Ek|Hne]; [exfalso|lia].
    destruct (in_window_f px py d Hpx Hpy Hdist) as [Wf _].
    replace (px - py) with k1 in Wf by (unfold k1; lia).
    assert (Hx' : Vr d (- delta - k1) x) by now replace (- delta - k1) with k by (unfold k1; lia).
    pose proof (point_forces_overlap d d k1 (bufV1 buf' k1) x px py (Hk1 Hev Wf) Hx' Hpx Hpy ltac:(unfold k1; lia) ltac:(lia) ltac:(lia)).
    apply not_true_iff_false in Ec. apply Ec, overlap_test. rewrite Hev. split; [reflexivity|lia].
Qed.

Lemma FI_end_BI d k buf : win_hi d < k -> FwdInv d k buf -> BwdInv d (win_lo d) buf.
Proof.
  intros Hk [Hlen Hcur Hp1 Hp2 Hnm]. constructor; auto using Row_lo.
  - now apply (Row_Full _ _ _ k).
  - intros _ px py Hpx Hpy _ Hrd. now apply in_window_r.
Qed.

Lemma BI_end_FI d k buf : 0 <= d -> win_hi d < k -> BwdInv d k buf -> FwdInv (d + 1) (win_lo (d + 1)) buf.
Proof.
  intros Hd Hk [Hlen Hcur Hp Hf Hnm]. constructor; auto using Row_lo.
  - split; [lia|]. now rewrite Z.add_simpl_r.
  - split; [lia|]. rewrite Z.add_simpl_r. intros _. now apply (Row_Full _ _ _ k).
  - intros _ px py Hpx Hpy Hdist _. now apply in_window_f.
Qed.

Lemma forward_no_mid d k buf : 0 <= d -> win_hi d < k -> FwdInv d k buf -> Z.odd delta = true -> Dtot a b <> 2 * d - 1.
Proof.
  intros Hd Hk HI Hodd Heq. pose proof Dtot_bounds as [Hb _].
  destruct (split_point a b d ltac:(lia)) as (px & py & Hpx & Hpy & H1 & H2).
  pose proof (dist_rdist_ge a b px py) as Hge.
  destruct (in_window_f px py d Hpx Hpy ltac:(lia)) as [W _].
  pose proof (fi_nm _ _ _ HI Hodd px py Hpx Hpy ltac:(lia) ltac:(lia)). lia.
Qed.

Lemma backward_no_mid d k buf : 0 <= d -> win_hi d < k -> BwdInv d k buf -> Z.odd delta = false -> Dtot a b <> 2 * d.
Proof.
  intros Hd Hk HI Hev Heq.
  destruct (split_point a b d ltac:(lia)) as (px & py & Hpx & Hpy & H1 & H2).
  pose proof (dist_rdist_ge a b px py) as Hge.
  destruct (in_window_r px py d Hpx Hpy ltac:(lia)) as [W _].
  pose proof (bi_nm _ _ _ HI Hev px py Hpx Hpy ltac:(lia) ltac:(lia)). lia.
Qed.

Lemma same_par_lo d : same_par (win_lo d) d.
Proof. unfold win_lo. destruct (Z.max_spec (- d) (d - 2 * n)) as [[_ ->]|[_ ->]]; [exists (- n)|exists (- d)]; lia. Qed.

(* log.Fatal("no snake") is unreachable *)
Lemma middle_loop_spec : forall fuel d ps pl buf, 0 <= d -> FwdInv d (win_lo d) buf ->
  ((d = 0 /\ ps = 0 /\ pl = 0) \/ (1 <= d /\ ps = win_lo (d - 1) /\ pl = win_hi (d - 1))) ->
  (Z.odd delta = true -> 2 * d - 1 <= Dtot a b) ->
  (Z.odd delta = false -> 2 * d <= Dtot a b) ->
  match middle_loop a b fuel d ps pl buf with
  | MidFound ai bi s buf' => zlen buf' = len0 /\ SplitOfMeet (ai, bi, s)
  | _ => 2 * (d + Z.of_nat fuel) < Dtot a b + 2
  end.
Proof.
  induction fuel as [|f IH]; intros d ps pl buf Hd HI Hps Ho He.
  { cbn [middle_loop]. destruct (Z.odd delta); [specialize (Ho eq_refl)|specialize (He eq_refl)]; lia. }
  pose proof Dtot_bounds as [Db1 Db2]. pose proof mx_bounds as Hmx.
  assert (H2d : 2 * d <= m + n + 1) by (destruct (Z.odd delta); [specialize (Ho eq_refl)|specialize (He eq_refl)]; lia).
  assert (Hfu : win_hi d - win_lo d < 2 * Z.of_nat fuelN) by (unfold win_lo, win_hi, zlen; lia).
  rewrite middle_loop_S. destruct (Z.gtb_spec d mx) as [Hgt|_]; [lia|].
  pose proof (forward_pass d ps pl Hd H2d Ho Hps fuelN (win_lo d) buf HI (same_par_lo d) (Z.le_refl _) Hfu) as HF.
  destruct (forward a b fuelN d (win_lo d) (win_hi d) ps pl buf) as [buf1 [[[ai1 bi1] s1]|]]; [exact HF|].
  destruct HF as [k1 [Hk1 HI1]].
  pose proof (backward_pass d Hd H2d He fuelN (win_lo d) buf1 (FI_end_BI d k1 buf1 Hk1 HI1) (same_par_lo d) (Z.le_refl _) Hfu) as HB.
  destruct (backward a b fuelN d (win_lo d) (win_lo d) (win_hi d) buf1) as [buf2 [[[ai2 bi2] s2]|]]; [exact HB|].
  destruct HB as [k2 [Hk2 HI2]].
  replace (d + Z.of_nat (S f)) with (d + 1 + Z.of_nat f) by lia.
  apply IH; [lia|exact (BI_end_FI d k2 buf2 Hd Hk2 HI2)|right; rewrite Z.add_simpl_r; lia| |].
  - intro Hodd. pose proof (forward_no_mid d k1 buf1 Hd Hk1 HI1 Hodd). specialize (Ho Hodd).
    apply Z.odd_spec in Hodd as [q Hq]. unfold Dtot in *. lia.
  - intro Hev. pose proof (backward_no_mid d k2 buf2 Hd Hk2 HI2 Hev). specialize (He Hev).
    rewrite <- Z.negb_even in Hev. apply negb_false_iff, Z.even_spec in Hev as [q Hq]. unfold Dtot in *. lia.
Qed.
End Myers.

Lemma middle_unfold a b buf :
  middle a b buf =
  middle_loop a b (S (S (length a + length b))) 0 0 0
    (setb (setb buf ((zlen a + zlen b + 2) / 2 + 1) 0) (2 * ((zlen a + zlen b + 2) / 2) + (zlen a + zlen b + 2) / 2 + 1) 0).
Proof. reflexivity. Qed.

Theorem middle_spec a b buf : 2 <= zlen a -> 2 <= zlen b -> 2 * (zlen a + zlen b + 2) <= zlen buf ->
  exists ai bi s buf', middle a b buf = MidFound ai bi s buf' /\ zlen buf' = zlen buf /\ SplitOfMeet a b (ai, bi, s).
Proof.
  intros Hm Hn Hbuf. rewrite middle_unfold. set (buf0 := setb _ _ _).
  pose proof (mx_bounds a b) as Hmx. pose proof (Dtot_bounds a b) as HD.
  assert (HI : FwdInv a b (zlen buf) 0 (win_lo b 0) buf0).
  { constructor.
    - unfold buf0. now rewrite !zlen_setb.
    - apply Row_lo.
    - split; [intros _|lia]. unfold buf0. rewrite V1_set2, (V1_set1 a b), Z.eqb_refl; rewrite ?zlen_setb; lia.
    - split; [intros _|lia]. unfold buf0. rewrite V2_set2, Z.eqb_refl; rewrite ?zlen_setb; lia.
    - intros _ px py Hpx Hpy Hdist _. now apply (in_window_f a b px py 0). }
  pose proof (middle_loop_spec a b (zlen buf) Hbuf (S (S (length a + length b))) 0 0 0 buf0 (Z.le_refl 0) HI
                (or_introl (conj eq_refl (conj eq_refl eq_refl))) ltac:(lia) ltac:(lia)) as H.
  destruct (middle_loop _ _ _ _ _ _ _) as [ai bi s buf'| |]; [now exists ai, bi, s, buf'|exfalso..]; unfold zlen in *; lia.
Qed.

Theorem middle_sound : mid_sound middle.
Proof. intros a b buf ai bi s buf' H. exact (middle_loop_sound _ _ _ _ _ _ _ _ _ _ _ H). Qed.

Theorem lcs_correct a b chunks : lcs a b = LcsOk chunks -> script_ok chunks a b = true.
Proof. apply lcs_gen_correct. exact middle_sound. Qed.

Theorem middle_total a b buf : 2 <= zlen a -> 2 <= zlen b -> 2 * (zlen a + zlen b + 2) <= zlen buf ->
  exists ai bi s buf', middle a b buf = MidFound ai bi s buf'.
Proof. intros Hm Hn Hbuf. destruct (middle_spec a b buf Hm Hn Hbuf) as (ai & bi & s & buf' & H & _). eauto. Qed.

Theorem middle_optimal : mid_optimal middle.
Proof.
  intros a b buf ai bi s buf' Hm Hn Hbuf H.
  destruct (middle_spec a b buf Hm Hn Hbuf) as (ai' & bi' & s' & buf1 & E & Hl & Ho). rewrite H in E.
  injection E as <- <- <- <-. split; [exact Hl|].
  intros A1 A2 A3 A4 A5. apply optimal_split; try assumption.
  - apply snake_equal; try assumption. exact (middle_sound a b buf ai bi s buf' H).
  - now apply overlap_opt.
Qed.

Theorem script_minimal a b chunks : lcs a b = LcsOk chunks -> cost chunks = zlen a + zlen b - 2 * L a b.
Proof. apply lcs_gen_minimal. exact middle_optimal. Qed.

Corollary lcs_valid_and_minimal a b chunks : lcs a b = LcsOk chunks ->
  script_ok chunks a b = true /\ forall chunks', script_ok chunks' a b = true -> cost chunks <= cost chunks'.
Proof.
  intro H. split; [now apply lcs_correct|].
  intros chunks' H'. rewrite (script_minimal a b chunks H). now apply script_cost_lower_bound.
Qed.
