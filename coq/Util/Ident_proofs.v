(* Util/Ident.v: produced identifiers are valid (good); they are not empty for quoted names and for unquoted names
   with an ASCII letter or digit; the resolver keeps identifiers distinct unless it reports a clash. *)
From Coq Require Import List ZArith Bool Lia.
From TM Require Import Lib.ListX Lex.Tables Util.Ident.
Import ListNotations.
Local Open Scope Z_scope.

(* [good buf]: every byte is an ASCII identifier character and the first one is not a digit *)
Definition good (buf : bytes) : Prop :=
  forallb id_char buf = true /\ match buf with c :: _ => is_digit c = false | [] => True end.

Lemma good_nil : good []. Proof. split; [reflexivity|exact I]. Qed.

Lemma good_app buf w : good buf -> forallb id_char w = true ->
  (buf = [] -> match w with c :: _ => is_digit c = false | [] => True end) -> good (buf ++ w).
Proof.
  intros [H1 H2] Hw Hfirst. split.
  - rewrite forallb_app, H1, Hw. reflexivity.
  - destruct buf as [|c buf]; [cbn; now apply Hfirst|exact H2].
Qed.

Lemma good_cat a b : good a -> good b -> good (a ++ b).
Proof. intros Ha [Hb1 Hb2]. apply good_app; [exact Ha|exact Hb1|intros _; exact Hb2]. Qed.

Lemma good_valid buf : good buf -> buf <> [] -> is_valid_ascii buf = true.
Proof.
  intros [H1 H2] Hne. destruct buf as [|c buf]; [congruence|].
  unfold is_valid_ascii. rewrite H2, H1. reflexivity.
Qed.

Lemma id_char_upper c : id_char c = true -> id_char (to_upper c) = true.
Proof. unfold id_char, to_upper, is_lower, is_upper_ascii, is_digit. intro H. destruct ((97 <=? c) && (c <=? 122)) eqn:E; lia. Qed.

Lemma forallb_impl {A} (p q : A -> bool) l : (forall x, p x = true -> q x = true) -> forallb p l = true -> forallb q l = true.
Proof. intros H. rewrite !forallb_forall. auto. Qed.

Lemma lower_is_id w : forallb is_lower w = true -> forallb id_char w = true.
Proof. apply forallb_impl. intros c Hc. unfold id_char. now rewrite Hc. Qed.

Lemma id_upper_all w : forallb id_char w = true -> forallb id_char (map to_upper w) = true.
Proof.
  rewrite !forallb_forall. intros H x Hx. apply in_map_iff in Hx as (c & <- & Hc). apply id_char_upper, H, Hc.
Qed.

Lemma lower_word_upper w : forallb is_lower w = true -> forallb id_char (map to_upper w) = true.
Proof. intro H. apply id_upper_all, lower_is_id, H. Qed.

(* words that can be passed to [write]: non-empty, first byte a lowercase letter, rest lowercase or digits *)
Definition wordok (w : bytes) : bool :=
  match w with
  | c :: rest => is_lower c && forallb (fun x => is_lower x || is_digit x) rest
  | [] => false
  end.

(* charName as an association list read off the model: the keys are the ASCII codes that have a name *)
Fixpoint assoc (r : Z) (t : list (Z * bytes)) : option bytes :=
  match t with [] => None | (k, w) :: t' => if r =? k then Some w else assoc r t' end.

Definition char_table : list (Z * bytes) := Eval vm_compute in
  flat_map (fun k => match char_name k with Some w => [(k, w)] | None => [] end) (map Z.of_nat (seq 0 128)).

Lemma char_name_table r : char_name r = assoc r char_table.
Proof. reflexivity. Qed.

Lemma assoc_all (p : bytes -> bool) r w : forall t,
  forallb (fun e => p (snd e)) t = true -> assoc r t = Some w -> p w = true.
Proof.
  induction t as [|[k w0] t IH]; cbn [assoc forallb snd]; [discriminate|].
  intro H. apply andb_prop in H as [H0 Ht]. destruct (r =? k); [now intros [= <-] | now apply IH].
Qed.

Lemma char_name_ok r w : char_name r = Some w -> wordok w = true.
Proof. rewrite char_name_table. apply assoc_all. reflexivity. Qed.

Lemma hex_digit_ok d : 0 <= d < 16 -> is_lower (hex_digit d) || is_digit (hex_digit d) = true.
Proof. unfold hex_digit, is_lower, is_digit. intro H. destruct (d <? 10) eqn:E; lia. Qed.

Lemma hex_word_ok r : 0 <= r -> wordok (hex_word r) = true.
Proof.
  intro Hr. unfold hex_word. destruct (Z.leb_spec r 255); cbn [wordok forallb];
    rewrite !hex_digit_ok; try reflexivity; try (apply Z.mod_pos_bound; lia).
  split; [apply Z.div_pos | apply Z.div_lt_upper_bound]; lia.
Qed.

Lemma wordok_forms w : wordok w = true ->
  w <> [] /\ good w /\ good (to_upper (hd 0 w) :: tl w) /\ good (map to_upper w).
Proof.
  destruct w as [|c rest]; [discriminate|]. cbn [wordok hd tl map]. intro H. apply andb_prop in H as [Hc Hrest].
  assert (Hid : forallb id_char rest = true).
  { revert Hrest. apply forallb_impl. unfold id_char. intros x Hx.
    apply orb_prop in Hx as [->| ->]; now rewrite ?orb_true_r. }
  assert (Hcc : id_char c = true /\ is_digit c = false /\ is_digit (to_upper c) = false).
  { unfold id_char, to_upper. rewrite Hc. unfold is_lower, is_digit in *. lia. }
  destruct Hcc as (H1 & H2 & H3). pose proof (id_char_upper c H1) as H4. pose proof (id_upper_all rest Hid) as H5.
  unfold good. cbn [forallb]. rewrite H1, H4, Hid, H5. repeat split; try assumption. discriminate.
Qed.

Lemma write_good st buf w : good buf -> wordok w = true -> good (write st buf w).
Proof.
  intros Hg Hw. destruct (wordok_forms w Hw) as (_ & H1 & H2 & H3).
  assert (Hsep : good (if nonempty buf then buf ++ [95] else buf)).
  { destruct (nonempty buf); [apply good_cat; [exact Hg | split; reflexivity] | exact Hg]. }
  destruct w as [|c rest]; [discriminate|].
  destruct st; cbn [write]; try destruct (_ || _); apply good_cat; assumption.
Qed.

Lemma alnum_chars r : is_alnum r = true ->
  r < 128 /\ id_char (to_upper r) = true /\ id_char (to_lower r) = true /\
  (is_digit r = false -> is_digit (to_upper r) = false /\ is_digit (to_lower r) = false).
Proof.
  unfold is_alnum, id_char, to_upper, to_lower, is_lower, is_upper_ascii, is_digit. intro H.
  destruct ((97 <=? r) && (r <=? 122)) eqn:E1; destruct ((65 <=? r) && (r <=? 90)) eqn:E2; lia.
Qed.

Lemma nonempty_spec (b : bytes) : nonempty b = true <-> b <> [].
Proof. destruct b; cbn; split; congruence. Qed.

Definition the_word (r : Z) : bytes := match char_name r with Some w => w | None => hex_word r end.

Lemma the_word_ok r : 0 <= r -> wordok (the_word r) = true.
Proof. intro Hr. unfold the_word. destruct (char_name r) eqn:E; [exact (char_name_ok r _ E) | exact (hex_word_ok r Hr)]. Qed.

Lemma produce_step_good st q r prev next buf ct : 0 <= r -> good buf ->
  good (fst (produce_step st q r prev next buf ct)).
Proof.
  intros Hr Hg. unfold produce_step.
  assert (Hsep : good (buf ++ [95])) by (apply good_app; [exact Hg|reflexivity|intros _; reflexivity]).
  destruct (is_alnum r) eqn:Ea; cbn [fst].
  - destruct (alnum_chars r Ea) as (_ & Hu & Hl & Hd).
    match goal with |- context [if ?c then buf ++ [95] else buf] => set (cnd := c) end.
    (* an empty buffer takes the separator exactly when r is a digit *)
    assert (Hfirst : (if cnd then buf ++ [95] else buf) = [] -> is_digit r = false).
    { destruct buf; [|destruct cnd; discriminate]. unfold cnd. cbn [nonempty negb]. rewrite andb_false_r. cbn [andb orb].
      destruct (is_digit r); [discriminate|reflexivity]. }
    match goal with |- good (if ?c then _ else _) => destruct c end;
      (apply good_app; [destruct cnd; assumption | cbn [forallb]; now rewrite ?Hu, ?Hl | intro He; apply Hd, Hfirst, He]).
  - destruct (negb q); [destruct (_ || _); assumption|].
    destruct (r =? 95); [exact Hsep | apply write_good; [exact Hg | apply the_word_ok, Hr]].
Qed.

Definition byte_list (l : bytes) : Prop := Forall (fun b => 0 <= b < 256) l.

Lemma cont_ge x : cont x = true -> 128 <= x.
Proof. unfold cont. intro H. apply andb_prop in H as [H _]. now apply Z.leb_le. Qed.

(* the lower bound on the second byte depends on the first, but is never below 128 *)
Lemma range_ge (c : bool) lo hi x : 128 <= lo -> ((if c then lo else 128) <=? x) && (x <=? hi) = true -> 128 <= x.
Proof. intros Hlo H. apply andb_prop in H as [H _]. apply Z.leb_le in H. destruct c; lia. Qed.

(* utf8.DecodeRune: an ASCII byte is its own rune; anything else decodes (possibly to RuneError) to a
   non-negative rune, consuming at least one byte, none of them ASCII *)
Definition decoded (b : Z) (t : bytes) (rw : Z * nat) : Prop :=
  (b < 128 /\ rw = (b, 1%nat)) \/
  (0 <= fst rw /\ (1 <= snd rw)%nat /\ Forall (fun x => 128 <= x) (firstn (snd rw) (b :: t))).

Lemma decode_rune_cases b t : decoded b t (decode_rune (b :: t)).
Proof.
  unfold decode_rune. destruct (Z.ltb_spec b 128) as [Hb|Hb]; [left; auto|].
  assert (Herr : decoded b t (rune_error, 1%nat)) by (right; cbn [fst snd firstn]; unfold rune_error; repeat constructor; lia).
  destruct (Z.ltb_spec b 194) as [|H2]; [exact Herr|].
  destruct (Z.ltb_spec b 224) as [|H3].
  { destruct t as [|b1 t]; [exact Herr|]. destruct (cont b1) eqn:E1; [|exact Herr].
    apply cont_ge in E1. right. cbn [fst snd firstn]. repeat constructor; lia. }
  destruct (Z.ltb_spec b 240) as [|H4].
  { destruct t as [|b1 [|b2 t]]; try exact Herr. cbv zeta. destruct (_ && _) eqn:E; [|exact Herr].
    apply andb_prop in E as [E1 E2]. apply range_ge in E1; [|lia]. apply cont_ge in E2.
    right. cbn [fst snd firstn]. repeat constructor; lia. }
  destruct (Z.ltb_spec b 245) as [|H5]; [|exact Herr].
  destruct t as [|b1 [|b2 [|b3 t]]]; try exact Herr. cbv zeta. destruct (_ && _) eqn:E; [|exact Herr].
  apply andb_prop in E as [E E3]. apply andb_prop in E as [E1 E2].
  apply range_ge in E1; [|lia]. apply cont_ge in E2, E3. right. cbn [fst snd firstn]. repeat constructor; lia.
Qed.

(* The range loop: a relation I between the unread input and the buffer that every iteration preserves holds
   at the end, where (given enough fuel) the input is used up. *)
Lemma produce_loop_inv (I : bytes -> bytes -> Prop) (Q : bytes -> Prop) st q :
  (forall b t r w prev buf ct, decode_rune (b :: t) = (r, w) -> I (b :: t) buf ->
     I (skipn w (b :: t)) (fst (produce_step st q r prev (hd_error (skipn w (b :: t))) buf ct))) ->
  (forall buf, I [] buf -> Q buf) ->
  forall fuel prev rest buf ct, (length rest < fuel)%nat -> I rest buf ->
  Q (produce_loop fuel st q prev rest buf ct).
Proof.
  intros Hstep Hend. induction fuel as [|f IH]; intros prev rest buf ct Hf HI; [lia|].
  destruct rest as [|b t]; [now apply Hend|]. cbn [produce_loop].
  destruct (decode_rune (b :: t)) as [r w] eqn:Ed.
  specialize (Hstep b t r w prev buf ct Ed HI).
  destruct (produce_step st q r prev (hd_error (skipn w (b :: t))) buf ct) as [buf' ct']. apply IH; [|exact Hstep].
  rewrite skipn_length. pose proof (decode_rune_cases b t) as Hd. rewrite Ed in Hd.
  destruct Hd as [(_ & [= _ ->])|(_ & Hw & _)]; cbn [length snd] in *; lia.
Qed.

Lemma decode_rune_nonneg b t r w : byte_list (b :: t) -> decode_rune (b :: t) = (r, w) -> 0 <= r.
Proof.
  intros Hb Ed. inversion Hb; subst. pose proof (decode_rune_cases b t) as Hd. rewrite Ed in Hd.
  destruct Hd as [(_ & [= -> _])|(Hr & _)]; [lia|exact Hr].
Qed.

Lemma produce_loop_good st q fuel prev rest buf ct :
  (length rest < fuel)%nat -> byte_list rest -> good buf -> good (produce_loop fuel st q prev rest buf ct).
Proof.
  intros Hf Hb Hg. apply (produce_loop_inv (fun rest buf => byte_list rest /\ good buf)); [|tauto|exact Hf|now split].
  intros b t r w prev' buf' ct' Ed [Hb' Hg']. split; [now apply Forall_skipn'|].
  apply produce_step_good; [exact (decode_rune_nonneg b t r w Hb' Ed) | exact Hg'].
Qed.

Lemma byte_list_removelast s : byte_list s -> byte_list (removelast s).
Proof.
  destruct s as [|a s] using rev_ind; [auto|]. rewrite removelast_last. intro H. now apply Forall_app in H.
Qed.

Lemma unescape_bytes body : byte_list body -> byte_list (unescape body).
Proof.
  intro Hb. unfold unescape.
  destruct body as [|x [|c [|? ?]]]; try exact Hb.
  destruct (_ && _); [|exact Hb]. now inversion Hb.
Qed.

Lemma strip_quotes_bytes name body : byte_list name -> strip_quotes name = Some body -> byte_list body /\ body <> [].
Proof.
  intros Hb Hs. unfold strip_quotes in Hs. destruct name as [|q rest]; [discriminate|].
  destruct (2 <? _) eqn:E in Hs; [|discriminate]. destruct (_ && _) in Hs; [|discriminate]. injection Hs as <-.
  split; [apply byte_list_removelast; now inversion Hb|].
  destruct rest as [|a [|b rest']]; cbn in E; discriminate.
Qed.

Lemma init_buf_good st body : good (init_buf st body).
Proof.
  unfold init_buf. destruct body as [|c [|? ?]]; try apply good_nil.
  destruct (char_name (fst (decode_rune [c]))); [apply good_nil|].
  assert (Hg : good (write st [] [99; 104; 97; 114])) by (apply write_good; [apply good_nil|reflexivity]).
  destruct (_ || _); [|exact Hg]. apply good_cat; [exact Hg|split; reflexivity].
Qed.

(* In every style the identifier consists of ASCII letters, digits and '_' and does not start with a digit:
   valid in all targets once it is non-empty. *)
Theorem produce_good name st : byte_list name -> good (produce name st).
Proof.
  intro Hb. unfold produce. destruct (strip_quotes name) as [body|] eqn:Es.
  - destruct (_ && style_eqb st UpperCase); [split; reflexivity|].
    apply produce_loop_good; [lia | apply unescape_bytes, (strip_quotes_bytes name body Hb Es) | apply init_buf_good].
  - apply produce_loop_good; [lia | exact Hb | apply good_nil].
Qed.

Corollary produce_valid name st : byte_list name -> produce name st <> [] ->
  is_valid_ascii (produce name st) = true.
Proof. intros Hb Hne. apply good_valid; [now apply produce_good|exact Hne]. Qed.

Lemma write_length st buf w : (length buf + length w <= length (write st buf w))%nat.
Proof.
  unfold write. destruct st; try (destruct (_ || _); [destruct w|]); try destruct (nonempty buf);
    rewrite ?app_length, ?map_length; cbn [length]; lia.
Qed.

(* an iteration never shrinks the buffer; it adds at least one byte for an ASCII letter or digit, and for
   any rune inside quotes *)
Lemma step_length st q r prev next buf ct :
  (length buf + (if is_alnum r || q && (0 <=? r)%Z then 1 else 0) <=
   length (fst (produce_step st q r prev next buf ct)))%nat.
Proof.
  unfold produce_step. destruct (is_alnum r); cbn [fst orb].
  - match goal with |- context [if ?c then buf ++ [95] else buf] => destruct c end;
    match goal with |- context [length (if ?c then _ else _)] => destruct c end;
    rewrite !app_length; cbn [length]; lia.
  - destruct q; cbn [negb andb].
    + destruct (r =? 95); cbn [fst]; [rewrite app_length; cbn [length]; destruct (0 <=? r); lia|].
      fold (the_word r). pose proof (write_length st buf (the_word r)) as H.
      destruct (Z.leb_spec 0 r) as [Hr|_]; cbv iota; [|lia]. apply the_word_ok in Hr.
      destruct (the_word r); [discriminate|]. cbn [length] in H. lia.
    + destruct (_ || _); cbn [fst]; rewrite ?app_length; cbn [length]; lia.
Qed.

Corollary step_nonempty st q r prev next buf ct :
  buf <> [] \/ is_alnum r = true \/ (q = true /\ 0 <= r) -> fst (produce_step st q r prev next buf ct) <> [].
Proof.
  intros Hc E. pose proof (step_length st q r prev next buf ct) as H. rewrite E in H. cbn [length] in H.
  destruct Hc as [Hb|[Ha|[-> Hr]]].
  - destruct buf; [congruence|cbn [length] in H; lia].
  - rewrite Ha in H. cbn in H. lia.
  - replace (0 <=? r) with true in H by lia. rewrite orb_true_r in H. lia.
Qed.

Theorem produce_quoted_nonempty name st body : byte_list name -> strip_quotes name = Some body ->
  produce name st <> [].
Proof.
  intros Hb Hs. unfold produce. rewrite Hs. destruct (_ && _); [discriminate|].
  destruct (strip_quotes_bytes name body Hb Hs) as [Hbl Hne].
  (* once the input is used up the buffer is not empty: the body is not empty, and every rune adds to it *)
  apply (produce_loop_inv (fun rest buf => byte_list rest /\ (rest = [] -> buf <> []))); [|tauto|lia|].
  - intros b t r w prev buf ct Ed [Hbt _]. split; [now apply Forall_skipn'|]. intros _.
    apply step_nonempty. right; right. split; [reflexivity|exact (decode_rune_nonneg b t r w Hbt Ed)].
  - split; [now apply unescape_bytes|]. intro He. exfalso. revert He. unfold unescape.
    destruct body as [|x [|c [|? ?]]]; try discriminate; try congruence. destruct (_ && _); discriminate.
Qed.

Theorem produce_alnum_nonempty name st c : byte_list name -> In c name -> is_alnum c = true ->
  strip_quotes name = None -> produce name st <> [].
Proof.
  intros Hb Hin Ha Hs. unfold produce. rewrite Hs.
  (* c is yet to be read, or the buffer is not empty: decoding never swallows an ASCII byte into a longer rune *)
  apply (produce_loop_inv (fun rest buf => In c rest \/ buf <> [])); [|now intros buf [[]|H]|lia|now left].
  intros b t r w prev buf ct Ed [Hc|Hne]; [|right; apply step_nonempty; now left].
  destruct (alnum_chars c Ha) as (Hc128 & _).
  pose proof (decode_rune_cases b t) as Hd. rewrite Ed in Hd. destruct Hd as [(_ & [= -> ->])|(_ & _ & Hhi)]; cbn [snd] in *.
  - destruct Hc as [->|Hc]; [right; apply step_nonempty; now (right; left) | now left].
  - left. rewrite <- (firstn_skipn w (b :: t)) in Hc. apply in_app_or in Hc as [Hc|Hc]; [|exact Hc].
    rewrite Forall_forall in Hhi. specialize (Hhi c Hc). lia.
Qed.

Lemma bytes_eqb_eq a : forall b, bytes_eqb a b = true <-> a = b.
Proof.
  induction a as [|x a IH]; destruct b as [|y b]; cbn [bytes_eqb]; try (split; discriminate); [tauto|].
  rewrite andb_true_iff, Z.eqb_eq, IH. split; [intros [-> ->]; reflexivity|intros [= -> ->]; auto].
Qed.

Definition ids_injective (l : list (bytes * bytes)) : Prop :=
  forall e1 e2, In e1 l -> In e2 l -> fst e1 = fst e2 -> e1 = e2.

Definition declare_all (s : rstate) (ds : list (bytes * style)) : rstate :=
  fold_left (fun s d => declare s (fst d) (snd d)) ds s.

Lemma declare_all_inv (P : rstate -> Prop) :
  (forall s name st, P s -> P (declare s name st)) -> forall ds s, P s -> P (declare_all s ds).
Proof. intro H. induction ds as [|d ds IH]; intros s Hs; [exact Hs|]. apply IH, H, Hs. Qed.

Lemma declare_errors_mono s name st : (r_errors s <= r_errors (declare s name st))%nat.
Proof. unfold declare. destruct (existsb _ _); [lia|]. cbn [r_errors]. lia. Qed.

Lemma declare_injective s name st : ids_injective (r_ids s) ->
  r_errors (declare s name st) = r_errors s -> ids_injective (r_ids (declare s name st)).
Proof.
  intros Hinj Herr. unfold declare in *. destruct (existsb (fun e => bytes_eqb (snd e) name) (r_ids s)); [exact Hinj|].
  cbn [r_ids r_errors] in *.
  destruct (existsb (fun e => bytes_eqb (fst e) (produce name st)) (r_ids s)) eqn:E; [lia|].
  assert (Hnew : forall e, In e (r_ids s) -> fst e <> produce name st).
  { intros e He Heq. rewrite (proj2 (existsb_exists _ _)) in E; [discriminate|].
    exists e. split; [exact He|]. now apply bytes_eqb_eq. }
  intros e1 e2 [<-|H1] [<-|H2] Heq; cbn [fst] in *.
  - reflexivity.
  - destruct (Hnew e2 H2). now symmetry.
  - destruct (Hnew e1 H1 Heq).
  - now apply Hinj.
Qed.

Theorem resolver_injective ds : forall s, ids_injective (r_ids s) ->
  r_errors (declare_all s ds) = r_errors s -> ids_injective (r_ids (declare_all s ds)).
Proof.
  intros s Hinj.
  (* the error count never decreases, so it stays put at every declaration on the way *)
  apply (declare_all_inv (fun s' => (r_errors s <= r_errors s')%nat /\
                                    (r_errors s' = r_errors s -> ids_injective (r_ids s')))); [|now split].
  intros s' name st [Hle Hi]. pose proof (declare_errors_mono s' name st) as Hm. split; [lia|].
  intro He. apply declare_injective; [apply Hi|]; lia.
Qed.
