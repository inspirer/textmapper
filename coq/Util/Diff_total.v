(* trace and lcs never fail: the split returned by middle lies in the grid, makes progress and leaves
   sub-problems without a common first / last element, and the model's fuel suffices. *)
From Coq Require Import List ZArith Bool Lia.
From TM Require Import Util.Diff Util.Diff_lcs Util.Diff_proofs Util.Diff_dist Util.Diff_greedy Util.Diff_myers.
Import ListNotations.
Local Open Scope Z_scope.

(* the precondition of trace stated in diff.go ("a and b don't have a common prefix or suffix"), as trace
   needs it: non-empty sequences differ in their first and in their last element *)
Definition NoCommon (a b : list Z) : Prop :=
  1 <= zlen a -> 1 <= zlen b -> elt a 0 <> elt b 0 /\ elt a (zlen a - 1) <> elt b (zlen b - 1).

Lemma NoCommon_hd a b : hd_neq a b -> hd_neq (rev a) (rev b) -> NoCommon a b.
Proof.
  intros H1 H2 Ha Hb. split; [now apply H1|]. rewrite <- (zlen_rev a) in Ha. rewrite <- (zlen_rev b) in Hb.
  specialize (H2 Ha Hb). now rewrite !elt_rev, !Z.sub_0_r in H2.
Qed.

(* a common subsequence can then use neither both first nor both last elements, so it leaves out two elements *)
Lemma Dtot_ge_2 a b : 2 <= zlen a -> 2 <= zlen b -> NoCommon a b -> 2 <= Dtot a b.
Proof.
  intros Hm Hn Hnc. destruct (Hnc ltac:(lia) ltac:(lia)) as [H0 H1].
  rewrite <- (Z.sub_0_r (zlen a)), <- (Z.sub_0_r (zlen b)), <- !elt_rev in H1.
  destruct a as [|x a]; [cbn in Hm; lia|]. destruct b as [|y b]; [cbn in Hn; lia|].
  destruct (exists_last (l := a)) as (a' & p & ->); [intros ->; cbn in Hm; lia|].
  destruct (exists_last (l := b)) as (b' & q & ->); [intros ->; cbn in Hn; lia|].
  cbn [rev] in H1. rewrite !rev_app_distr in H1. cbn in H0, H1.
  unfold Dtot. rewrite L_cons, (proj2 (Z.eqb_neq x y) H0), !zlen_cons, !zlen_app.
  change (y :: b' ++ [q]) with ((y :: b') ++ [q]). change (x :: a' ++ [p]) with ((x :: a') ++ [p]).
  rewrite !(L_snoc_neq _ _ p q H1).
  pose proof (L_le_len_l a' ((y :: b') ++ [q])). pose proof (L_le_len_r a' ((y :: b') ++ [q])).
  pose proof (L_le_len_l (a' ++ [p]) (y :: b')). pose proof (L_le_len_r (a' ++ [p]) (y :: b')).
  pose proof (L_le_len_l (x :: a') (b' ++ [q])). pose proof (L_le_len_r (x :: a') (b' ++ [q])).
  pose proof (L_le_len_l ((x :: a') ++ [p]) b'). pose proof (L_le_len_r ((x :: a') ++ [p]) b').
  rewrite ?zlen_app, ?zlen_cons in *. change (zlen (@nil Z)) with 0 in *. lia.
Qed.

(* a furthest point of cost d, on a diagonal that a path of cost d' can still reach from the far corner,
   lies in the grid when d + d' does not exceed the edit distance *)
Lemma Vok_in_grid a b d d' k v : Vok (dist a b) d k v -> 0 <= d' -> d + d' <= Dtot a b ->
  - d' - 1 <= k - (zlen a - zlen b) <= d' + 1 -> v <= zlen a /\ v - k <= zlen b.
Proof.
  intros [V1 [V2 [V3 _]]] Hd' Hsum Hk. pose proof (dist_full a b) as Hf.
  destruct (Z.le_gt_cases v (zlen a)) as [Hx|Hx], (Z.le_gt_cases (v - k) (zlen b)) as [Hy|Hy]; [lia|exfalso..].
  - rewrite dist_sat_y in V3 by lia. pose proof (dist_rdist_ge a b v (zlen b)). rewrite rdist_xn in * by lia. lia.
  - rewrite dist_sat_x in V3 by lia. pose proof (dist_rdist_ge a b (zlen a) (v - k)). rewrite rdist_mx in * by lia. lia.
  - rewrite dist_sat_x, dist_sat_y in V3 by lia. lia.
Qed.

Lemma Vok_stuck a b d k v : Vok (dist a b) d k v -> v < zlen a -> v - k < zlen b -> elt a v <> elt b (v - k).
Proof.
  intros [V1 [V2 [V3 V4]]] Hx Hy Heq.
  assert (Hm : gmatch a b v (v - k) = true) by (unfold gmatch; rewrite !(proj2 (Z.ltb_lt _ _)) by lia; now apply Z.eqb_eq).
  pose proof (dist_match a b v (v - k) V1 ltac:(lia) Hm) as Hd.
  specialize (V4 (v + 1) ltac:(lia) ltac:(lia)). replace (v + 1 - k) with (v - k + 1) in V4 by lia. lia.
Qed.

Definition Good (a b : list Z) (ai bi s : Z) : Prop :=
  0 <= ai /\ 0 <= bi /\ 0 <= s /\ ai + s <= zlen a /\ bi + s <= zlen b /\
  ~ (ai = 0 /\ bi = 0) /\ ~ (ai = zlen a /\ bi = zlen b) /\
  (1 <= ai -> 1 <= bi -> elt a (ai - 1) <> elt b (bi - 1)) /\
  (ai + s < zlen a -> bi + s < zlen b -> elt a (ai + s) <> elt b (bi + s)).

(* when the distance is at least 2 a meeting lies in the grid, its split makes progress and the two sub-problems
   have no common first / last element, since neither furthest point is followed by a match *)
Lemma overlap_gen a b ai bi s : 2 <= Dtot a b -> SplitOfMeet a b (ai, bi, s) -> Good a b ai bi s.
Proof.
  intros HD (df & dr & k & fx & ru & [HF HR Hov Hdr Hdf Hsum] & E).
  unfold split_of in E. remember (count_snake _ _ _ _) as sn eqn:Es in E. injection E as -> -> ->.
  remember (- (zlen b - zlen a) - k) as k2 eqn:Ek2.
  pose proof HF as [F1 [F2 [F3 _]]]. pose proof HR as [R1 [R2 [R3 _]]].
  pose proof (dist_ge_diff a b fx (fx - k) F1 ltac:(lia)) as FG.
  pose proof (dist_ge_diff (rev a) (rev b) ru (ru - k2) R1 ltac:(lia)) as RG.
  pose proof (zlen_nonneg a) as Hm0. pose proof (zlen_nonneg b) as Hn0.
  destruct (Vok_in_grid a b df dr k fx HF Hdr Hsum ltac:(lia)) as [Hfx Hfy].
  destruct (Vok_in_grid (rev a) (rev b) dr df k2 ru HR ltac:(lia) ltac:(rewrite Dtot_rev; lia)
              ltac:(rewrite !zlen_rev; lia)) as [Hru Hrw].
  pose proof (dist_full a b) as Hfull. pose proof (dist_full (rev a) (rev b)) as HfullR.
  rewrite Dtot_rev, !zlen_rev in HfullR. rewrite zlen_rev in Hru, Hrw.
  destruct (count_snake_spec (fun s => elt a (zlen a - ru + s) =? elt b (zlen a - ru - k + s))
              (fx - (zlen a - ru)) (S (length a + length b)) 0) as [C1 [_ C23]]. cbn zeta in C1, C23.
  destruct C23 as [C2 C3]; [unfold zlen in *; lia|]. rewrite <- Es in C1, C2, C3. cbn beta in C3.
  unfold Good. repeat split; try lia.
  - intros [E1 E2]. replace ru with (zlen a) in R3 by lia. replace (zlen a - k2) with (zlen b) in R3 by lia. lia.
  - intros [E1 E2]. replace fx with (zlen a) in F3 by lia. replace (zlen a - k) with (zlen b) in F3 by lia. lia.
  - intros A1 A2. pose proof (Vok_stuck _ _ _ _ _ HR) as SR. rewrite !zlen_rev, !elt_rev in SR.
    replace (zlen a - ru - k - 1) with (zlen b - (ru - k2) - 1) by lia. apply SR; lia.
  - intros A1 A2. destruct (Z.lt_ge_cases sn (fx - (zlen a - ru))) as [Hlt|Hge].
    + now apply Z.eqb_neq, C3.
    + replace (zlen a - ru + sn) with fx by lia. replace (zlen a - ru - k + sn) with (fx - k) by lia.
      apply (Vok_stuck _ _ _ _ _ HF); lia.
Qed.

Theorem middle_good a b buf ai bi s buf' : 2 <= zlen a -> 2 <= zlen b -> 2 * (zlen a + zlen b + 2) <= zlen buf ->
  NoCommon a b -> middle a b buf = MidFound ai bi s buf' -> zlen buf' = zlen buf /\ Good a b ai bi s.
Proof.
  intros Hm Hn Hbuf Hnc H. destruct (middle_spec a b buf Hm Hn Hbuf) as (ai' & bi' & s' & buf1 & E & Hl & Ho).
  rewrite H in E. injection E as <- <- <- <-. split; [exact Hl|]. apply overlap_gen; [now apply Dtot_ge_2|exact Ho].
Qed.

Lemma Good_split a b ai bi s : NoCommon a b -> 1 <= zlen a -> 1 <= zlen b -> Good a b ai bi s ->
  NoCommon (sub a 0 ai) (sub b 0 bi) /\ NoCommon (sub a (ai + s) (zlen a)) (sub b (bi + s) (zlen b)) /\
  zlen (sub a 0 ai) + zlen (sub b 0 bi) < zlen a + zlen b /\
  zlen (sub a (ai + s) (zlen a)) + zlen (sub b (bi + s) (zlen b)) < zlen a + zlen b.
Proof.
  intros Hnc Hm Hn (G1 & G2 & G3 & G4 & G5 & GR). destruct (Hnc Hm Hn) as [H0 H1]. clear Hnc. revert GR.
  unfold NoCommon. rewrite !sub_length, !Z.sub_0_r by lia. intros (G6 & G7 & G8 & G9).
  split; [|split; [|lia]]; intros Ha Hb; clear G6 G7; rewrite !elt_sub by lia.
  - rewrite !Z.add_0_l. split; [exact H0|apply G8; lia].
  - rewrite !Z.add_0_r. split; [apply G9; lia|].
    replace (ai + s + (zlen a - (ai + s) - 1)) with (zlen a - 1) by lia.
    now replace (bi + s + (zlen b - (bi + s) - 1)) with (zlen b - 1) by lia.
Qed.

Theorem trace_total : forall fuel a b buf chunks,
  zlen a + zlen b < Z.of_nat fuel -> 2 * (zlen a + zlen b + 2) <= zlen buf -> NoCommon a b ->
  exists ret buf', trace middle fuel a b buf chunks = TraceOk ret buf' /\ zlen buf' = zlen buf.
Proof.
  induction fuel as [|f IH]; intros a b buf chunks Hfuel Hbuf Hnc.
  { pose proof (zlen_nonneg a). pose proof (zlen_nonneg b). lia. }
  rewrite trace_S. destruct (small a b) as [sc|] eqn:Es; [eauto|]. destruct (small_none _ _ Es) as [Hm Hn].
  destruct (middle_total a b buf Hm Hn Hbuf) as (ai & bi & s & buf1 & Em). rewrite Em.
  destruct (middle_good a b buf ai bi s buf1 Hm Hn Hbuf Hnc Em) as [Hl1 HG].
  destruct (Good_split a b ai bi s Hnc ltac:(lia) ltac:(lia) HG) as (N1 & N2 & S1 & S2).
  destruct HG as (G1 & G2 & G3 & G4 & G5 & G6 & G7 & _).
  rewrite (proj2 (orb_false_iff _ _)), !(proj2 (Z.leb_le _ _)) by
    (assumption || (rewrite !andb_false_iff, !Z.eqb_neq; lia)). cbn [andb negb]. clear G6 G7.
  destruct (IH (sub a 0 ai) (sub b 0 bi) buf1 chunks ltac:(lia) ltac:(lia) N1) as (ret1 & buf2 & -> & Hl2).
  destruct (IH (sub a (ai + s) (zlen a)) (sub b (bi + s) (zlen b)) buf2
              (if s >? 0 then ret1 ++ [mkChunk 0 0 s] else ret1) ltac:(lia) ltac:(lia) N2)
    as (ret2 & buf3 & -> & Hl3).
  exists ret2, buf3. split; [reflexivity|lia].
Qed.

Lemma trimmed_NoCommon a b :
  let p := common_prefix a b in
  let ln := (Nat.min (length a) (length b) - p)%nat in
  let s := Nat.min ln (common_prefix (rev a) (rev b)) in
  NoCommon (firstn (length a - p - s) (skipn p a)) (firstn (length b - p - s) (skipn p b)).
Proof.
  intros p ln s. subst s ln p.
  destruct (trim_spec a b) as (front & a' & b' & back & Ea & Eb & -> & -> & H1 & H2).
  rewrite Ea at 1 2. rewrite Eb at 1 2. rewrite !mid_of_app. now apply NoCommon_hd.
Qed.

Theorem lcs_total a b : exists chunks, lcs a b = LcsOk chunks.
Proof.
  unfold lcs. destruct (lcs_gen_eq middle a b) as (front & a' & b' & back & _ & _ & H1 & H2 & ->).
  destruct (trace_total (S (length a' + length b')) a' b' (repeat 0 (2 * (length a' + length b' + 2)))
              (keep (zlen front))) as (ret & buf' & -> & _); [unfold zlen; lia|unfold zlen; rewrite repeat_length; lia| |eauto].
  now apply NoCommon_hd.
Qed.

Theorem script_minimal_total a b :
  exists chunks, lcs a b = LcsOk chunks /\ script_ok chunks a b = true /\
    cost chunks = zlen a + zlen b - 2 * L a b /\
    forall chunks', script_ok chunks' a b = true -> cost chunks <= cost chunks'.
Proof.
  destruct (lcs_total a b) as [chunks H]. exists chunks. split; [exact H|].
  destruct (lcs_valid_and_minimal a b chunks H) as [H1 H2]. repeat split; try assumption.
  now apply script_minimal.
Qed.

Lemma line_diff_total a b : a <> b ->
  exists chunks, lcs a b = LcsOk chunks /\ script_ok chunks a b = true /\
    line_diff a b = Some (diff_loop chunks true a b 0 0 (mkHunk 1 1 0 0 []) []).
Proof.
  intro H. destruct (lcs_total a b) as [c E]. exists c. split; [exact E|]. split; [now apply lcs_correct|].
  unfold line_diff. destruct (seq_eqb a b) eqn:Eq; [apply seq_eqb_eq in Eq; contradiction|]. now rewrite E.
Qed.
