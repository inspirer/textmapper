(* The model of util/graph/tarjan.go (Util/Graph.v: strong_connect, tarjan_run) meets its contract, in the style
   of Chen, Cohen, Levy, Merz, Thery: an invariant over the imperative state with the active call chain as ghost
   list, a pre/post specification of strong_connect by induction on the fuel, a loop invariant for the successors. *)
From Coq Require Import List ZArith Bool Lia.
From TM Require Import Lib.ListX Util.Graph Util.Graph_proofs Util.GraphSpec Util.GraphSpec_proofs.
Import ListNotations.
Local Open Scope Z_scope.

Lemma getZ_upd (l : list Z) i x j : (i < length l)%nat ->
  getZ (upd l i x) j = if Nat.eq_dec j i then x else getZ l j.
Proof. intro H. unfold getZ. now apply upd_nth. Qed.

Lemma getZ_overflow (l : list Z) j : (length l <= j)%nat -> getZ l j = -1.
Proof. intro H. unfold getZ. now apply nth_overflow. Qed.

Lemma fold_upd_false_length (c : list nat) : forall on,
  length (fold_left (fun on x => upd on x false) c on) = length on.
Proof. induction c as [|x c IH]; intro on; cbn [fold_left]; [reflexivity|]. now rewrite IH, upd_length. Qed.

Lemma fold_upd_false_nth (c : list nat) : forall on j,
  (forall x, In x c -> (x < length on)%nat) ->
  (nth j (fold_left (fun on x => upd on x false) c on) false = true <->
   nth j on false = true /\ ~ In j c).
Proof.
  induction c as [|x c IH]; intros on j Hr; cbn [fold_left].
  - cbn. tauto.
  - rewrite IH by (intros y Hy; rewrite upd_length; apply Hr; now right).
    rewrite upd_nth by (apply Hr; now left).
    destruct (Nat.eq_dec j x) as [->|Hne]; cbn [In].
    + split; [intros [H _]; discriminate|intros [_ H]; exfalso; apply H; now left].
    + split; [intros [H1 H2]; split; [exact H1|intros [E|E]; [congruence|contradiction]]|].
      intros [H1 H2]. split; [exact H1|tauto].
Qed.

Definition edge (g : graph) (a b : nat) : Prop := In b (nth a g []).

Inductive reach' (g : graph) : nat -> nat -> Prop :=
| r_refl a : reach' g a a
| r_step a c b : edge g a c -> reach' g c b -> reach' g a b.

Lemma reach'_trans g a b c : reach' g a b -> reach' g b c -> reach' g a c.
Proof. intros P Q. induction P; [exact Q|eapply r_step; eauto]. Qed.

Lemma reach'_edge g a b : edge g a b -> reach' g a b.
Proof. intro H. eapply r_step; [exact H|apply r_refl]. Qed.

Lemma edge_src_lt g a b : edge g a b -> (a < length g)%nat.
Proof.
  unfold edge. intro H. destruct (Nat.lt_ge_cases a (length g)) as [Ha|Ha]; [exact Ha|].
  rewrite nth_overflow in H by exact Ha. destruct H.
Qed.

Lemma edge_dst_lt g a b : graph_wf g = true -> edge g a b -> (b < length g)%nat.
Proof.
  unfold graph_wf, edge. intros Hwf H. rewrite forallb_forall in Hwf.
  assert (Ha := edge_src_lt g a b H).
  specialize (Hwf (nth a g []) (nth_In g [] Ha)). rewrite forallb_forall in Hwf.
  apply Nat.ltb_lt. now apply Hwf.
Qed.

Lemma edge_gedge g a b : graph_wf g = true -> edge g a b -> gedge g a b.
Proof.
  intros Hwf H. split; [eapply edge_src_lt; eauto|]. split; [eapply edge_dst_lt; eauto|exact H].
Qed.

Lemma reach'_greach g a b : graph_wf g = true -> reach' g a b -> a = b \/ greach g a b.
Proof.
  intros Hwf P. induction P as [a|a c b He P IH]; [now left|]. right.
  assert (Hac : greach g a c) by (apply gedge_greach; now apply edge_gedge).
  destruct IH as [<-|IH]; [exact Hac|]. eapply greach_trans; eauto.
Qed.

Lemma greach_reach' g : forall a b, greach g a b -> reach' g a b.
Proof.
  apply greach_ind_edge; [intros a b E; apply reach'_edge; apply E|].
  intros a c b E _ IH. eapply r_step; [apply E|exact IH].
Qed.

Lemma reach'_closed g (S : nat -> Prop) : (forall x w, S x -> edge g x w -> S w) ->
  forall a b, reach' g a b -> S a -> S b.
Proof. intros Hc a b P. induction P as [|a c b E _ IH]; intro Ha; [exact Ha|]. exact (IH (Hc a c Ha E)). Qed.

Fixpoint out_closed (g : graph) (seen : list nat) (out : list (list nat * list bool)) : Prop :=
  match out with
  | [] => True
  | co :: rest =>
      (forall x w, In x (fst co) -> edge g x w -> In w (seen ++ fst co)) /\
      out_closed g (seen ++ fst co) rest
  end.

Definition comp_ok (g : graph) (co : list nat * list bool) : Prop :=
  (forall x y, In x (fst co) -> In y (fst co) -> reach' g x y) /\
  (forall x w, In x (fst co) -> edge g x w -> (nth w (snd co) false = true <-> In w (fst co))).

Definition OutOK (g : graph) (out : list (list nat * list bool)) : Prop :=
  out_closed g [] out /\ Forall (comp_ok g) out.

Lemma out_closed_snoc g co : forall out seen, out_closed g seen out ->
  (forall x w, In x (fst co) -> edge g x w -> In w (seen ++ concat (map fst out) ++ fst co)) ->
  out_closed g seen (out ++ [co]).
Proof.
  induction out as [|co' out IH]; intros seen Ho Hc; cbn [app out_closed map concat] in *.
  - split; [exact Hc|exact I].
  - split; [apply Ho|]. apply IH; [apply Ho|]. intros x w Hx He. specialize (Hc x w Hx He).
    rewrite <- !app_assoc in *. exact Hc.
Qed.

Definition idx (s : tst) (v : nat) : Z := getZ (t_index s) v.
Definition low (s : tst) (v : nat) : Z := getZ (t_low s) v.
Definition visited (s : tst) (v : nat) : Prop := idx s v <> -1.
Definition emitted (s : tst) : list nat := concat (map fst (t_out s)).

Definition sc_push (v : nat) (s : tst) : tst :=
  mkT (t_stack s ++ [v]) (upd (t_index s) v (t_curr s)) (upd (t_low s) v (t_curr s))
      (upd (t_on s) v true) (t_curr s + 1) (t_out s) (t_oof s).

Definition sc_step (f : nat) (g : graph) (v : nat) : tst -> nat -> tst := fun s w =>
  if getZ (t_index s) w =? -1 then
    let s' := strong_connect f g w s in
    if getZ (t_low s') w <? getZ (t_low s') v then set_low s' v (getZ (t_low s') w) else s'
  else if nth w (t_on s) false && (getZ (t_index s) w <? getZ (t_low s) v)
       then set_low s v (getZ (t_index s) w) else s.

Definition sc_finish (base : nat) (v : nat) (s2 : tst) : tst :=
  if getZ (t_low s2) v =? getZ (t_index s2) v then
    let comp := skipn base (t_stack s2) in
    mkT (firstn base (t_stack s2)) (t_index s2) (t_low s2)
        (fold_left (fun on x => upd on x false) comp (t_on s2))
        (t_curr s2) (t_out s2 ++ [(comp, t_on s2)]) (t_oof s2)
  else s2.

Lemma strong_connect_S f g v s :
  strong_connect (S f) g v s =
  sc_finish (length (t_stack s)) v (fold_left (sc_step f g v) (nth v g []) (sc_push v s)).
Proof. cbn [strong_connect]. reflexivity. Qed.

Lemma strong_connect_0 g v s :
  strong_connect 0 g v s = mkT (t_stack s) (t_index s) (t_low s) (t_on s) (t_curr s) (t_out s) true.
Proof. reflexivity. Qed.

Section Tarjan.
Variable g : graph.
Hypothesis Hwf : graph_wf g = true.

(* Inv gr s, with gr the active call chain.  Shape: the three lengths and I_on (the onStack bits are the stack).
   Colours: stack and emitted are duplicate-free, disjoint and make up the visited vertices; indices < t_curr.  Stack order: indices increase along the stack and every element reaches the later ones.  Gray: gr is a
   duplicate-free part of the stack; I_nbw: no edge from a finished vertex to an unvisited one; I_togray: every stack
   element reaches a gray vertex of no larger index.  Output: I_out. *)
Record Inv (gr : list nat) (s : tst) : Prop := {
  I_len_idx : length (t_index s) = length g;
  I_len_low : length (t_low s) = length g;
  I_len_on : length (t_on s) = length g;
  I_on : forall v, nth v (t_on s) false = true <-> In v (t_stack s);
  I_nd_stack : NoDup (t_stack s);
  I_nd_em : NoDup (emitted s);
  I_disj : forall v, In v (t_stack s) -> In v (emitted s) -> False;
  I_vis : forall v, visited s v <-> In v (t_stack s) \/ In v (emitted s);
  I_curr : 0 <= t_curr s;
  I_idx_bound : forall v, visited s v -> idx s v < t_curr s;
  I_sorted : ForallOrdPairs (fun x y => idx s x < idx s y) (t_stack s);
  I_sreach : ForallOrdPairs (reach' g) (t_stack s);
  I_gray_nd : NoDup gr;
  I_gray : forall x, In x gr -> In x (t_stack s);
  I_nbw : forall x w, visited s x -> ~ In x gr -> edge g x w -> visited s w;
  I_togray : forall y, In y (t_stack s) -> exists k, In k gr /\ idx s k <= idx s y /\ reach' g y k;
  I_out : OutOK g (t_out s)
}.

Lemma visited_lt gr s x : Inv gr s -> visited s x -> (x < length g)%nat.
Proof.
  intros Hi Hv. destruct (Nat.lt_ge_cases x (length g)) as [H|H]; [exact H|].
  exfalso. apply Hv. unfold idx. apply getZ_overflow. now rewrite (I_len_idx _ _ Hi).
Qed.

Lemma stack_visited gr s x : Inv gr s -> In x (t_stack s) -> visited s x.
Proof. intros Hi Hx. apply (I_vis _ _ Hi). now left. Qed.

Lemma stack_lt gr s x : Inv gr s -> In x (t_stack s) -> (x < length g)%nat.
Proof. intros Hi Hx. eapply visited_lt; eauto using stack_visited. Qed.

Lemma Inv_set_low gr s v x : Inv gr s -> Inv gr (set_low s v x).
Proof.
  intros []. constructor; cbn; try assumption. (* I_len_low *) now rewrite upd_length.
Qed.

Lemma idx_set_low s v x y : idx (set_low s v x) y = idx s y.
Proof. reflexivity. Qed.

Lemma low_set_low gr s v x y : Inv gr s -> (v < length g)%nat ->
  low (set_low s v x) y = if Nat.eq_dec y v then x else low s y.
Proof. intros Hi Hv. unfold low. cbn. apply getZ_upd. now rewrite (I_len_low _ _ Hi). Qed.

(* Pre_fuel: every active call holds one unit of fuel, and there are at most length g of them *)
Record Pre (f : nat) (gr : list nat) (v : nat) (s : tst) : Prop := {
  Pre_inv : Inv gr s;
  Pre_white : ~ visited s v;
  Pre_lt : (v < length g)%nat;
  Pre_fuel : (length g + 1 <= f + length gr)%nat;
  Pre_reach : forall x, In x (t_stack s) -> reach' g x v
}.

Record Post (gr : list nat) (v : nat) (s s' : tst) : Prop := {
  P_inv : Inv gr s';
  P_oof : t_oof s' = t_oof s;
  P_vis : visited s' v;
  P_mono : forall x, visited s x -> idx s' x = idx s x /\ low s' x = low s x;
  P_stack : (t_stack s' = t_stack s /\ low s' v = t_curr s) \/
            (exists s'', t_stack s' = t_stack s ++ v :: s'' /\
               (exists y, In y (t_stack s) /\ idx s' y = low s' v /\ reach' g v y) /\
               (forall x y, In x (v :: s'') -> edge g x y -> In y (t_stack s) -> low s' v <= idx s' y))
}.

Record LInv (gr : list nat) (v : nat) (s0 s : tst) (done : list nat) : Prop := {
  L_inv : Inv (gr ++ [v]) s;
  L_oof : t_oof s = t_oof s0;
  L_mono : forall x, visited s0 x -> idx s x = idx s0 x /\ low s x = low s0 x;
  L_idxv : idx s v = t_curr s0;
  L_lowle : low s v <= idx s v;
  L_stack : exists s'', t_stack s = t_stack s0 ++ v :: s'' /\
             (forall x y, In x s'' -> edge g x y -> In y (t_stack s0) -> low s v <= idx s y);
  L_y : exists y, In y (t_stack s) /\ idx s y = low s v /\ reach' g v y;
  L_done : forall w, In w done -> visited s w /\ (In w (t_stack s0) -> low s v <= idx s w)
}.

Lemma idx_push gr s v x : Inv gr s -> (v < length g)%nat ->
  idx (sc_push v s) x = if Nat.eq_dec x v then t_curr s else idx s x.
Proof. intros Hi Hv. unfold idx. cbn. apply getZ_upd. now rewrite (I_len_idx _ _ Hi). Qed.

Lemma low_push gr s v x : Inv gr s -> (v < length g)%nat ->
  low (sc_push v s) x = if Nat.eq_dec x v then t_curr s else low s x.
Proof. intros Hi Hv. unfold low. cbn. apply getZ_upd. now rewrite (I_len_low _ _ Hi). Qed.

Lemma push_LInv f gr v s : Pre f gr v s -> LInv gr v s (sc_push v s) [].
Proof.
  intros [Hi Hw Hv Hf Hr].
  assert (Hidx := fun x => idx_push gr s v x Hi Hv).
  assert (Hlow := fun x => low_push gr s v x Hi Hv).
  assert (Hvs : ~ In v (t_stack s)) by (intro H; apply Hw; eapply stack_visited; eauto).
  assert (Hve : ~ In v (emitted s)) by (intro H; apply Hw; apply (I_vis _ _ Hi); now right).
  assert (Hc := I_curr _ _ Hi).
  assert (Hvis : forall x, visited (sc_push v s) x <-> x = v \/ visited s x).
  { intro x. unfold visited. rewrite Hidx. destruct (Nat.eq_dec x v) as [->|Hne].
    - split; [now left|intros _; lia].
    - split; [now right|intros [E|E]; [contradiction|exact E]]. }
  assert (Hstk : forall x, In x (t_stack s) -> idx (sc_push v s) x = idx s x).
  { intros x Hx. rewrite Hidx. destruct (Nat.eq_dec x v) as [->|]; [contradiction|reflexivity]. }
  constructor.
  - constructor.
    + (* I_len_idx *) cbn. rewrite upd_length. apply (I_len_idx _ _ Hi).
    + (* I_len_low *) cbn. rewrite upd_length. apply (I_len_low _ _ Hi).
    + (* I_len_on *) cbn. rewrite upd_length. apply (I_len_on _ _ Hi).
    + (* I_on *) intro x. cbn [t_on t_stack sc_push]. rewrite upd_nth by (rewrite (I_len_on _ _ Hi); exact Hv).
      rewrite in_app_iff. cbn [In]. destruct (Nat.eq_dec x v) as [->|Hne].
      * split; auto.
      * rewrite (I_on _ _ Hi). split; [auto|intros [H|[H|[]]]; [exact H|congruence]].
    + (* I_nd_stack *) apply NoDup_snoc; [apply (I_nd_stack _ _ Hi)|exact Hvs].
    + (* I_nd_em *) apply (I_nd_em _ _ Hi).
    + (* I_disj *) intros x Hx He. cbn [t_stack sc_push] in Hx. apply in_app_or in Hx as [Hx|[<-|[]]].
      * eapply (I_disj _ _ Hi); eauto.
      * now apply Hve.
    + (* I_vis *) intro x. rewrite Hvis. cbn [t_stack sc_push]. rewrite in_app_iff. cbn [In].
      change (emitted (sc_push v s)) with (emitted s). rewrite (I_vis _ _ Hi x). split.
      * intros [->|[H|H]]; auto.
      * intros [[H|[H|[]]]|H]; auto.
    + (* I_curr *) cbn. lia.
    + (* I_idx_bound *) intros x Hx. cbn [t_curr sc_push]. rewrite Hidx. destruct (Nat.eq_dec x v) as [->|Hne]; [lia|].
      apply Hvis in Hx as [Hx|Hx]; [contradiction|]. pose proof (I_idx_bound _ _ Hi x Hx). lia.
    + (* I_sorted *) cbn [t_stack sc_push]. apply FOP_app_iff. repeat split.
      * eapply FOP_impl_in; [|apply (I_sorted _ _ Hi)]. intros x y Hx Hy. cbn beta. now rewrite !Hstk.
      * constructor; constructor.
      * intros x y Hx [<-|[]]. rewrite (Hstk x Hx), Hidx.
        destruct (Nat.eq_dec v v); [|congruence]. apply (I_idx_bound _ _ Hi). eapply stack_visited; eauto.
    + (* I_sreach *) cbn [t_stack sc_push]. apply FOP_app_iff. repeat split.
      * apply (I_sreach _ _ Hi).
      * constructor; constructor.
      * intros x y Hx [<-|[]]. now apply Hr.
    + (* I_gray_nd *) apply NoDup_snoc; [apply (I_gray_nd _ _ Hi)|]. intro Hx. apply Hvs. now apply (I_gray _ _ Hi).
    + (* I_gray *) intros x Hx. cbn [t_stack sc_push]. apply in_or_app. apply in_app_or in Hx as [Hx|Hx]; [left|now right].
      now apply (I_gray _ _ Hi).
    + (* I_nbw *) intros x w Hx Hng He. apply Hvis. right. rewrite in_app_iff in Hng. cbn [In] in Hng.
      apply Hvis in Hx as [->|Hx]; [exfalso; apply Hng; auto|].
      apply (I_nbw _ _ Hi x w Hx); [intro Hg; apply Hng; now left|exact He].
    + (* I_togray *) intros y Hy. cbn [t_stack sc_push] in Hy. apply in_app_or in Hy as [Hy|[<-|[]]].
      * destruct (I_togray _ _ Hi y Hy) as [k [Hk [Hle Hrk]]]. exists k. split; [apply in_or_app; now left|].
        split; [|exact Hrk]. rewrite (Hstk y Hy), (Hstk k); [exact Hle|now apply (I_gray _ _ Hi)].
      * exists v. split; [apply in_or_app; right; now left|]. split; [lia|apply r_refl].
    + (* I_out *) apply (I_out _ _ Hi).
  - reflexivity.
  - intros x Hx. rewrite Hidx, Hlow. destruct (Nat.eq_dec x v) as [->|]; [contradiction|auto].
  - rewrite Hidx. destruct (Nat.eq_dec v v); [reflexivity|congruence].
  - rewrite Hidx, Hlow. destruct (Nat.eq_dec v v); [lia|congruence].
  - exists []. split; [reflexivity|]. intros x y [].
  - exists v. split; [cbn; apply in_or_app; right; now left|]. split; [|apply r_refl].
    rewrite Hidx, Hlow. destruct (Nat.eq_dec v v); [reflexivity|congruence].
  - intros w [].
Qed.

Lemma LInv_v_in_stack gr v s0 s done : LInv gr v s0 s done -> In v (t_stack s).
Proof. intros HL. destruct (L_stack _ _ _ _ _ HL) as [s'' [-> _]]. apply in_or_app. right. now left. Qed.

Lemma LInv_stack0_in gr v s0 s done x : LInv gr v s0 s done -> In x (t_stack s0) -> In x (t_stack s).
Proof. intros HL Hx. destruct (L_stack _ _ _ _ _ HL) as [s'' [-> _]]. apply in_or_app. now left. Qed.

Lemma LInv_transfer gr v s0 s done t ext w :
  LInv gr v s0 s done ->
  ~ visited s0 v ->
  Inv (gr ++ [v]) t ->
  t_oof t = t_oof s ->
  (forall x, visited s x -> idx t x = idx s x) ->
  (forall x, visited s x -> x <> v -> low t x = low s x) ->
  low t v <= low s v ->
  t_stack t = t_stack s ++ ext ->
  (exists y, In y (t_stack t) /\ idx t y = low t v /\ reach' g v y) ->
  (forall x y, In x ext -> edge g x y -> In y (t_stack s0) -> low t v <= idx t y) ->
  visited t w -> (In w (t_stack s0) -> low t v <= idx t w) ->
  LInv gr v s0 t (done ++ [w]).
Proof.
  intros HL Hw0 Hit Hoof Hidx Hlow Hlv Hstk Hy Hext Hvw Hww.
  assert (Hvin := LInv_v_in_stack _ _ _ _ _ HL).
  assert (Hin0 := fun x => LInv_stack0_in _ _ _ _ _ x HL).
  destruct HL as [Hi Hoof0 Hmono Hidxv Hlowle [s'' [Hstk0 Hedges]] _ Hdone].
  assert (Hvv : visited s v) by (eapply stack_visited; eauto).
  constructor.
  - exact Hit.
  - congruence.
  - intros x Hx. destruct (Hmono x Hx) as [E1 E2].
    assert (visited s x) by (unfold visited; rewrite E1; exact Hx).
    assert (x <> v) by (intros ->; contradiction).
    rewrite Hidx, Hlow by assumption. auto.
  - rewrite Hidx by exact Hvv. exact Hidxv.
  - rewrite (Hidx v Hvv). lia.
  - exists (s'' ++ ext). split; [rewrite Hstk, Hstk0, <- app_assoc; reflexivity|].
    intros x y Hx He Hy0. apply in_app_or in Hx as [Hx|Hx]; [|eapply Hext; eauto].
    specialize (Hedges x y Hx He Hy0). rewrite Hidx; [lia|]. eapply stack_visited; eauto.
  - exact Hy.
  - intros d Hd. apply in_app_or in Hd as [Hd|[<-|[]]]; [|auto].
    destruct (Hdone d Hd) as [Hdv Hdl]. split.
    + unfold visited. rewrite Hidx by exact Hdv. exact Hdv.
    + intro H0. specialize (Hdl H0). rewrite Hidx by exact Hdv. lia.
Qed.

Lemma step_LInv f gr v s0 s done w :
  (forall gr' v' s', Pre f gr' v' s' -> Post gr' v' s' (strong_connect f g v' s')) ->
  Pre (S f) gr v s0 ->
  LInv gr v s0 s done -> edge g v w ->
  LInv gr v s0 (sc_step f g v s w) (done ++ [w]).
Proof.
  intros IH [Hi0 Hw0 Hv Hf Hr0] HL He.
  assert (Hvin := LInv_v_in_stack _ _ _ _ _ HL).
  assert (Hin0 := fun x => LInv_stack0_in _ _ _ _ _ x HL).
  assert (Hi := L_inv _ _ _ _ _ HL).
  assert (Hvv : visited s v) by (eapply stack_visited; eauto).
  assert (Hwlt : (w < length g)%nat) by (eapply edge_dst_lt; eauto).
  assert (Hlowle := L_lowle _ _ _ _ _ HL).
  destruct (L_y _ _ _ _ _ HL) as [y [Hy [Hyidx Hyr]]].
  unfold sc_step. fold (idx s w). destruct (idx s w =? -1) eqn:Ew.
  - apply Z.eqb_eq in Ew.
    assert (Hpre' : Pre f (gr ++ [v]) w s).
    { constructor; [exact Hi|unfold visited; lia|exact Hwlt|rewrite app_length; cbn [length]; lia|].
      intros x Hx. destruct (I_togray _ _ Hi x Hx) as [k [Hk [_ Hxk]]].
      apply reach'_trans with v; [|now apply reach'_edge].
      apply in_app_or in Hk as [Hk|[<-|[]]]; [|exact Hxk].
      apply reach'_trans with k; [exact Hxk|]. apply Hr0. now apply (I_gray _ _ Hi0). }
    specialize (IH _ _ _ Hpre'). cbv zeta. set (s' := strong_connect f g w s) in *.
    destruct IH as [Hi' Hoof' Hvis' Hmono' Hstack'].
    fold (low s' w) (low s' v).
    destruct (Hmono' v Hvv) as [Hv'i Hv'l].
    assert (Hw0s : ~ In w (t_stack s0)).
    { intro H. apply Hin0 in H. apply (stack_visited _ _ _ Hi) in H. unfold visited in H. lia. }
    destruct Hstack' as [[Hst Hlw]|[sw [Hst [[yw [Hyw [Hywidx Hywr]]] Hedw]]]].
    + assert (Hno : low s' w <? low s' v = false).
      { apply Z.ltb_ge. rewrite Hlw, Hv'l. pose proof (I_idx_bound _ _ Hi v Hvv). lia. }
      rewrite Hno. apply (LInv_transfer gr v s0 s done s' [] w HL Hw0 Hi' Hoof').
      * intros x Hx. apply (Hmono' x Hx).
      * intros x Hx _. apply (Hmono' x Hx).
      * lia.
      * now rewrite app_nil_r.
      * exists y. split; [now rewrite Hst|]. split; [|exact Hyr].
        rewrite Hv'l. destruct (Hmono' y) as [-> _]; [eapply stack_visited; eauto|exact Hyidx].
      * intros x y' [].
      * exact Hvis'.
      * intro H. contradiction.
    + destruct (low s' w <? low s' v) eqn:Elt.
      * apply Z.ltb_lt in Elt.
        assert (Hlv : low (set_low s' v (low s' w)) v = low s' w).
        { rewrite (low_set_low _ _ _ _ _ Hi' Hv). destruct (Nat.eq_dec v v); [reflexivity|congruence]. }
        apply (LInv_transfer gr v s0 s done _ (w :: sw) w HL Hw0 (Inv_set_low _ _ _ _ Hi')).
        -- exact Hoof'.
        -- intros x Hx. rewrite idx_set_low. apply (Hmono' x Hx).
        -- intros x Hx Hne. rewrite (low_set_low _ _ _ _ _ Hi' Hv).
           destruct (Nat.eq_dec x v); [contradiction|]. apply (Hmono' x Hx).
        -- rewrite Hlv. lia.
        -- exact Hst.
        -- exists yw. split; [cbn [t_stack set_low]; rewrite Hst; apply in_or_app; now left|].
           split; [rewrite idx_set_low, Hlv; exact Hywidx|].
           eapply r_step; [exact He|exact Hywr].
        -- intros x y' Hx He' Hy'. rewrite idx_set_low, Hlv. apply (Hedw x y' Hx He'). now apply Hin0.
        -- exact Hvis'.
        -- intro H. contradiction.
      * apply Z.ltb_ge in Elt.
        apply (LInv_transfer gr v s0 s done s' (w :: sw) w HL Hw0 Hi' Hoof').
        -- intros x Hx. apply (Hmono' x Hx).
        -- intros x Hx _. apply (Hmono' x Hx).
        -- lia.
        -- exact Hst.
        -- exists y. split; [rewrite Hst; apply in_or_app; now left|]. split; [|exact Hyr].
           rewrite Hv'l. destruct (Hmono' y) as [-> _]; [eapply stack_visited; eauto|exact Hyidx].
        -- intros x y' Hx He' Hy'. specialize (Hedw x y' Hx He' (Hin0 _ Hy')). lia.
        -- exact Hvis'.
        -- intro H. contradiction.
  - apply Z.eqb_neq in Ew. fold (low s v).
    destruct (nth w (t_on s) false && (idx s w <? low s v)) eqn:Eon.
    + apply andb_true_iff in Eon as [Eon Elt]. apply Z.ltb_lt in Elt.
      apply (I_on _ _ Hi) in Eon.
      assert (Hlv : low (set_low s v (idx s w)) v = idx s w).
      { rewrite (low_set_low _ _ _ _ _ Hi Hv). destruct (Nat.eq_dec v v); [reflexivity|congruence]. }
      apply (LInv_transfer gr v s0 s done _ [] w HL Hw0 (Inv_set_low _ _ _ _ Hi)).
      * reflexivity.
      * intros x _. apply idx_set_low.
      * intros x _ Hne. rewrite (low_set_low _ _ _ _ _ Hi Hv). destruct (Nat.eq_dec x v); [contradiction|reflexivity].
      * rewrite Hlv. lia.
      * cbn [t_stack set_low]. now rewrite app_nil_r.
      * exists w. split; [exact Eon|]. split; [now rewrite idx_set_low, Hlv|now apply reach'_edge].
      * intros x y' [].
      * exact Ew.
      * intros _. rewrite idx_set_low, Hlv. lia.
    + apply (LInv_transfer gr v s0 s done s [] w HL Hw0 Hi eq_refl).
      * reflexivity.
      * reflexivity.
      * lia.
      * now rewrite app_nil_r.
      * exists y. auto.
      * intros x y' [].
      * exact Ew.
      * intro H. apply Hin0 in H. apply (I_on _ _ Hi) in H. rewrite H in Eon. cbn [andb] in Eon.
        apply Z.ltb_ge in Eon. exact Eon.
Qed.

Lemma loop_LInv f gr v s0 s :
  (forall gr' v' s', Pre f gr' v' s' -> Post gr' v' s' (strong_connect f g v' s')) ->
  Pre (S f) gr v s0 -> LInv gr v s0 s [] ->
  LInv gr v s0 (fold_left (sc_step f g v) (nth v g []) s) (nth v g []).
Proof.
  intros IH Hpre HL. apply (fold_left_prefix_ind _ _ (fun done s => LInv gr v s0 s done)); [exact HL|].
  intros done w todo t E HLt. eapply step_LInv; eauto. unfold edge. rewrite E. apply in_or_app. right. now left.
Qed.

Lemma emitted_snoc s comp on :
  concat (map fst (t_out s ++ [(comp, on)])) = emitted s ++ comp.
Proof. unfold emitted. rewrite map_app, concat_app. cbn. now rewrite app_nil_r. Qed.

Lemma finish_Post f gr v s0 s2 :
  Pre (S f) gr v s0 -> LInv gr v s0 s2 (nth v g []) ->
  Post gr v s0 (sc_finish (length (t_stack s0)) v s2).
Proof.
  intros [Hi0 Hw0 Hv Hf Hr0] HL.
  assert (Hvin := LInv_v_in_stack _ _ _ _ _ HL).
  destruct HL as [Hi Hoof Hmono Hidxv Hlowle [s'' [Hstk Hedges]] [yl [Hyl [Hylidx Hylr]]] Hdone].
  assert (Hvv : visited s2 v) by (eapply stack_visited; eauto).
  assert (Hgr0 : forall x, In x gr -> In x (t_stack s0)) by apply (I_gray _ _ Hi0).
  assert (Hnd := I_nd_stack _ _ Hi). rewrite Hstk in Hnd. apply NoDup_app_iff in Hnd as [Hnd0 [Hndc Hndd]].
  assert (Hso := I_sorted _ _ Hi). rewrite Hstk in Hso. apply FOP_app_iff in Hso as [Hso0 [Hsoc Hsod]].
  assert (Hsr := I_sreach _ _ Hi). rewrite Hstk in Hsr. apply FOP_app_iff in Hsr as [Hsr0 [Hsrc Hsrd]].
  assert (Hsoc' : forall y, In y s'' -> idx s2 v < idx s2 y).
  { inversion Hsoc as [|? ? Hf' _]; subst. rewrite Forall_forall in Hf'. exact Hf'. }
  assert (Hsrc' : forall y, In y (v :: s'') -> reach' g v y).
  { inversion Hsrc as [|? ? Hf' _]; subst. rewrite Forall_forall in Hf'.
    intros y [<-|Hy]; [apply r_refl|now apply Hf']. }
  assert (Hcge : forall y, In y (v :: s'') -> idx s2 v <= idx s2 y).
  { intros y [<-|Hy]; [lia|]. specialize (Hsoc' y Hy). lia. }
  assert (Hin2 : forall x, In x (t_stack s2) <-> In x (t_stack s0) \/ In x (v :: s'')).
  { intro x. rewrite Hstk. apply in_app_iff. }
  assert (Hcng : forall x, In x (v :: s'') -> ~ In x gr).
  { intros x Hx Hg. apply (Hndd x); [now apply Hgr0|exact Hx]. }
  assert (Hsucc : forall w, edge g v w -> visited s2 w /\ (In w (t_stack s0) -> low s2 v <= idx s2 w)).
  { intros w He. apply Hdone. exact He. }
  assert (Hnbw : forall x w, visited s2 x -> ~ In x gr -> edge g x w -> visited s2 w).
  { intros x w Hx Hng He. destruct (Nat.eq_dec x v) as [->|Hne]; [now apply Hsucc|].
    apply (I_nbw _ _ Hi x w Hx); [|exact He]. rewrite in_app_iff. cbn [In]. intros [H|[H|[]]]; congruence. }
  assert (Htg0 : forall y, In y (t_stack s0) -> exists k, In k gr /\ idx s2 k <= idx s2 y /\ reach' g y k).
  { intros y Hy0. destruct (I_togray _ _ Hi y) as [k [Hk [Hle Hrk]]]; [apply Hin2; now left|].
    apply in_app_or in Hk as [Hk|[<-|[]]]; [eauto|].
    exfalso. specialize (Hsod y v Hy0 (or_introl eq_refl)). cbn beta in Hsod. lia. }
  assert (Htov : forall x, In x (v :: s'') -> reach' g x v).
  { intros x Hx. destruct (I_togray _ _ Hi x) as [k [Hk [_ Hrk]]]; [apply Hin2; now right|].
    apply in_app_or in Hk as [Hk|[<-|[]]]; [|exact Hrk].
    apply reach'_trans with k; [exact Hrk|]. apply Hsrd; [now apply Hgr0|now left]. }
  assert (Hcedge : forall x w, In x (v :: s'') -> edge g x w -> In w (t_stack s0) -> low s2 v <= idx s2 w).
  { intros x w [<-|Hx] He H0; [now apply Hsucc|eapply Hedges; eauto]. }
  unfold sc_finish. fold (low s2 v) (idx s2 v). destruct (low s2 v =? idx s2 v) eqn:Eq.
  - apply Z.eqb_eq in Eq. cbv zeta.
    rewrite Hstk, firstn_app_len, skipn_app_len.
    assert (Hno0 : forall x w, In x (v :: s'') -> edge g x w -> ~ In w (t_stack s0)).
    { intros x w Hx He H0. specialize (Hcedge x w Hx He H0).
      specialize (Hsod w v H0 (or_introl eq_refl)). cbn beta in Hsod. lia. }
    assert (Hclosed : forall x w, In x (v :: s'') -> edge g x w -> In w (emitted s2 ++ v :: s'')).
    { intros x w Hx He.
      assert (Hw : visited s2 w).
      { apply (Hnbw x w); [eapply stack_visited; [exact Hi|apply Hin2; now right]|now apply Hcng|exact He]. }
      apply (I_vis _ _ Hi) in Hw as [Hw|Hw]; apply in_or_app; [|now left].
      apply Hin2 in Hw as [Hw|Hw]; [exfalso; eapply Hno0; eauto|now right]. }
    constructor.
    + constructor; cbn [t_stack t_index t_low t_on t_curr t_out].
      * (* I_len_idx *) apply (I_len_idx _ _ Hi).
      * (* I_len_low *) apply (I_len_low _ _ Hi).
      * (* I_len_on *) rewrite fold_upd_false_length. apply (I_len_on _ _ Hi).
      * (* I_on *) intro x. rewrite fold_upd_false_nth.
        2:{ intros z Hz. rewrite (I_len_on _ _ Hi). eapply stack_lt; [exact Hi|apply Hin2; now right]. }
        rewrite (I_on _ _ Hi), Hin2. split; [intros [[H|H] Hn]; [exact H|contradiction]|].
        intro H. split; [now left|]. intro Hc. eapply Hndd; eauto.
      * (* I_nd_stack *) exact Hnd0.
      * (* I_nd_em *) unfold emitted at 1. cbn [t_out]. rewrite emitted_snoc. apply NoDup_app_iff.
        repeat split; [apply (I_nd_em _ _ Hi)|exact Hndc|].
        intros x Hx Hc. apply (I_disj _ _ Hi x); [apply Hin2; now right|exact Hx].
      * (* I_disj *) intros x Hx. unfold emitted. cbn [t_out]. rewrite emitted_snoc. intro He.
        apply in_app_or in He as [He|He]; [|eapply Hndd; eauto].
        apply (I_disj _ _ Hi x); [apply Hin2; now left|exact He].
      * (* I_vis *) intro x. unfold emitted. cbn [t_out]. rewrite emitted_snoc.
        change (visited (mkT (t_stack s0) (t_index s2) (t_low s2)
                  (fold_left (fun on x => upd on x false) (v :: s'') (t_on s2)) (t_curr s2)
                  (t_out s2 ++ [(v :: s'', t_on s2)]) (t_oof s2)) x) with (visited s2 x).
        rewrite (I_vis _ _ Hi x), Hin2, in_app_iff, or_assoc, (or_comm (In x (v :: s''))). reflexivity.
      * (* I_curr *) apply (I_curr _ _ Hi).
      * (* I_idx_bound *) apply (I_idx_bound _ _ Hi).
      * (* I_sorted *) exact Hso0.
      * (* I_sreach *) exact Hsr0.
      * (* I_gray_nd *) apply (I_gray_nd _ _ Hi0).
      * (* I_gray *) exact Hgr0.
      * (* I_nbw *) exact Hnbw.
      * (* I_togray *) exact Htg0.
      * (* I_out *) destruct (I_out _ _ Hi) as [Hoc Hco]. split.
        -- apply out_closed_snoc; [exact Hoc|exact Hclosed].
        -- apply Forall_app. split; [exact Hco|]. constructor; [|constructor]. split; cbn [fst snd].
           ++ intros x y Hx Hy. apply reach'_trans with v; [now apply Htov|now apply Hsrc'].
           ++ intros x w Hx He. rewrite (I_on _ _ Hi), Hin2.
              split; [intros [H|H]; [exfalso; eapply Hno0; eauto|exact H]|now right].
    + exact Hoof.
    + exact Hvv.
    + exact Hmono.
    + left. split; [reflexivity|]. change (low s2 v = t_curr s0). rewrite Eq. exact Hidxv.
  - apply Z.eqb_neq in Eq.
    assert (Hyl0 : In yl (t_stack s0)).
    { apply Hin2 in Hyl as [H|H]; [exact H|]. specialize (Hcge yl H). lia. }
    constructor.
    + (* only the gray list changes; I_nbw is Hnbw *)
      destruct Hi. constructor; try assumption.
      * (* I_gray_nd *) apply (I_gray_nd _ _ Hi0).
      * (* I_gray *) intros x Hx. apply Hin2. left. now apply Hgr0.
      * (* I_togray *) intros y Hy. apply Hin2 in Hy as [Hy|Hy]; [now apply Htg0|].
        destruct (Htg0 yl Hyl0) as [k [Hk [Hle Hrk]]]. exists k. split; [exact Hk|].
        split; [specialize (Hcge y Hy); lia|].
        apply reach'_trans with v; [now apply Htov|]. apply reach'_trans with yl; assumption.
    + exact Hoof.
    + exact Hvv.
    + exact Hmono.
    + right. exists s''. split; [exact Hstk|]. split; [exists yl; auto|exact Hcedge].
Qed.

Theorem strong_connect_spec : forall f gr v s,
  Pre f gr v s -> Post gr v s (strong_connect f g v s).
Proof.
  induction f as [|f IH]; intros gr v s Hpre.
  - exfalso. destruct Hpre as [Hi Hw Hv Hf _].
    assert (Hnd : NoDup (v :: gr)).
    { constructor; [|apply (I_gray_nd _ _ Hi)]. intro H. apply Hw. eapply stack_visited; eauto.
      now apply (I_gray _ _ Hi). }
    apply NoDup_lt_length with (n := length g) in Hnd; [cbn [length] in Hnd; lia|].
    intros x [<-|Hx]; [exact Hv|]. eapply stack_lt; eauto. now apply (I_gray _ _ Hi).
  - rewrite strong_connect_S. eapply finish_Post; [exact Hpre|].
    apply (loop_LInv f gr v s _ IH Hpre). eapply push_LInv; eauto.
Qed.

End Tarjan.

Definition tarjan_init (n : nat) : tst := mkT [] (repeat (-1) n) (repeat 0 n) (repeat false n) 0 [] false.

Definition tarjan_body (g : graph) : tst -> nat -> tst :=
  fun s i => if getZ (t_index s) i =? -1 then strong_connect (S (length g)) g i s else s.

Lemma tarjan_run_unfold g : (2 <= length g)%nat ->
  tarjan_run g = fold_left (tarjan_body g) (seq 0 (length g)) (tarjan_init (length g)).
Proof.
  intro H. unfold tarjan_run. destruct (Nat.ltb_spec (length g) 2) as [H'|_]; [lia|reflexivity].
Qed.

Lemma init_Inv g : Inv g [] (tarjan_init (length g)).
Proof.
  assert (Hnv : forall v, ~ visited (tarjan_init (length g)) v).
  { intros v Hv. apply Hv. apply nth_repeat. }
  constructor.
  - cbn. apply repeat_length.
  - cbn. apply repeat_length.
  - cbn. apply repeat_length.
  - intro v. cbn [tarjan_init t_on t_stack]. rewrite nth_repeat. split; [discriminate|intros []].
  - constructor.
  - constructor.
  - intros v [].
  - intro v. split; [intro H; now apply Hnv in H|intros [[]|[]]].
  - cbn. lia.
  - intros v Hv. now apply Hnv in Hv.
  - constructor.
  - constructor.
  - constructor.
  - intros x [].
  - intros x w Hv. now apply Hnv in Hv.
  - intros y [].
  - split; [exact I|constructor].
Qed.

Record TInv (g : graph) (k : nat) (s : tst) : Prop := {
  T_inv : Inv g [] s;
  T_stack : t_stack s = [];
  T_oof : t_oof s = false;
  T_vis : forall i, (i < k)%nat -> visited s i
}.

Lemma tarjan_body_TInv g k s : graph_wf g = true -> (k < length g)%nat ->
  TInv g k s -> TInv g (S k) (tarjan_body g s k).
Proof.
  intros Hwf Hk [Hi Hst Hoof Hvis]. unfold tarjan_body. fold (idx s k).
  destruct (idx s k =? -1) eqn:E.
  - apply Z.eqb_eq in E.
    assert (Hpre : Pre g (S (length g)) [] k s).
    { constructor; [exact Hi|unfold visited; lia|exact Hk|cbn [length]; lia|]. rewrite Hst. intros x []. }
    destruct (strong_connect_spec g Hwf _ _ _ _ Hpre) as [Hi' Hoof' Hvis' Hmono' Hstk'].
    constructor.
    + exact Hi'.
    + destruct Hstk' as [[H _]|[s'' [_ [[y [Hy _]] _]]]]; [congruence|]. rewrite Hst in Hy. destruct Hy.
    + congruence.
    + intros i Hik. destruct (Nat.eq_dec i k) as [->|Hne]; [exact Hvis'|].
      assert (Hv : visited s i) by (apply Hvis; lia).
      unfold visited. destruct (Hmono' i Hv) as [-> _]. exact Hv.
  - apply Z.eqb_neq in E. constructor; try assumption.
    intros i Hik. destruct (Nat.eq_dec i k) as [->|Hne]; [exact E|apply Hvis; lia].
Qed.

Lemma tarjan_loop_TInv g : graph_wf g = true ->
  TInv g (length g) (fold_left (tarjan_body g) (seq 0 (length g)) (tarjan_init (length g))).
Proof.
  intro Hwf. apply (fold_left_seq_ind _ (TInv g)); [|intros k s Hk; now apply tarjan_body_TInv].
  constructor; [apply init_Inv|reflexivity|reflexivity|intros i Hi; inversion Hi].
Qed.

Lemma out_closed_order g : graph_wf g = true -> forall out seen,
  (forall x w, In x seen -> edge g x w -> In w seen) ->
  out_closed g seen out -> NoDup (seen ++ concat (map fst out)) ->
  ForallOrdPairs (no_reach g) (map fst out).
Proof.
  intros Hwf. induction out as [|co rest IH]; intros seen Hcl Hoc Hnd; cbn [map]; [constructor|].
  cbn [out_closed] in Hoc. destruct Hoc as [Hco Hrest].
  cbn [map concat] in Hnd. rewrite app_assoc in Hnd.
  assert (Hcl' : forall x w, In x (seen ++ fst co) -> edge g x w -> In w (seen ++ fst co)).
  { intros x w Hx He. apply in_app_or in Hx as [Hx|Hx]; [apply in_or_app; left; eapply Hcl; eauto|].
    eapply Hco; eauto. }
  constructor.
  - apply Forall_forall. intros c' Hc' u v Hu Hv Hreach.
    apply greach_reach' in Hreach.
    assert (Hin : In v (seen ++ fst co)).
    { apply (reach'_closed g (fun z => In z (seen ++ fst co)) Hcl' u v Hreach). apply in_or_app. now right. }
    apply NoDup_app_iff in Hnd as [_ [_ Hd]]. apply (Hd v Hin).
    apply in_concat. exists c'. split; assumption.
  - apply (IH (seen ++ fst co)); assumption.
Qed.

Lemma final_scc_ok g s : graph_wf g = true -> TInv g (length g) s ->
  scc_output_ok g (map fst (t_out s)).
Proof.
  intros Hwf [Hi Hst _ Hvis].
  assert (Hem : forall v, In v (emitted s) <-> (v < length g)%nat).
  { intro v. split.
    - intro H. eapply visited_lt; [exact Hi|]. apply (I_vis _ _ _ Hi). now right.
    - intro H. apply Hvis in H. apply (I_vis _ _ _ Hi) in H as [H|H]; [|exact H]. rewrite Hst in H. destruct H. }
  destruct (I_out _ _ _ Hi) as [Hoc Hco]. constructor.
  - intros v Hv. apply NoDup_count_occ'; [apply (I_nd_em _ _ _ Hi)|now apply Hem].
  - intros v Hv. now apply Hem.
  - intros c u v Hc Hu Hv. apply in_map_iff in Hc as [co [<- Hc]].
    rewrite Forall_forall in Hco. destruct (Hco co Hc) as [Hr _].
    apply reach'_greach; [exact Hwf|]. now apply Hr.
  - apply (out_closed_order g Hwf (t_out s) []); [intros x w []|exact Hoc|]. apply (I_nd_em _ _ _ Hi).
Qed.

Lemma final_onstack g gr s : Inv g gr s ->
  forall comp on v w, In (comp, on) (t_out s) -> In v comp -> In w (nth v g []) ->
  (nth w on false = true <-> In w comp).
Proof.
  intros Hi comp on v w Hin Hv Hw. destruct (I_out _ _ _ Hi) as [_ Hco].
  rewrite Forall_forall in Hco. destruct (Hco _ Hin) as [_ H]. apply (H v w Hv Hw).
Qed.

Lemma order_ok_complete g comps : ForallOrdPairs (no_reach g) comps -> order_ok (reachm g) comps = true.
Proof.
  induction 1 as [|c rest Hf _ IH]; cbn [order_ok]; [reflexivity|].
  apply andb_true_iff. split; [|exact IH]. rewrite Forall_forall in Hf.
  apply forallb_forall. intros u Hu. apply forallb_forall. intros c' Hc'.
  apply forallb_forall. intros v Hv. apply negb_true_iff. apply greach_false. now apply (Hf c' Hc' u v).
Qed.

Theorem check_scc_complete g comps : scc_output_ok g comps -> check_scc g comps = true.
Proof.
  intros [Honce Hrange Hconn Hord]. unfold check_scc. repeat (apply andb_true_iff; split).
  - apply forallb_forall. intros v Hv. apply in_seq in Hv. apply Nat.eqb_eq.
    rewrite count_count_occ. apply Honce. lia.
  - apply forallb_forall. intros v Hv. apply Nat.ltb_lt. now apply Hrange.
  - apply forallb_forall. intros c Hc. apply forallb_forall. intros u Hu. apply forallb_forall. intros v Hv.
    apply orb_true_iff. destruct (Hconn c u v Hc Hu Hv) as [->|H]; [left; apply Nat.eqb_refl|right; now apply reachm_spec].
  - now apply order_ok_complete.
Qed.

Theorem check_onstack_complete g out :
  (forall comp on v w, In (comp, on) out -> In v comp -> In w (nth v g []) ->
     (nth w on false = true <-> In w comp)) ->
  check_onstack g out = true.
Proof.
  intro H. unfold check_onstack. apply forallb_forall. intros [comp on] Hin.
  apply forallb_forall. intros v Hv. apply forallb_forall. intros w Hw.
  specialize (H comp on v w Hin Hv Hw). rewrite <- memb_In in H.
  destruct (nth w on false), (memb w comp); cbn; try reflexivity; destruct H as [H1 H2];
    [now apply H1|now apply H2].
Qed.

Theorem tarjan_spec g : graph_wf g = true -> (2 <= length g)%nat ->
  t_oof (tarjan_run g) = false /\
  t_stack (tarjan_run g) = [] /\
  scc_output_ok g (map fst (tarjan g)) /\
  (forall comp on v w, In (comp, on) (tarjan g) -> In v comp -> In w (nth v g []) ->
     (nth w on false = true <-> In w comp)).
Proof.
  intros Hwf Hn. unfold tarjan. rewrite (tarjan_run_unfold g Hn).
  pose proof (tarjan_loop_TInv g Hwf) as HT.
  split; [apply (T_oof _ _ _ HT)|]. split; [apply (T_stack _ _ _ HT)|].
  split; [now apply final_scc_ok|]. apply (final_onstack g [] _ (T_inv _ _ _ HT)).
Qed.

Corollary tarjan_passes_certificates g : graph_wf g = true -> (2 <= length g)%nat ->
  check_scc g (map fst (tarjan g)) = true /\ check_onstack g (tarjan g) = true.
Proof.
  intros Hwf Hn. destruct (tarjan_spec g Hwf Hn) as [_ [_ [H1 H2]]].
  split; [now apply check_scc_complete|now apply check_onstack_complete].
Qed.

(* the Go code returns early for fewer than two vertices: nothing is reported, which is correct for the
   empty graph and misses the single vertex of a one-vertex graph *)
Lemma tarjan_small g : (length g < 2)%nat -> tarjan g = [].
Proof.
  intro H. unfold tarjan, tarjan_run. destruct (Nat.ltb_spec (length g) 2) as [_|H']; [reflexivity|lia].
Qed.
