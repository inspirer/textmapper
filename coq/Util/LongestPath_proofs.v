(* Direct correctness proof of the DFS model of util/graph/path.go (Util/Graph.v: lp_dfs, longest_path):
   for a graph with at least one vertex the result is None exactly if it has a cycle, otherwise a path with the
   maximum number of vertices. *)
From Coq Require Import List ZArith Bool Lia.
From TM Require Import Util.Graph Util.Graph_proofs Util.GraphSpec Util.GraphSpec_proofs Util.Tarjan_proofs.
Import ListNotations.
Local Open Scope Z_scope.

Definition lp_step (f : nat) (g : graph) : lpst * Z * Z -> nat -> lpst * Z * Z :=
  fun '(s, rh, rl) next =>
    let s' := lp_dfs f g next s in
    let height := nth next (lp_h s') 0 in
    if height >=? rh then (s', height + 1, Z.of_nat next) else (s', rh, rl).

Lemma lp_dfs_S f g i s : lp_dfs (S f) g i s =
  let h := nth i (lp_h s) 0 in
  if negb (h =? 0) then (if h =? -1 then mkLP (lp_h s) (lp_link s) true (lp_oof s) else s)
  else let '(s2, rh, rl) := fold_left (lp_step f g) (nth i g [])
                              (mkLP (upd (lp_h s) i (-1)) (lp_link s) (lp_cycle s) (lp_oof s), 1, -1) in
       mkLP (upd (lp_h s2) i rh) (upd (lp_link s2) i rl) (lp_cycle s2) (lp_oof s2).
Proof. reflexivity. Qed.

Definition hv (s : lpst) (v : nat) : Z := nth v (lp_h s) 0.
Definition lk (s : lpst) (v : nat) : Z := nth v (lp_link s) (-1).

Section LP.
Variable g : graph.
Hypothesis Hwf : graph_wf g = true.

(* a finished vertex: all successors finished with smaller heights, link points to a successor one lower *)
Definition black_ok (s : lpst) (v : nat) : Prop :=
  (forall w, edge g v w -> 0 < hv s w < hv s v) /\
  ((lk s v = -1 /\ hv s v = 1) \/ (exists w, lk s v = Z.of_nat w /\ edge g v w /\ hv s v = hv s w + 1)).

Lemma black_ok_transfer s s' v : black_ok s v ->
  (forall w, 0 < hv s w -> hv s' w = hv s w) -> 0 < hv s v -> lk s' v = lk s v -> black_ok s' v.
Proof.
  intros [H1 H2] Hh Hv Hl. assert (Hv' := Hh v Hv). split.
  - intros w He. specialize (H1 w He). rewrite Hv', (Hh w) by lia. exact H1.
  - rewrite Hl, Hv'. destruct H2 as [H2|[w [E1 [E2 E3]]]]; [now left|right].
    exists w. repeat split; try assumption. rewrite (Hh w); [exact E3|]. specialize (H1 w E2). lia.
Qed.

Record PInv (gr : list nat) (s : lpst) : Prop := {
  p_len_h : length (lp_h s) = length g;
  p_len_l : length (lp_link s) = length g;
  p_gray : forall v, hv s v = -1 <-> In v gr;
  p_nd : NoDup gr;
  p_lt : forall v, In v gr -> (v < length g)%nat;
  p_ge : forall v, -1 <= hv s v;
  p_chain : forall x, In x gr -> reach' g x (hd 0%nat gr);
  p_cyc : lp_cycle s = true -> exists v, greach g v v;
  p_good : lp_cycle s = false -> forall v, 0 < hv s v -> black_ok s v
}.

Record PPre (f : nat) (gr : list nat) (i : nat) (s : lpst) : Prop := {
  pre_inv : PInv gr s;
  pre_lt : (i < length g)%nat;
  pre_fuel : (length g + 2 <= f + length gr)%nat;
  pre_edge : match gr with [] => True | c :: _ => edge g c i end
}.

Record PPost (gr : list nat) (i : nat) (s s' : lpst) : Prop := {
  q_inv : PInv gr s';
  q_oof : lp_oof s' = lp_oof s;
  q_nonwhite : hv s' i <> 0;
  q_frame : forall v, 0 < hv s v -> hv s' v = hv s v /\ lk s' v = lk s v;
  q_cyc : lp_cycle s = true -> lp_cycle s' = true;
  q_gray : hv s i = -1 -> lp_cycle s' = true
}.

Record LI (gr : list nat) (i : nat) (s0 : lpst) (st : lpst * Z * Z) (done : list nat) : Prop := {
  l_inv : PInv (i :: gr) (fst (fst st));
  l_oof : lp_oof (fst (fst st)) = lp_oof s0;
  l_frame : forall v, 0 < hv s0 v -> hv (fst (fst st)) v = hv s0 v /\ lk (fst (fst st)) v = lk s0 v;
  l_cyc : lp_cycle s0 = true -> lp_cycle (fst (fst st)) = true;
  l_rh : 1 <= snd (fst st);
  l_done : forall w, In w done -> lp_cycle (fst (fst st)) = false -> 0 < hv (fst (fst st)) w < snd (fst st);
  l_rl : lp_cycle (fst (fst st)) = false ->
         (snd st = -1 /\ snd (fst st) = 1) \/
         (exists w, snd st = Z.of_nat w /\ In w done /\ snd (fst st) = hv (fst (fst st)) w + 1)
}.

Lemma greach_cycle_from_chain c i : reach' g i c -> edge g c i -> greach g i i.
Proof.
  intros Hr He. assert (Hci : greach g c i) by (apply gedge_greach; now apply edge_gedge).
  destruct (reach'_greach g i c Hwf Hr) as [->|H]; [exact Hci|]. eapply greach_trans; eauto.
Qed.

(* the comparison decides the running maximum and its link, not the state *)
Lemma lp_step_eq f g' s rh rl next : lp_step f g' (s, rh, rl) next =
  let s' := lp_dfs f g' next s in
  (s', if hv s' next >=? rh then hv s' next + 1 else rh, if hv s' next >=? rh then Z.of_nat next else rl).
Proof. unfold lp_step, hv. cbv zeta. now destruct (_ >=? rh). Qed.

Lemma step_LI f gr i s0 st done next :
  (forall gr' i' s', PPre f gr' i' s' -> PPost gr' i' s' (lp_dfs f g i' s')) ->
  (length g + 2 <= S f + length gr)%nat ->
  LI gr i s0 st done -> edge g i next -> LI gr i s0 (lp_step f g st next) (done ++ [next]).
Proof.
  intros IH Hf HL He. destruct st as [[s rh] rl]. destruct HL as [Hi Hoof Hfr Hcy Hrh Hdone Hrl].
  cbn [fst snd] in *. rewrite lp_step_eq. cbv zeta.
  assert (Hpre : PPre f (i :: gr) next s).
  { constructor; [exact Hi|eapply edge_dst_lt; eauto|cbn [length]; lia|exact He]. }
  specialize (IH _ _ _ Hpre). set (s' := lp_dfs f g next s) in *.
  destruct IH as [Qi Qoof Qnw Qfr Qcy Qgr].
  assert (Hmono : lp_cycle s' = false -> lp_cycle s = false).
  { intro H. destruct (lp_cycle s) eqn:E; [rewrite (Qcy eq_refl) in H; discriminate|reflexivity]. }
  assert (Hnext : lp_cycle s' = false -> 0 < hv s' next).
  { intro H. pose proof (p_ge _ _ Qi next) as G.
    assert (hv s' next <> -1).
    { intro E. apply (p_gray _ _ Qi) in E. apply (p_gray _ _ Hi) in E. rewrite (Qgr E) in H. discriminate. }
    lia. }
  assert (Hold : forall w, In w done -> lp_cycle s' = false -> 0 < hv s' w < rh /\ hv s' w = hv s w).
  { intros w Hw H. specialize (Hdone w Hw (Hmono H)). destruct (Qfr w ltac:(lia)) as [E _]. lia. }
  pose proof (p_ge _ _ Qi next) as Hge. clearbody s'.
  constructor; cbn [fst snd].
  - exact Qi.
  - congruence.
  - intros v Hv. destruct (Hfr v Hv) as [E1 E2]. destruct (Qfr v ltac:(lia)) as [E3 E4]. split; congruence.
  - intro H. apply Qcy. now apply Hcy.
  - destruct (Z.geb_spec (hv s' next) rh); lia.
  - intros w Hw H. specialize (Hnext H). apply in_app_or in Hw as [Hw|[<-|[]]].
    + destruct (Hold w Hw H). destruct (Z.geb_spec (hv s' next) rh); lia.
    + destruct (Z.geb_spec (hv s' next) rh); lia.
  - intro H. destruct (Z.geb_spec (hv s' next) rh).
    + right. exists next. repeat split; [apply in_or_app; right; now left].
    + destruct (Hrl (Hmono H)) as [Hl|[w [E1 [E2 E3]]]]; [now left|right].
      exists w. repeat split; [exact E1|apply in_or_app; now left|]. destruct (Hold w E2 H). lia.
Qed.

Lemma loop_LI f gr i s0 st :
  (forall gr' i' s', PPre f gr' i' s' -> PPost gr' i' s' (lp_dfs f g i' s')) ->
  (length g + 2 <= S f + length gr)%nat -> LI gr i s0 st [] ->
  LI gr i s0 (fold_left (lp_step f g) (nth i g []) st) (nth i g []).
Proof.
  intros IH Hf HL. apply (fold_left_prefix_ind _ _ (fun done st => LI gr i s0 st done)); [exact HL|].
  intros done w todo t E HLt. apply step_LI; try assumption. unfold edge. rewrite E. apply in_or_app. right. now left.
Qed.

Theorem lp_dfs_spec : forall f gr i s, PPre f gr i s -> PPost gr i s (lp_dfs f g i s).
Proof.
  induction f as [|f IH]; intros gr i s [Hi Hlt Hf He].
  { pose proof (NoDup_lt_length gr (length g) (p_nd _ _ Hi) (p_lt _ _ Hi)). lia. }
  rewrite lp_dfs_S. cbv zeta. fold (hv s i).
  destruct (hv s i =? 0) eqn:E0; cbn [negb].
  2:{ apply Z.eqb_neq in E0. destruct (hv s i =? -1) eqn:E1.
    - apply Z.eqb_eq in E1. assert (Hin : In i gr) by (now apply (p_gray _ _ Hi)).
      constructor; cbn [lp_oof lp_cycle]; try reflexivity; try (intros; split; reflexivity).
      + destruct Hi as [H1 H2 H3 H4 H5 H6 H7 H8 H9]. constructor; cbn [lp_cycle]; try assumption.
        * intros _. exists i. destruct gr as [|c gr']; [destruct Hin|].
          apply (greach_cycle_from_chain c i); [apply (H7 i Hin)|exact He].
        * discriminate.
      + exact E0.
    - apply Z.eqb_neq in E1. constructor; try reflexivity; try assumption; try (intros; split; reflexivity).
      + intro H; exact H.
      + intro H. contradiction. }
  apply Z.eqb_eq in E0.
  assert (Hnotin : ~ In i gr) by (intro H; apply (p_gray _ _ Hi) in H; lia).
  set (s1 := mkLP (upd (lp_h s) i (-1)) (lp_link s) (lp_cycle s) (lp_oof s)).
  assert (Hh1 : forall v, hv s1 v = if Nat.eq_dec v i then -1 else hv s v).
  { intro v. unfold hv, s1. cbn [lp_h]. apply upd_nth. now rewrite (p_len_h _ _ Hi). }
  assert (HL1 : LI gr i s (s1, 1, -1) []).
  { constructor; cbn [fst snd].
    - constructor.
      + unfold s1. cbn [lp_h]. rewrite upd_length. apply (p_len_h _ _ Hi).
      + apply (p_len_l _ _ Hi).
      + intro v. rewrite Hh1. cbn [In]. destruct (Nat.eq_dec v i) as [->|Hne]; [split; auto|].
        rewrite (p_gray _ _ Hi). split; [auto|intros [H|H]; [congruence|exact H]].
      + constructor; [exact Hnotin|apply (p_nd _ _ Hi)].
      + intros v [<-|Hv]; [exact Hlt|now apply (p_lt _ _ Hi)].
      + intro v. rewrite Hh1. destruct (Nat.eq_dec v i); [lia|apply (p_ge _ _ Hi)].
      + cbn [hd]. intros x [<-|Hx]; [apply r_refl|].
        destruct gr as [|c gr']; [destruct Hx|]. cbn [hd] in *.
        apply reach'_trans with c; [apply (p_chain _ _ Hi x Hx)|now apply reach'_edge].
      + apply (p_cyc _ _ Hi).
      + intros Hc v Hv. rewrite Hh1 in Hv. destruct (Nat.eq_dec v i) as [->|Hne]; [lia|].
        apply (black_ok_transfer s s1 v (p_good _ _ Hi Hc v Hv)); [|exact Hv|reflexivity].
        intros w Hw. rewrite Hh1. destruct (Nat.eq_dec w i) as [->|]; [lia|reflexivity].
    - reflexivity.
    - intros v Hv. rewrite Hh1. destruct (Nat.eq_dec v i) as [->|]; [lia|split; reflexivity].
    - auto.
    - lia.
    - intros w [].
    - intros _. now left. }
  pose proof (loop_LI f gr i s (s1, 1, -1) IH Hf HL1) as HL2.
  destruct (fold_left (lp_step f g) (nth i g []) (s1, 1, -1)) as [[s2 rh] rl].
  destruct HL2 as [Li Loof Lfr Lcy Lrh Ldone Lrl]. cbn [fst snd] in *.
  set (s3 := mkLP (upd (lp_h s2) i rh) (upd (lp_link s2) i rl) (lp_cycle s2) (lp_oof s2)).
  assert (Hh3 : forall v, hv s3 v = if Nat.eq_dec v i then rh else hv s2 v).
  { intro v. unfold hv, s3. cbn [lp_h]. apply upd_nth. now rewrite (p_len_h _ _ Li). }
  assert (Hl3 : forall v, lk s3 v = if Nat.eq_dec v i then rl else lk s2 v).
  { intro v. unfold lk, s3. cbn [lp_link]. apply upd_nth. now rewrite (p_len_l _ _ Li). }
  assert (Hi2 : hv s2 i = -1) by (apply (p_gray _ _ Li); now left).
  constructor.
  - constructor.
    + unfold s3. cbn [lp_h]. rewrite upd_length. apply (p_len_h _ _ Li).
    + unfold s3. cbn [lp_link]. rewrite upd_length. apply (p_len_l _ _ Li).
    + intro v. rewrite Hh3. destruct (Nat.eq_dec v i) as [->|Hne]; [split; [lia|contradiction]|].
      rewrite (p_gray _ _ Li). cbn [In]. split; [intros [H|H]; [congruence|exact H]|auto].
    + apply (p_nd _ _ Hi).
    + apply (p_lt _ _ Hi).
    + intro v. rewrite Hh3. destruct (Nat.eq_dec v i); [lia|apply (p_ge _ _ Li)].
    + apply (p_chain _ _ Hi).
    + apply (p_cyc _ _ Li).
    + intros Hc v Hv. change (lp_cycle s3) with (lp_cycle s2) in Hc.
      assert (Htr : forall w, 0 < hv s2 w -> hv s3 w = hv s2 w).
      { intros w Hw. rewrite Hh3. destruct (Nat.eq_dec w i) as [->|]; [lia|reflexivity]. }
      rewrite Hh3 in Hv. destruct (Nat.eq_dec v i) as [->|Hne].
      * split.
        -- intros w He'. specialize (Ldone w He' Hc). rewrite (Htr w) by lia. rewrite Hh3.
           destruct (Nat.eq_dec i i); [lia|congruence].
        -- rewrite Hl3, Hh3. destruct (Nat.eq_dec i i); [|congruence].
           destruct (Lrl Hc) as [Hl|[w [E1 [E2 E3]]]]; [now left|right].
           exists w. repeat split; [exact E1|exact E2|]. specialize (Ldone w E2 Hc). rewrite (Htr w) by lia. exact E3.
      * apply (black_ok_transfer s2 s3 v (p_good _ _ Li Hc v Hv) Htr Hv).
        rewrite Hl3. destruct (Nat.eq_dec v i); [contradiction|reflexivity].
  - exact Loof.
  - rewrite Hh3. destruct (Nat.eq_dec i i); [lia|congruence].
  - intros v Hv. destruct (Lfr v Hv) as [E1 E2]. rewrite Hh3, Hl3.
    destruct (Nat.eq_dec v i) as [->|]; [lia|split; assumption].
  - exact Lcy.
  - intro H. lia.
Qed.
End LP.

Definition lp_top (g : graph) : lpst * Z -> nat -> lpst * Z :=
  fun '(s, first) i =>
    let s' := lp_dfs (S (S (length g))) g i s in
    let first' := if (first =? -1) || (nth (Z.to_nat first) (lp_h s') 0 <? nth i (lp_h s') 0)
                  then Z.of_nat i else first in
    (s', first').

Definition lp_init (n : nat) : lpst := mkLP (repeat 0 n) (repeat (-1) n) false false.

Lemma longest_path_unfold g :
  longest_path g =
  let '(s, first) := fold_left (lp_top g) (seq 0 (length g)) (lp_init (length g), -1) in
  if lp_cycle s then None else Some (follow_links (S (length g)) (lp_link s) first).
Proof. reflexivity. Qed.

(* [first] is -1 before the first vertex and afterwards the first index below k of maximal height *)
Definition is_argmax (h : nat -> Z) (k : nat) (first : Z) : Prop :=
  (k = 0%nat -> first = -1) /\
  ((0 < k)%nat -> 0 <= first < Z.of_nat k /\ forall j, (j < k)%nat -> h j <= h (Z.to_nat first)).

Lemma argmax_step (h h' : nat -> Z) k first : is_argmax h k first -> (forall j, (j < k)%nat -> h' j = h j) ->
  is_argmax h' (S k) (if (first =? -1) || (h' (Z.to_nat first) <? h' k) then Z.of_nat k else first).
Proof.
  intros [H0 Hf] Hold. split; [discriminate|]. intros _. destruct (Nat.eq_dec k 0) as [->|Hk0].
  - rewrite (H0 eq_refl), Z.eqb_refl. cbn [orb]. split; [lia|]. intros j Hj. replace j with 0%nat by lia. apply Z.le_refl.
  - destruct (Hf ltac:(lia)) as [Hr Hmax]. clear H0 Hf.
    destruct (Z_of_nat_complete first (proj1 Hr)) as [i ->]. rewrite Nat2Z.id in *.
    replace (Z.of_nat i =? -1) with false by (symmetry; apply Z.eqb_neq; lia). cbn [orb].
    rewrite (Hold i) by lia.
    assert (Hmax' : forall j, (j < S k)%nat -> j <> k -> h' j <= h i)
      by (intros j Hj Hne; rewrite Hold by lia; apply Hmax; lia).
    destruct (Z.ltb_spec (h i) (h' k)) as [Hlt|Hge]; rewrite Nat2Z.id.
    + split; [lia|]. intros j Hj. destruct (Nat.eq_dec j k) as [->|Hne]; [lia|].
      specialize (Hmax' j Hj Hne). lia.
    + rewrite (Hold i) by lia. split; [lia|]. intros j Hj.
      destruct (Nat.eq_dec j k) as [->|Hne]; [exact Hge|now apply Hmax'].
Qed.

Record TI (g : graph) (k : nat) (st : lpst * Z) : Prop := {
  ti_inv : PInv g [] (fst st);
  ti_black : forall j, (j < k)%nat -> 0 < hv (fst st) j;
  ti_first : is_argmax (hv (fst st)) k (snd st)
}.

Lemma lp_init_TI g : TI g 0 (lp_init (length g), -1).
Proof.
  assert (Hh : forall v, hv (lp_init (length g)) v = 0) by (intro v; unfold hv; cbn; apply nth_repeat).
  constructor; cbn [fst snd].
  - constructor.
    + cbn. apply repeat_length.
    + cbn. apply repeat_length.
    + intro v. rewrite Hh. split; [discriminate|intros []].
    + constructor.
    + intros v [].
    + intro v. now rewrite Hh.
    + intros x [].
    + cbn. discriminate.
    + intros _ v Hv. now rewrite Hh in Hv.
  - intros j Hj. inversion Hj.
  - split; [reflexivity|intro H; inversion H].
Qed.

Lemma lp_top_TI g k st : graph_wf g = true -> (k < length g)%nat -> TI g k st -> TI g (S k) (lp_top g st k).
Proof.
  intros Hwf Hk [Hi Hb Hf]. destruct st as [s first]. cbn [fst snd] in *. unfold lp_top.
  assert (Hpre : PPre g (S (S (length g))) [] k s) by (constructor; [exact Hi|exact Hk|cbn [length]; lia|exact I]).
  pose proof (lp_dfs_spec g Hwf _ _ _ _ Hpre) as [Qi Qoof Qnw Qfr Qcy Qgr].
  set (s' := lp_dfs (S (S (length g))) g k s) in *.
  assert (Hold : forall j, (j < k)%nat -> hv s' j = hv s j) by (intros j Hj; apply Qfr; now apply Hb).
  constructor; cbn [fst snd].
  - exact Qi.
  - intros j Hj. destruct (Nat.eq_dec j k) as [->|Hne]; [|rewrite Hold by lia; apply Hb; lia].
    pose proof (p_ge _ _ _ Qi k). assert (hv s' k <> -1) by (intro E; apply (p_gray _ _ _ Qi) in E; destruct E). lia.
  - exact (argmax_step (hv s) (hv s') k first Hf Hold).
Qed.

Lemma lp_loop_TI g : graph_wf g = true ->
  TI g (length g) (fold_left (lp_top g) (seq 0 (length g)) (lp_init (length g), -1)).
Proof.
  intro Hwf. apply (fold_left_seq_ind _ (TI g)); [apply lp_init_TI|]. intros k st Hk. now apply lp_top_TI.
Qed.

Section Final.
Variable g : graph.
Hypothesis Hwf : graph_wf g = true.
Variable s : lpst.
Hypothesis Hgood : forall v, (v < length g)%nat -> 0 < hv s v /\ black_ok g s v.

Lemma heights_decrease u w : greach g u w -> hv s w < hv s u.
Proof.
  assert (He : forall a b, gedge g a b -> hv s b < hv s a).
  { intros a b [Ha [_ E]]. destruct (Hgood a Ha) as [_ [Hb _]]. apply (Hb b E). }
  intro P. induction P as [a b E|a c b E _ IH] using greach_ind_edge; [now apply He|].
  apply He in E. lia.
Qed.

Lemma final_acyclic v : ~ greach g v v.
Proof. intro H. apply heights_decrease in H. lia. Qed.

Lemma paths_bounded q : valid_path g q -> forall v t, q = v :: t -> Z.of_nat (length q) <= hv s v.
Proof.
  induction 1 as [v Hv|v w t Hv Hw Ht IH]; intros v' t' E; injection E as <- <-.
  - cbn [length]. destruct (Hgood v Hv). lia.
  - specialize (IH w t eq_refl). destruct (Hgood v Hv) as [_ [Hb _]]. specialize (Hb w Hw).
    cbn [length] in *. lia.
Qed.

Lemma follow_links_stop fuel link : follow_links fuel link (-1) = [].
Proof. destruct fuel; reflexivity. Qed.

Lemma follow_links_path : forall k v, (v < length g)%nat -> hv s v = Z.of_nat k ->
  forall fuel, (k <= fuel)%nat ->
  exists t, follow_links fuel (lp_link s) (Z.of_nat v) = v :: t /\ valid_path g (v :: t) /\ length (v :: t) = k.
Proof.
  induction k as [|k IH]; intros v Hv Hk fuel Hfuel.
  { destruct (Hgood v Hv). lia. }
  destruct fuel as [|f]; [lia|]. cbn [follow_links].
  replace (Z.of_nat v =? -1) with false by (symmetry; apply Z.eqb_neq; lia). rewrite Nat2Z.id.
  fold (lk s v). destruct (Hgood v Hv) as [_ [Hb [[Hl H1]|[w [Hl [He Hh]]]]]].
  - rewrite Hl, follow_links_stop. exists []. repeat split; [now apply vp_one|cbn [length]; lia].
  - rewrite Hl. assert (Hwlt : (w < length g)%nat) by (eapply edge_dst_lt; eauto).
    destruct (IH w Hwlt ltac:(lia) f ltac:(lia)) as [t [E [Hp Hlen]]].
    rewrite E. exists (w :: t). repeat split; [now apply vp_cons|cbn [length] in *; lia].
Qed.
End Final.

Theorem longest_path_spec g : graph_wf g = true -> (1 <= length g)%nat -> longest_ok g (longest_path g).
Proof.
  intros Hwf Hn. rewrite longest_path_unfold.
  pose proof (lp_loop_TI g Hwf) as HT.
  destruct (fold_left (lp_top g) (seq 0 (length g)) (lp_init (length g), -1)) as [s first].
  destruct HT as [Hi Hb [_ Hf]]. cbn [fst snd] in *. destruct (Hf ltac:(lia)) as [Hfr Hmax].
  destruct (lp_cycle s) eqn:Ec; cbn [longest_ok].
  - apply (p_cyc _ _ _ Hi Ec).
  - assert (Hgood : forall v, (v < length g)%nat -> 0 < hv s v /\ black_ok g s v).
    { intros v Hv. split; [now apply Hb|]. apply (p_good _ _ _ Hi Ec). now apply Hb. }
    assert (Hac := final_acyclic g s Hgood).
    destruct (Z_of_nat_complete first (proj1 Hfr)) as [f ->]. rewrite Nat2Z.id in Hmax.
    assert (Hflt : (f < length g)%nat) by lia.
    destruct (Z_of_nat_complete (hv s f)) as [k Hk]; [destruct (Hgood f Hflt); lia|].
    (* with fuel k the links give a valid path of k vertices; acyclicity bounds k by the vertex count *)
    destruct (follow_links_path g Hwf s Hgood k f Hflt Hk k (le_n _)) as [t0 [_ [Hp0 Hl0]]].
    pose proof (nodup_path_short g _ Hp0 (acyclic_path_nodup g Hac _ Hp0)) as Hshort.
    destruct (follow_links_path g Hwf s Hgood k f Hflt Hk (S (length g)) ltac:(lia)) as [t [E [Hp Hl]]].
    rewrite E.
    split; [exact Hac|]. split; [exact Hp|].
    intros q Hq. destruct q as [|v tq]; [inversion Hq|].
    assert (Hv : (v < length g)%nat) by (apply (valid_path_in_range g _ Hq); now left).
    pose proof (paths_bounded g s Hgood _ Hq v tq eq_refl) as Hb1.
    specialize (Hmax v Hv). lia.
Qed.

Lemma longest_path_empty : longest_path [] = Some [].
Proof. reflexivity. Qed.

Lemma height_realised g : graph_wf g = true -> forall fuel v, (v < length g)%nat -> (1 <= fuel)%nat ->
  exists q, valid_path g (v :: q) /\ length (v :: q) = height fuel g v.
Proof.
  intros Hwf. induction fuel as [|f IHf]; intros u Hu Hf; [lia|]. cbn [height].
  destruct f as [|f'].
  { assert (E : forall l, fold_left Nat.max (map (height 0 g) l) 0%nat = 0%nat).
    { induction l as [|x l IHl]; [reflexivity|]. cbn [map fold_left height Nat.max]. exact IHl. }
    rewrite E. exists []. split; [now apply vp_one|reflexivity]. }
  destruct (fold_max_in (map (height (S f') g) (nth u g [])) 0) as [H0|H0].
  - rewrite H0. exists []. split; [now apply vp_one|reflexivity].
  - apply in_map_iff in H0 as [w [Hw Hwin]]. rewrite <- Hw.
    assert (Hwlt : (w < length g)%nat) by (eapply edge_dst_lt; eauto).
    destruct (IHf w Hwlt ltac:(lia)) as [q [Hq Hl]].
    exists (w :: q). split; [now apply vp_cons|cbn [length] in *; lia].
Qed.

Lemma check_longest_complete g res : graph_wf g = true -> (1 <= length g)%nat ->
  longest_ok g res -> check_longest g res = true.
Proof.
  intros Hwf Hn. unfold longest_ok, check_longest. destruct res as [p|]; [|apply cyclicb_spec].
  intros [Hac [Hp Hmax]].
  assert (Hcb : cyclicb g = false).
  { destruct (cyclicb g) eqn:E; [|reflexivity]. apply cyclicb_spec in E as [v Hv]. exfalso. now apply (Hac v). }
  rewrite Hcb. cbn [negb andb]. rewrite (proj2 (valid_pathb_spec g p) Hp). cbn [andb].
  apply Nat.eqb_eq. apply Nat.le_antisymm.
  - destruct p as [|v t]; [inversion Hp|].
    apply fold_max_le. right. exists (height (length g) g v). split.
    + apply in_map. apply in_seq. pose proof (valid_path_in_range g _ Hp v (or_introl eq_refl)). lia.
    + apply height_bounds_paths; [exact Hp|]. apply (nodup_path_short g _ Hp (acyclic_path_nodup g Hac _ Hp)).
  - destruct (fold_max_in (map (height (length g) g) (seq 0 (length g))) 0) as [H|H].
    + rewrite H. lia.
    + apply in_map_iff in H as [v [Hv Hin]]. rewrite <- Hv. apply in_seq in Hin.
      destruct (height_realised g Hwf (length g) v ltac:(lia) Hn) as [q [Hq Hl]].
      rewrite <- Hl. now apply Hmax.
Qed.

Corollary longest_path_passes_certificate g : graph_wf g = true -> (1 <= length g)%nat ->
  check_longest g (longest_path g) = true.
Proof. intros Hwf Hn. apply check_longest_complete; try assumption. now apply longest_path_spec. Qed.
