(* Edit scripts: a valid script turns a into b and costs at least |a|+|b|-2*L a b, which some script attains;
   trace with any sound middle-snake oracle, chunk merging and lcs_gen produce valid scripts. *)
From Coq Require Import List ZArith Bool Lia.
From TM Require Import Lib.ListX Util.Diff Util.Diff_lcs.
Import ListNotations.
Local Open Scope Z_scope.

Lemma elt_nth l x : 0 <= x -> elt l x = nth (Z.to_nat x) l (-1).
Proof. intro H. unfold elt. now rewrite (proj2 (Z.ltb_ge x 0) H). Qed.

Lemma elt_app_l l l' x : x < zlen l -> elt (l ++ l') x = elt l x.
Proof.
  intro H. unfold elt, zlen in *. destruct (x <? 0) eqn:E; [reflexivity|]. apply Z.ltb_ge in E.
  apply app_nth1. lia.
Qed.

Lemma elt_rev l x : elt (rev l) x = elt l (zlen l - x - 1).
Proof.
  unfold elt, zlen. destruct (Z.ltb_spec x 0) as [H|H].
  - destruct (Z.ltb_spec (Z.of_nat (length l) - x - 1) 0); [reflexivity|]. symmetry. apply nth_overflow. lia.
  - destruct (Z.ltb_spec (Z.of_nat (length l) - x - 1) 0) as [H'|H'].
    + apply nth_overflow. rewrite rev_length. lia.
    + rewrite rev_nth by lia. f_equal. lia.
Qed.

Lemma elt_ext (x y : list Z) : zlen x = zlen y -> (forall j, 0 <= j < zlen x -> elt x j = elt y j) -> x = y.
Proof.
  unfold zlen. intros Hl H. apply (nth_ext x y (-1) (-1)); [lia|].
  intros j Hj. specialize (H (Z.of_nat j) ltac:(lia)). now rewrite !elt_nth, Nat2Z.id in H by lia.
Qed.

Lemma sub_length (l : list Z) from to : 0 <= from -> from <= to -> to <= zlen l -> zlen (sub l from to) = to - from.
Proof. intros. unfold sub, zlen in *. rewrite firstn_length, skipn_length. lia. Qed.

Lemma elt_sub (l : list Z) from to j : 0 <= from -> 0 <= j < to - from -> to <= zlen l ->
  elt (sub l from to) j = elt l (from + j).
Proof.
  intros Hf Hj Ht. rewrite !elt_nth by lia. unfold sub.
  rewrite nth_firstn' by lia. rewrite nth_skipn'. f_equal. lia.
Qed.

Lemma sub_split (l : list Z) ai s : 0 <= ai -> 0 <= s -> ai + s <= zlen l ->
  l = sub l 0 ai ++ sub l ai (ai + s) ++ sub l (ai + s) (zlen l).
Proof.
  intros Ha Hs Hl. unfold sub, zlen in *. cbn [Z.to_nat skipn].
  rewrite (firstn_all2 (n := Z.to_nat (_ - (ai + s)))) by (rewrite skipn_length; lia).
  rewrite (split3 l (Z.to_nat ai) (Z.to_nat (ai + s))) at 1 by lia. repeat f_equal; lia.
Qed.

Lemma snake_equal a b ai bi s : 0 <= ai -> 0 <= bi -> 0 <= s -> ai + s <= zlen a -> bi + s <= zlen b ->
  (forall j, 0 <= j < s -> elt a (ai + j) = elt b (bi + j)) -> sub a ai (ai + s) = sub b bi (bi + s).
Proof.
  intros Ha Hb Hs Hla Hlb H. apply elt_ext; rewrite !sub_length by lia; [lia|].
  intros j Hj. rewrite !elt_sub by lia. apply H. lia.
Qed.

Lemma seq_eqb_eq x : forall y, seq_eqb x y = true <-> x = y.
Proof.
  induction x as [|p x IH]; destruct y as [|q y]; cbn [seq_eqb]; try (split; discriminate); [tauto|].
  rewrite andb_true_iff, Z.eqb_eq, IH. split; [intros [-> ->]; reflexivity|intros [= -> ->]; auto].
Qed.

Theorem script_ok_applies chunks : forall a b, script_ok chunks a b = true -> apply_script chunks a b = b.
Proof.
  induction chunks as [|c rest IH]; intros a b H; cbn [script_ok apply_script] in *.
  - destruct a, b; try discriminate. reflexivity.
  - apply andb_prop in H as [H Hrest]. apply andb_prop in H as [_ Heq].
    apply seq_eqb_eq in Heq. rewrite (IH _ _ Hrest), Heq. now rewrite !firstn_skipn.
Qed.

Lemma script_cons_intro rest da p a' ib b' :
  script_ok rest a' b' = true ->
  script_ok (mkChunk (zlen da) (zlen ib) (zlen p) :: rest) (da ++ p ++ a') (ib ++ p ++ b') = true.
Proof.
  intro H. cbn [script_ok c_del c_ins c_eq]. unfold zlen. rewrite !Nat2Z.id.
  rewrite !skipn_app_len, !firstn_app_len, H, (proj2 (seq_eqb_eq p p) eq_refl), !app_length.
  rewrite !(proj2 (Z.leb_le 0 _)), !(proj2 (Nat.leb_le _ _)) by lia. reflexivity.
Qed.

Lemma script_cons_inv c rest a b : script_ok (c :: rest) a b = true ->
  exists da p a' ib b', a = da ++ p ++ a' /\ b = ib ++ p ++ b' /\
    c = mkChunk (zlen da) (zlen ib) (zlen p) /\ script_ok rest a' b' = true.
Proof.
  intro H. cbn [script_ok] in H. rewrite !andb_true_iff in H.
  destruct H as [[[[[[[[Hd%Z.leb_le Hi%Z.leb_le] He%Z.leb_le] Hda%Nat.leb_le] Hib%Nat.leb_le] Hea%Nat.leb_le] Heb%Nat.leb_le]
                   Heq%seq_eqb_eq] Hrest].
  exists (firstn (Z.to_nat (c_del c)) a), (firstn (Z.to_nat (c_eq c)) (skipn (Z.to_nat (c_del c)) a)),
         (skipn (Z.to_nat (c_eq c)) (skipn (Z.to_nat (c_del c)) a)),
         (firstn (Z.to_nat (c_ins c)) b), (skipn (Z.to_nat (c_eq c)) (skipn (Z.to_nat (c_ins c)) b)).
  repeat split; [now rewrite !firstn_skipn|rewrite Heq; now rewrite !firstn_skipn| |exact Hrest].
  destruct c as [cd ci ce]. unfold zlen. cbn [c_del c_ins c_eq] in *. rewrite !firstn_length. f_equal; lia.
Qed.

Lemma script_ok_app s1 : forall s2 a1 b1 a2 b2,
  script_ok s1 a1 b1 = true -> script_ok s2 a2 b2 = true -> script_ok (s1 ++ s2) (a1 ++ a2) (b1 ++ b2) = true.
Proof.
  induction s1 as [|c s1 IH]; intros s2 a1 b1 a2 b2 H1 H2.
  - destruct a1, b1; try discriminate. exact H2.
  - destruct (script_cons_inv _ _ _ _ H1) as (da & p & a' & ib & b' & -> & -> & -> & Hr).
    rewrite <- !app_assoc. apply script_cons_intro, IH; assumption.
Qed.

Lemma script_nil : script_ok [] [] [] = true. Proof. reflexivity. Qed.

Lemma script_chunk da ib p : script_ok [mkChunk (zlen da) (zlen ib) (zlen p)] (da ++ p) (ib ++ p) = true.
Proof. pose proof (script_cons_intro [] da p [] ib [] script_nil) as H. now rewrite !app_nil_r in H. Qed.

Lemma script_replace a b : script_ok [mkChunk (zlen a) (zlen b) 0] a b = true.
Proof. pose proof (script_chunk a b []) as H. now rewrite !app_nil_r in H. Qed.

Lemma script_ins b : script_ok [mkChunk 0 (zlen b) 0] [] b = true.
Proof. apply (script_replace [] b). Qed.

Lemma script_eq p : script_ok [mkChunk 0 0 (zlen p)] p p = true.
Proof. apply (script_chunk [] [] p). Qed.

Lemma cost_acc chunks : forall acc, fold_left (fun s c => s + c_del c + c_ins c) chunks acc = acc + cost chunks.
Proof.
  unfold cost. induction chunks as [|c rest IH]; intro acc; cbn [fold_left]; [lia|].
  rewrite IH, (IH (0 + _ + _)). lia.
Qed.

Lemma cost_cons c rest : cost (c :: rest) = c_del c + c_ins c + cost rest.
Proof. unfold cost at 1. cbn [fold_left]. rewrite cost_acc. lia. Qed.

Lemma cost_app x y : cost (x ++ y) = cost x + cost y.
Proof. induction x as [|c x IH]; [reflexivity|]. cbn [app]. rewrite !cost_cons, IH. lia. Qed.

(* the chunk that lcs and trace emit for a run of s equal elements *)
Definition keep (s : Z) : list chunk := if s >? 0 then [mkChunk 0 0 s] else [].

Lemma script_keep p : script_ok (keep (zlen p)) p p = true.
Proof. destruct p; [reflexivity|apply script_eq]. Qed.

Lemma cost_keep s : cost (keep s) = 0.
Proof. unfold keep. now destruct (s >? 0). Qed.

(* what trace needs of its oracle for the script to be valid *)
Definition mid_sound (mid : list Z -> list Z -> list Z -> mid_result) : Prop :=
  forall a b buf ai bi s buf', mid a b buf = MidFound ai bi s buf' ->
  forall j, 0 <= j < s -> elt a (ai + j) = elt b (bi + j).

Lemma find_index_some v l : forall i k, find_index v l i = Some k -> exists l1 l2, l = l1 ++ v :: l2 /\ k = i + zlen l1.
Proof.
  induction l as [|x l IH]; intros i k H; cbn [find_index] in H; [discriminate|].
  destruct (Z.eqb_spec x v) as [->|_].
  - injection H as <-. exists [], l. split; [reflexivity|apply Zplus_0_r_reverse].
  - destruct (IH _ _ H) as (l1 & l2 & -> & ->). exists (x :: l1), l2. split; [reflexivity|rewrite zlen_cons; lia].
Qed.

Lemma find_index_none v l : forall i, find_index v l i = None -> ~ In v l.
Proof.
  induction l as [|x l IH]; intros i H; cbn [find_index] in H; [intros []|].
  destruct (Z.eqb_spec x v); [discriminate|]. intros [Hx|Hx]; [congruence|]. eapply IH; eauto.
Qed.

Definition swap (c : chunk) : chunk := mkChunk (c_ins c) (c_del c) (c_eq c).

Lemma script_ok_swap cs : forall a b, script_ok cs a b = true -> script_ok (map swap cs) b a = true.
Proof.
  induction cs as [|c cs IH]; intros a b H.
  - destruct a, b; try discriminate. reflexivity.
  - destruct (script_cons_inv _ _ _ _ H) as (da & p & a' & ib & b' & -> & -> & -> & Hr).
    apply (script_cons_intro (map swap cs)), IH, Hr.
Qed.

Lemma cost_swap cs : cost (map swap cs) = cost cs.
Proof. induction cs as [|c cs IH]; [reflexivity|]. cbn [map]. rewrite !cost_cons, IH. cbn. lia. Qed.

(* the cases trace settles without a middle snake; [one x l] is the script from [x] to l *)
Definition one (x : Z) (l : list Z) : list chunk :=
  match find_index x l 0 with
  | Some i => [mkChunk 0 i 1; mkChunk 0 (zlen l - i - 1) 0]
  | None => [mkChunk 1 (zlen l) 0]
  end.

Definition small (a b : list Z) : option (list chunk) :=
  match a, b with
  | [], _ => Some [mkChunk 0 (zlen b) 0]
  | _, [] => Some [mkChunk (zlen a) 0 0]
  | [x], _ => Some (one x b)
  | _, [y] => Some (map swap (one y a))
  | _, _ => None
  end.

Lemma trace_S mid f a b buf chunks :
  trace mid (S f) a b buf chunks =
  match small a b with
  | Some sc => TraceOk (chunks ++ sc) buf
  | None =>
    match mid a b buf with
    | MidFound ai bi s buf =>
        if ((ai =? zlen a) && (bi =? zlen b)) || ((ai =? 0) && (bi =? 0)) then TraceFatal
        else if negb ((0 <=? ai) && (0 <=? bi) && (0 <=? s) && (ai + s <=? zlen a) && (bi + s <=? zlen b))
        then TraceFatal
        else
          match trace mid f (sub a 0 ai) (sub b 0 bi) buf chunks with
          | TraceOk ret buf =>
              trace mid f (sub a (ai + s) (zlen a)) (sub b (bi + s) (zlen b)) buf
                (if s >? 0 then ret ++ [mkChunk 0 0 s] else ret)
          | r => r
          end
    | MidFatal _ => TraceFatal
    | MidFuel => TraceFuel
    end
  end.
Proof.
  destruct a as [|x [|x2 a]], b as [|y [|y2 b]]; try reflexivity;
    cbn [trace small]; unfold one; now destruct (find_index _ _ 0).
Qed.

Lemma small_none a b : small a b = None -> 2 <= zlen a /\ 2 <= zlen b.
Proof.
  destruct a as [|x [|x2 a]], b as [|y [|y2 b]]; try discriminate. intros _.
  rewrite !zlen_cons. pose proof (zlen_nonneg a). pose proof (zlen_nonneg b). lia.
Qed.

Lemma one_spec x l : script_ok (one x l) [x] l = true /\ cost (one x l) = 1 + zlen l - 2 * L [x] l.
Proof.
  unfold one. destruct (find_index x l 0) as [i|] eqn:Ef; rewrite !cost_cons; cbn [c_del c_ins cost fold_left].
  - destruct (find_index_some _ _ _ _ Ef) as (l1 & l2 & -> & ->).
    rewrite L_single_in by (apply in_elt). rewrite zlen_app, zlen_cons.
    replace (zlen l1 + (1 + zlen l2) - (0 + zlen l1) - 1) with (zlen l2) by lia.
    split; [apply (script_cons_intro _ [] [x] [] l1 l2), script_ins|lia].
  - rewrite L_single_notin by (eapply find_index_none; eauto).
    split; [apply (script_replace [x] l)|lia].
Qed.

Lemma small_spec a b sc : small a b = Some sc ->
  script_ok sc a b = true /\ cost sc = zlen a + zlen b - 2 * L a b.
Proof.
  destruct a as [|x a].
  { intros [= <-]. split; [apply script_ins|cbn; lia]. }
  destruct b as [|y b].
  { intro H. assert (sc = [mkChunk (zlen (x :: a)) 0 0]) as -> by (destruct a; now injection H).
    rewrite L_nil_r. split; [apply (script_replace (x :: a) [])|cbn; lia]. }
  destruct a as [|x2 a].
  { intros [= <-]. apply one_spec. }
  destruct b as [|y2 b]; [|discriminate].
  intros [= <-]. destruct (one_spec y (x :: x2 :: a)) as [H1 H2].
  rewrite cost_swap, L_comm, H2. split; [now apply script_ok_swap|change (zlen [y]) with 1; lia].
Qed.

(* the successful runs of trace: recursion trees over the splits the oracle returns *)
Inductive Splits (mid : list Z -> list Z -> list Z -> mid_result) :
  list Z -> list Z -> list Z -> list chunk -> list Z -> Prop :=
| Sp_small a b buf sc : small a b = Some sc -> Splits mid a b buf sc buf
| Sp_mid a b buf ai bi s buf1 n1 buf2 n2 buf3 :
    small a b = None -> mid a b buf = MidFound ai bi s buf1 ->
    0 <= ai -> 0 <= bi -> 0 <= s -> ai + s <= zlen a -> bi + s <= zlen b ->
    Splits mid (sub a 0 ai) (sub b 0 bi) buf1 n1 buf2 ->
    Splits mid (sub a (ai + s) (zlen a)) (sub b (bi + s) (zlen b)) buf2 n2 buf3 ->
    Splits mid a b buf (n1 ++ keep s ++ n2) buf3.

Lemma trace_splits mid : forall fuel a b buf chunks ret buf',
  trace mid fuel a b buf chunks = TraceOk ret buf' -> exists new, ret = chunks ++ new /\ Splits mid a b buf new buf'.
Proof.
  induction fuel as [|f IH]; intros a b buf chunks ret buf' H; [discriminate|].
  rewrite trace_S in H. destruct (small a b) as [sc|] eqn:Es.
  { injection H as <- <-. exists sc. split; [reflexivity|now constructor]. }
  destruct (mid a b buf) as [ai bi s buf1| |] eqn:Em; try discriminate.
  destruct (_ || _) in H; [discriminate|].
  destruct (_ && _) eqn:Er in H; [|discriminate]. cbn [negb] in H.
  rewrite !andb_true_iff, !Z.leb_le in Er. destruct Er as [[[[R1 R2] R3] R4] R5].
  destruct (trace mid f (sub a 0 ai) (sub b 0 bi) buf1 chunks) as [ret1 buf2| |] eqn:E1; try discriminate.
  destruct (IH _ _ _ _ _ _ E1) as (n1 & -> & S1). destruct (IH _ _ _ _ _ _ H) as (n2 & -> & S2).
  exists (n1 ++ keep s ++ n2). split; [|econstructor; eassumption].
  unfold keep. destruct (s >? 0); now rewrite <- !app_assoc.
Qed.

Section TraceCorrect.
Variable mid : list Z -> list Z -> list Z -> mid_result.
Hypothesis Hmid : mid_sound mid.

Theorem trace_correct : forall fuel a b buf chunks ret buf',
  trace mid fuel a b buf chunks = TraceOk ret buf' ->
  exists new, ret = chunks ++ new /\ script_ok new a b = true.
Proof.
  intros fuel a b buf chunks ret buf' H. destruct (trace_splits _ _ _ _ _ _ _ _ H) as (new & -> & S).
  exists new. split; [reflexivity|]. clear H.
  induction S as [a b buf sc Hs|a b buf ai bi s buf1 n1 buf2 n2 buf3 _ Em R1 R2 R3 R4 R5 _ IH1 _ IH2].
  - apply (small_spec _ _ _ Hs).
  - rewrite (sub_split a ai s R1 R3 R4), (sub_split b bi s R2 R3 R5).
    rewrite <- (snake_equal a b ai bi s R1 R2 R3 R4 R5 (Hmid _ _ _ _ _ _ _ Em)).
    apply script_ok_app; [exact IH1|]. apply script_ok_app; [|exact IH2].
    pose proof (script_keep (sub a ai (ai + s))) as K. rewrite sub_length in K by lia.
    now replace (ai + s - ai) with s in K by lia.
Qed.
End TraceCorrect.

Definition merge2 (c1 c2 : chunk) : chunk := mkChunk (c_del c1 + c_del c2) (c_ins c1 + c_ins c2) (c_eq c1 + c_eq c2).

Definition merge_step (ret : list chunk) (c : chunk) : list chunk :=
  match ret with
  | last :: ret' => if (c_eq last =? 0) || ((c_ins c =? 0) && (c_del c =? 0)) then merge2 last c :: ret' else c :: ret
  | [] => [c]
  end.

(* a property of scripts that merging two neighbours preserves holds of the merged script *)
Lemma merge_chunks_inv (P : list chunk -> Prop) :
  (forall front c1 c2 post, (c_eq c1 =? 0) || ((c_ins c2 =? 0) && (c_del c2 =? 0)) = true ->
     P (front ++ c1 :: c2 :: post) -> P (front ++ merge2 c1 c2 :: post)) ->
  forall chunks, P chunks -> P (merge_chunks chunks).
Proof.
  intros Hstep chunks. change (merge_chunks chunks) with (rev (fold_left merge_step chunks [])).
  change (P chunks) with (P (rev [] ++ chunks)). generalize (@nil chunk).
  induction chunks as [|c chunks IH]; intros acc H; cbn [fold_left]; [now rewrite app_nil_r in H|].
  apply IH. destruct acc as [|last acc]; [exact H|]. cbn [merge_step rev] in *. rewrite <- app_assoc in H.
  destruct (_ || _) eqn:E; cbn [rev]; rewrite <- !app_assoc; [now apply Hstep|exact H].
Qed.

Lemma script_ok_prefix_congr front s s' : forall a b,
  (forall a' b', script_ok s a' b' = true -> script_ok s' a' b' = true) ->
  script_ok (front ++ s) a b = true -> script_ok (front ++ s') a b = true.
Proof.
  induction front as [|c front IH]; intros a b Hs H; cbn [app] in *; [now apply Hs|].
  destruct (script_cons_inv _ _ _ _ H) as (da & p & a' & ib & b' & -> & -> & -> & Hr).
  apply script_cons_intro, IH; assumption.
Qed.

Lemma merge_two_ok c1 c2 rest a b :
  ((c_eq c1 =? 0) || ((c_ins c2 =? 0) && (c_del c2 =? 0))) = true ->
  script_ok (c1 :: c2 :: rest) a b = true -> script_ok (merge2 c1 c2 :: rest) a b = true.
Proof.
  intros Hc H.
  destruct (script_cons_inv _ _ _ _ H) as (da1 & p1 & a1 & ib1 & b1 & -> & -> & -> & H1).
  destruct (script_cons_inv _ _ _ _ H1) as (da2 & p2 & a2 & ib2 & b2 & -> & -> & -> & H2).
  unfold merge2. cbn [c_del c_ins c_eq] in *. rewrite <- !zlen_app.
  rewrite orb_true_iff, andb_true_iff, !Z.eqb_eq in Hc. destruct Hc as [Hc|[Hi Hd]].
  - apply zlen_zero in Hc. subst p1. cbn [app]. rewrite !(app_assoc _ _ (p2 ++ _)). now apply script_cons_intro.
  - apply zlen_zero in Hi, Hd. subst da2 ib2. cbn [app]. rewrite !app_nil_r, !(app_assoc p1). now apply script_cons_intro.
Qed.

Theorem merge_chunks_ok chunks a b : script_ok chunks a b = true -> script_ok (merge_chunks chunks) a b = true.
Proof.
  apply (merge_chunks_inv (fun s => script_ok s a b = true)). intros front c1 c2 post Hc.
  apply script_ok_prefix_congr. intros a' b'. now apply merge_two_ok.
Qed.

Lemma merge_chunks_cost chunks : cost (merge_chunks chunks) = cost chunks.
Proof.
  apply (merge_chunks_inv (fun s => cost s = cost chunks)); [|reflexivity]. intros front c1 c2 post _.
  rewrite !cost_app, !cost_cons. cbn [merge2 c_del c_ins]. lia.
Qed.

Definition hd_neq (a b : list Z) : Prop := 1 <= zlen a -> 1 <= zlen b -> elt a 0 <> elt b 0.

Lemma common_prefix_split a : forall b, exists front a1 b1,
  a = front ++ a1 /\ b = front ++ b1 /\ common_prefix a b = length front /\ hd_neq a1 b1.
Proof.
  induction a as [|x a IH]; intro b.
  { exists [], [], b. repeat split. intro H. cbn in H. lia. }
  destruct b as [|y b].
  { exists [], (x :: a), []. repeat split. intros _ H. cbn in H. lia. }
  cbn [common_prefix]. destruct (Z.eqb_spec x y) as [->|Hne].
  - destruct (IH b) as (front & a1 & b1 & -> & -> & -> & H). now exists (y :: front), a1, b1.
  - exists [], (x :: a), (y :: b). repeat split. intros _ _. exact Hne.
Qed.

(* beyond the shorter of x and y the comparison is cut off *)
Lemma common_prefix_app_min x : forall y u v,
  Nat.min (Nat.min (length x) (length y)) (common_prefix (x ++ u) (y ++ v)) = common_prefix x y.
Proof.
  induction x as [|p x IH]; intros [|q y] u v; try reflexivity.
  cbn [length app common_prefix Nat.min]. destruct (p =? q); [cbn [Nat.min]; now rewrite IH|reflexivity].
Qed.

(* what lcs_gen strips: a longest common prefix, then a longest common suffix of the rest *)
Lemma trim_spec a b : exists front a' b' back,
  a = front ++ a' ++ back /\ b = front ++ b' ++ back /\
  common_prefix a b = length front /\
  Nat.min (Nat.min (length a) (length b) - length front) (common_prefix (rev a) (rev b)) = length back /\
  hd_neq a' b' /\ hd_neq (rev a') (rev b').
Proof.
  destruct (common_prefix_split a b) as (front & a1 & b1 & -> & -> & Hp & H1).
  destruct (common_prefix_split (rev a1) (rev b1)) as (sr & ar & br & Ea & Eb & Hs & H2).
  assert (Hmin : Nat.min (Nat.min (length (front ++ a1)) (length (front ++ b1)) - length front)
                   (common_prefix (rev (front ++ a1)) (rev (front ++ b1))) = length (rev sr)).
  { rewrite !app_length, !rev_app_distr, Nat.add_min_distr_l, (Nat.add_comm (length front)), Nat.add_sub.
    rewrite <- (rev_length a1), <- (rev_length b1), common_prefix_app_min. now rewrite rev_length. }
  apply (f_equal (@rev Z)) in Ea, Eb. rewrite rev_involutive, rev_app_distr in Ea, Eb. subst a1 b1.
  exists front, (rev ar), (rev br), (rev sr). repeat split; try assumption.
  - intros Ha Hb. pose proof (zlen_nonneg (rev sr)).
    specialize (H1 ltac:(rewrite zlen_app; lia) ltac:(rewrite zlen_app; lia)). now rewrite !elt_app_l in H1 by lia.
  - now rewrite !rev_involutive.
Qed.

Lemma mid_of_app {A} (front x back : list A) :
  firstn (length (front ++ x ++ back) - length front - length back) (skipn (length front) (front ++ x ++ back)) = x.
Proof.
  rewrite skipn_app_len, !app_length.
  replace (length front + (length x + length back) - length front - length back)%nat with (length x) by lia.
  apply firstn_app_len.
Qed.

Lemma lcs_gen_eq mid a b : exists front a' b' back,
  a = front ++ a' ++ back /\ b = front ++ b' ++ back /\ hd_neq a' b' /\ hd_neq (rev a') (rev b') /\
  lcs_gen mid a b =
    match trace mid (S (length a' + length b')) a' b' (repeat 0 (2 * (length a' + length b' + 2))) (keep (zlen front)) with
    | TraceOk chunks _ => LcsOk (merge_chunks (chunks ++ keep (zlen back)))
    | TraceFatal => LcsFatal
    | TraceFuel => LcsFuel
    end.
Proof.
  destruct (trim_spec a b) as (front & a' & b' & back & Ea & Eb & Hp & Hs & H1 & H2).
  exists front, a', b', back. repeat split; try assumption.
  unfold lcs_gen. cbv zeta. rewrite Hp, Hs. subst a b. rewrite !mid_of_app.
  replace (if (0 <? length front)%nat then _ else _) with (keep (zlen front)) by now destruct front.
  destruct (trace _ _ _ _ _ _); try reflexivity. destruct back; [now rewrite app_nil_r|reflexivity].
Qed.

Theorem lcs_gen_correct mid a b chunks : mid_sound mid -> lcs_gen mid a b = LcsOk chunks -> script_ok chunks a b = true.
Proof.
  intros Hmid H. destruct (lcs_gen_eq mid a b) as (front & a' & b' & back & -> & -> & _ & _ & E).
  rewrite E in H. clear E.
  destruct (trace _ _ _ _ _ _) as [ret buf'| |] eqn:Et in H; try discriminate. injection H as <-.
  destruct (trace_correct mid Hmid _ _ _ _ _ _ _ Et) as [new [-> Hnew]].
  apply merge_chunks_ok. rewrite <- app_assoc.
  apply script_ok_app; [apply script_keep|]. apply script_ok_app; [exact Hnew|apply script_keep].
Qed.

Theorem script_cost_lower_bound chunks : forall a b, script_ok chunks a b = true ->
  zlen a + zlen b - 2 * L a b <= cost chunks.
Proof.
  induction chunks as [|c rest IH]; intros a b H.
  - destruct a, b; try discriminate H. reflexivity.
  - destruct (script_cons_inv _ _ _ _ H) as (da & p & a' & ib & b' & -> & -> & -> & Hr).
    specialize (IH _ _ Hr). rewrite cost_cons, !zlen_app. cbn [c_del c_ins].
    pose proof (L_mono (p ++ a') (da ++ p ++ a') (p ++ b') (ib ++ p ++ b') (Sub_app_r _ _) (Sub_app_r _ _)) as Hm.
    rewrite L_common in Hm. lia.
Qed.

Theorem lcs_bound_attained a : forall b, exists chunks,
  script_ok chunks a b = true /\ cost chunks = zlen a + zlen b - 2 * L a b.
Proof.
  induction a as [|x a IHa]; intro b.
  - exists [mkChunk 0 (zlen b) 0]. apply (small_spec [] b). reflexivity.
  - induction b as [|y b IHb].
    + exists [mkChunk (zlen (x :: a)) 0 0]. apply (small_spec (x :: a) []). now destruct a.
    + rewrite L_cons, !zlen_cons. destruct (Z.eqb_spec x y) as [->|Hne].
      * destruct (IHa b) as [c [Hc Hcost]]. exists (mkChunk 0 0 1 :: c).
        split; [apply (script_cons_intro c [] [y] a [] b Hc)|rewrite cost_cons, Hcost; cbn [c_del c_ins]; lia].
      * destruct (Z.le_ge_cases (L (x :: a) b) (L a (y :: b))) as [Hle|Hge].
        -- destruct (IHa (y :: b)) as [c [Hc Hcost]]. exists (mkChunk 1 0 0 :: c).
           split; [apply (script_cons_intro c [x] [] a [] (y :: b) Hc)|rewrite cost_cons, Hcost, zlen_cons; cbn [c_del c_ins]; lia].
        -- destruct IHb as [c [Hc Hcost]]. exists (mkChunk 0 1 0 :: c).
           split; [apply (script_cons_intro c [] [] (x :: a) [y] b Hc)|rewrite cost_cons, Hcost, zlen_cons; cbn [c_del c_ins]; lia].
Qed.
