(* Edit distance of prefixes (dist) and suffixes (rdist) in terms of L: the edit graph.  Coordinates are Z;
   prefixes saturate beyond the end of a list, as the search does when it runs off the grid. *)
From Coq Require Import List ZArith Bool Lia.
From TM Require Import Lib.ListX Util.Diff Util.Diff_lcs Util.Diff_proofs.
Import ListNotations.
Local Open Scope Z_scope.

Definition pre (l : list Z) (x : Z) : list Z := firstn (Z.to_nat x) l.
Definition suf (l : list Z) (x : Z) : list Z := skipn (Z.to_nat x) l.
Definition dist (a b : list Z) (x y : Z) : Z := x + y - 2 * L (pre a x) (pre b y).
Definition rdist (a b : list Z) (x y : Z) : Z := (zlen a - x) + (zlen b - y) - 2 * L (suf a x) (suf b y).
Definition Dtot (a b : list Z) : Z := zlen a + zlen b - 2 * L a b.

Lemma pre_succ_in l x : 0 <= x < zlen l -> pre l (x + 1) = pre l x ++ [elt l x].
Proof.
  intro H. rewrite elt_nth by lia. unfold pre, zlen in *. replace (Z.to_nat (x + 1)) with (S (Z.to_nat x)) by lia.
  apply firstn_S_nth'. lia.
Qed.

Lemma pre_out l x : zlen l <= x -> pre l x = l.
Proof. intro H. unfold pre, zlen in *. apply firstn_all2. lia. Qed.

Lemma zlen_pre_le l x : 0 <= x -> zlen (pre l x) <= x.
Proof. intro H. unfold zlen, pre. rewrite firstn_length. lia. Qed.

Lemma dist_comm a b x y : dist a b x y = dist b a y x.
Proof. unfold dist. rewrite L_comm. lia. Qed.

Section Dist.
Variables a b : list Z.
Definition gmatch (x y : Z) : bool :=
  (x <? zlen a) && (y <? zlen b) && (elt a x =? elt b y).

Lemma dist_right x y : 0 <= x -> dist a b x y - 1 <= dist a b (x + 1) y <= dist a b x y + 1.
Proof.
  intro Hx. unfold dist. destruct (Z.lt_ge_cases x (zlen a)) as [H|H].
  - rewrite pre_succ_in by lia.
    pose proof (L_snoc_ge (pre a x) (pre b y) (elt a x)). pose proof (L_snoc_le (pre a x) (pre b y) (elt a x)). lia.
  - rewrite !(pre_out a) by lia. lia.
Qed.
End Dist.

Lemma dist_down a b x y : 0 <= y -> dist a b x y - 1 <= dist a b x (y + 1) <= dist a b x y + 1.
Proof. intro H. rewrite !(dist_comm a b). now apply dist_right. Qed.

Lemma dist_match a b x y : 0 <= x -> 0 <= y -> gmatch a b x y = true ->
  dist a b (x + 1) (y + 1) = dist a b x y.
Proof.
  intros Hx Hy H. unfold gmatch in H. rewrite !andb_true_iff in H. destruct H as [[H1 H2] H3].
  apply Z.ltb_lt in H1, H2. apply Z.eqb_eq in H3. unfold dist.
  rewrite !pre_succ_in by lia. rewrite H3, L_suffix_common. change (zlen [elt b y]) with 1. lia.
Qed.

Lemma dist_mismatch a b x y : 0 <= x -> 0 <= y -> gmatch a b x y = false ->
  dist a b (x + 1) y + 1 <= dist a b (x + 1) (y + 1) \/ dist a b x (y + 1) + 1 <= dist a b (x + 1) (y + 1).
Proof.
  intros Hx Hy H. unfold gmatch in H.
  destruct (Z.ltb_spec x (zlen a)) as [H1|H1].
  - destruct (Z.ltb_spec y (zlen b)) as [H2|H2].
    + cbn [andb] in H. apply Z.eqb_neq in H. unfold dist.
      rewrite !pre_succ_in by lia. rewrite (L_snoc_neq _ _ _ _ H). lia.
    + left. unfold dist. rewrite !(pre_out b) by lia. lia.
  - right. unfold dist. rewrite !(pre_out a) by lia. lia.
Qed.

Lemma dist_diag_mono a b x y : 0 <= x -> 0 <= y -> dist a b x y <= dist a b (x + 1) (y + 1).
Proof.
  intros Hx Hy. destruct (gmatch a b x y) eqn:E.
  - rewrite dist_match by assumption. lia.
  - pose proof (dist_right a b x y Hx). pose proof (dist_down a b x (y + 1) ltac:(lia)). pose proof (dist_down a b x y Hy).
    pose proof (dist_right a b x (y + 1) Hx).
    destruct (dist_mismatch a b x y Hx Hy E); lia.
Qed.

Lemma dist_diag_mono_n a b x y : 0 <= x -> 0 <= y -> forall t, 0 <= t -> dist a b x y <= dist a b (x + t) (y + t).
Proof.
  intros Hx Hy t Ht. pattern t. apply natlike_ind; [rewrite !Z.add_0_r; lia| |exact Ht].
  intros t' Ht' IH. pose proof (dist_diag_mono a b (x + t') (y + t') ltac:(lia) ltac:(lia)).
  replace (x + Z.succ t') with (x + t' + 1) by lia. replace (y + Z.succ t') with (y + t' + 1) by lia. lia.
Qed.

Lemma dist_ge_diff a b x y : 0 <= x -> 0 <= y -> x - y <= dist a b x y /\ y - x <= dist a b x y.
Proof.
  intros Hx Hy. unfold dist.
  pose proof (L_le_len_l (pre a x) (pre b y)). pose proof (L_le_len_r (pre a x) (pre b y)).
  pose proof (zlen_pre_le a x Hx). pose proof (zlen_pre_le b y Hy). lia.
Qed.

Lemma dist_le_sum a b x y : dist a b x y <= x + y.
Proof. unfold dist. pose proof (L_nonneg (pre a x) (pre b y)). lia. Qed.

Lemma dist_parity a b x y : exists q, dist a b x y = x + y - 2 * q.
Proof. eexists. reflexivity. Qed.

Lemma pre_rev l x : 0 <= x <= zlen l -> pre (rev l) x = rev (suf l (zlen l - x)).
Proof.
  intro H. unfold pre, suf, zlen in *. rewrite firstn_rev. do 2 f_equal. lia.
Qed.

Lemma dist_rdist_ge a b x y : Dtot a b <= dist a b x y + rdist a b x y.
Proof.
  unfold Dtot, dist, rdist, pre, suf.
  pose proof (L_app_ge (firstn (Z.to_nat x) a) (skipn (Z.to_nat x) a) (firstn (Z.to_nat y) b) (skipn (Z.to_nat y) b)) as H.
  rewrite !firstn_skipn in H. lia.
Qed.

Lemma dist_sat_x a b x y : zlen a <= x -> dist a b x y = (x - zlen a) + dist a b (zlen a) y.
Proof. intro H. unfold dist. rewrite !(pre_out a) by lia. lia. Qed.

Lemma dist_sat_y a b x y : zlen b <= y -> dist a b x y = (y - zlen b) + dist a b x (zlen b).
Proof. intro H. rewrite !(dist_comm a b). now apply dist_sat_x. Qed.

Lemma dist_full a b : dist a b (zlen a) (zlen b) = Dtot a b.
Proof. unfold dist, Dtot. rewrite !pre_out by lia. reflexivity. Qed.

Lemma dist_x0 a b x : 0 <= x -> dist a b x 0 = x.
Proof. intro H. unfold dist, pre. cbn [Z.to_nat firstn]. rewrite L_nil_r. lia. Qed.

Lemma dist_0y a b y : 0 <= y -> dist a b 0 y = y.
Proof. intro H. rewrite dist_comm. now apply dist_x0. Qed.

Lemma rdist_xn a b x : 0 <= x <= zlen a -> rdist a b x (zlen b) = zlen a - x.
Proof.
  intro H. unfold rdist, suf. rewrite (skipn_all2 b) by (unfold zlen; lia). rewrite L_nil_r. lia.
Qed.

Lemma rdist_mx a b y : 0 <= y <= zlen b -> rdist a b (zlen a) y = zlen b - y.
Proof.
  intro H. unfold rdist, suf. rewrite (skipn_all2 a) by (unfold zlen; lia).
  change (L [] (skipn (Z.to_nat y) b)) with 0. lia.
Qed.

Lemma Dtot_rev a b : Dtot (rev a) (rev b) = Dtot a b.
Proof. unfold Dtot. now rewrite L_rev, !zlen_rev. Qed.

Lemma rdist_as_dist a b x y : 0 <= x <= zlen a -> 0 <= y <= zlen b ->
  rdist a b x y = dist (rev a) (rev b) (zlen a - x) (zlen b - y).
Proof.
  intros Hx Hy. unfold dist, rdist. rewrite !pre_rev, L_rev by lia.
  replace (zlen a - (zlen a - x)) with x by lia. replace (zlen b - (zlen b - y)) with y by lia. lia.
Qed.

Lemma rdist_diag_mono a b x y t : 0 <= x -> 0 <= y -> 0 <= t -> x + t <= zlen a -> y + t <= zlen b ->
  rdist a b (x + t) (y + t) <= rdist a b x y.
Proof.
  intros Hx Hy Ht Hxa Hyb. rewrite !rdist_as_dist by lia.
  pose proof (dist_diag_mono_n (rev a) (rev b) (zlen a - (x + t)) (zlen b - (y + t)) ltac:(lia) ltac:(lia) t Ht) as H.
  replace (zlen a - (x + t) + t) with (zlen a - x) in H by lia.
  now replace (zlen b - (y + t) + t) with (zlen b - y) in H by lia.
Qed.

Lemma suf_cons x l i : 0 <= i -> suf (x :: l) (i + 1) = suf l i.
Proof. intro H. unfold suf. replace (Z.to_nat (i + 1)) with (S (Z.to_nat i)) by lia. reflexivity. Qed.

Lemma pre_cons x l i : 0 <= i -> pre (x :: l) (i + 1) = x :: pre l i.
Proof. intro H. unfold pre. replace (Z.to_nat (i + 1)) with (S (Z.to_nat i)) by lia. reflexivity. Qed.

(* every optimal path has a point at every forward distance *)
Lemma split_point : forall a b e, 0 <= e <= Dtot a b ->
  exists x y, 0 <= x <= zlen a /\ 0 <= y <= zlen b /\ dist a b x y <= e /\ rdist a b x y <= Dtot a b - e.
Proof.
  induction a as [|c a IHa]; intros b.
  { intros e He. exists 0, e. pose proof (dist_0y [] b e). pose proof (rdist_mx [] b e).
    unfold Dtot in *. change (L [] b) with 0 in *. change (zlen []) with 0 in *. lia. }
  induction b as [|c' b IHb]; intros e He.
  { exists e, 0. pose proof (dist_x0 (c :: a) [] e). pose proof (rdist_xn (c :: a) [] e).
    unfold Dtot in *. rewrite L_nil_r in *. change (zlen []) with 0 in *. lia. }
  destruct (Z.eq_dec e 0) as [->|Hne].
  { exists 0, 0. unfold dist, rdist, Dtot, pre, suf. cbn [Z.to_nat firstn skipn]. change (L [] []) with 0.
    pose proof (zlen_nonneg (c :: a)). pose proof (zlen_nonneg (c' :: b)). repeat split; lia. }
  unfold Dtot in He. rewrite L_cons in He. rewrite !zlen_cons in He.
  destruct (c =? c') eqn:E.
  - apply Z.eqb_eq in E. subst c'.
    destruct (IHa b e) as (x & y & Hx & Hy & H1 & H2); [unfold Dtot; lia|].
    exists (x + 1), (y + 1). rewrite !zlen_cons. repeat split; try lia.
    + unfold dist in *. rewrite !pre_cons by lia. rewrite L_cons, Z.eqb_refl. lia.
    + unfold rdist, Dtot in *. rewrite !suf_cons by lia. rewrite !zlen_cons, L_cons, Z.eqb_refl. lia.
  - destruct (Z.le_ge_cases (L (c :: a) b) (L a (c' :: b))) as [Hle|Hge].
    + destruct (IHa (c' :: b) (e - 1)) as (x & y & Hx & Hy & H1 & H2); [unfold Dtot; rewrite zlen_cons; lia|].
      exists (x + 1), y. rewrite !zlen_cons in *. repeat split; try lia.
      * unfold dist in *. rewrite pre_cons by lia.
        pose proof (L_mono _ _ _ _ (Sub_skip c _ _ (Sub_refl (pre a x))) (Sub_refl (pre (c' :: b) y))). lia.
      * unfold rdist, Dtot in *. rewrite suf_cons by lia. rewrite !zlen_cons in *. rewrite L_cons, E. lia.
    + destruct (IHb (e - 1)) as (x & y & Hx & Hy & H1 & H2); [unfold Dtot; rewrite zlen_cons; lia|].
      exists x, (y + 1). rewrite !zlen_cons in *. repeat split; try lia.
      * unfold dist in *. rewrite pre_cons by lia.
        pose proof (L_mono _ _ _ _ (Sub_refl (pre (c :: a) x)) (Sub_skip c' _ _ (Sub_refl (pre b y)))). lia.
      * unfold rdist, Dtot in *. rewrite suf_cons by lia. rewrite !zlen_cons in *. rewrite L_cons, E. lia.
Qed.

Lemma sub_pre l x : sub l 0 x = pre l x.
Proof. unfold sub, pre. cbn [Z.to_nat skipn]. now rewrite Z.sub_0_r. Qed.

Lemma sub_suf l x : 0 <= x <= zlen l -> sub l x (zlen l) = suf l x.
Proof. intro H. unfold sub, suf, zlen in *. apply firstn_all2. rewrite skipn_length. lia. Qed.

Lemma optimal_split a b ai bi s :
  0 <= ai -> 0 <= bi -> 0 <= s -> ai + s <= zlen a -> bi + s <= zlen b ->
  sub a ai (ai + s) = sub b bi (bi + s) ->
  dist a b ai bi + rdist a b (ai + s) (bi + s) <= Dtot a b ->
  L a b = L (sub a 0 ai) (sub b 0 bi) + s + L (sub a (ai + s) (zlen a)) (sub b (bi + s) (zlen b)).
Proof.
  intros Ha Hb Hs Hla Hlb Hsn Hle.
  rewrite !sub_pre, !sub_suf by lia.
  apply Z.le_antisymm; [unfold dist, rdist, Dtot in Hle; lia|].
  rewrite (sub_split a ai s Ha Hs Hla) at 3. rewrite (sub_split b bi s Hb Hs Hlb) at 3.
  rewrite Hsn, !sub_pre, !sub_suf by lia.
  pose proof (L_app_ge (pre a ai) (sub b bi (bi + s) ++ suf a (ai + s)) (pre b bi) (sub b bi (bi + s) ++ suf b (bi + s))) as H.
  rewrite L_common in H. rewrite sub_length in H by lia. lia.
Qed.
