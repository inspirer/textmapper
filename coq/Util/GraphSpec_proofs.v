(* The declarative graph notions (reachability over adjacency lists, the contracts of Tarjan's and LongestPath's
   outputs) and soundness of the certifying checkers of Util/GraphSpec.v with respect to them. *)
From Coq Require Import List Bool Arith Lia.
From TM Require Import Util.Graph Util.Graph_proofs Util.GraphSpec.
Import ListNotations.

Definition gedge (g : graph) (a b : nat) : Prop := a < length g /\ b < length g /\ In b (nth a g []).
Definition greach (g : graph) (a b : nat) : Prop := reach (matrix_of_graph g) a b.

Lemma memb_In x l : memb x l = true <-> In x l.
Proof.
  unfold memb. rewrite existsb_exists. split.
  - intros [y [Hy He]]. apply Nat.eqb_eq in He. now subst.
  - intro H. exists x. split; [exact H|apply Nat.eqb_refl].
Qed.

Lemma matrix_of_graph_wf g : mwf (length g) (matrix_of_graph g).
Proof.
  unfold matrix_of_graph, mwf. split; [now rewrite map_length|].
  apply Forall_forall. intros r Hr. apply in_map_iff in Hr as [edges [<- _]].
  now rewrite map_length, seq_length.
Qed.

Lemma matrix_of_graph_edge g a b : has_edge (matrix_of_graph g) a b = true <-> gedge g a b.
Proof.
  unfold has_edge, gedge, matrix_of_graph.
  destruct (Nat.lt_ge_cases a (length g)) as [Ha|Ha].
  - rewrite (nth_indep _ [] (map (fun e => existsb (Nat.eqb e) []) (seq 0 (length g))))
      by (now rewrite map_length).
    rewrite (map_nth (fun edges => map (fun e => existsb (Nat.eqb e) edges) (seq 0 (length g))) g [] a).
    destruct (Nat.lt_ge_cases b (length g)) as [Hb|Hb].
    + rewrite (nth_indep _ false (existsb (Nat.eqb (length g)) (nth a g []))) by (now rewrite map_length, seq_length).
      rewrite (map_nth (fun e => existsb (Nat.eqb e) (nth a g [])) (seq 0 (length g)) (length g) b).
      rewrite seq_nth by exact Hb. cbn [plus]. fold (memb b (nth a g [])). rewrite memb_In. tauto.
    + rewrite nth_overflow by (rewrite map_length, seq_length; exact Hb). split; [discriminate|lia].
  - rewrite (nth_overflow (map _ g)) by (rewrite map_length; exact Ha).
    split; [destruct b; discriminate|lia].
Qed.

Theorem reachm_spec g a b : has_edge (reachm g) a b = true <-> greach g a b.
Proof. apply (matrix_closure_spec (length g) (matrix_of_graph g) (matrix_of_graph_wf g)). Qed.

Lemma greach_false g a b : has_edge (reachm g) a b = false <-> ~ greach g a b.
Proof. rewrite <- reachm_spec. destruct (has_edge (reachm g) a b); split; congruence. Qed.

Lemma gedge_greach g a b : gedge g a b -> greach g a b.
Proof. intro H. apply path_edge. now apply matrix_of_graph_edge. Qed.

Lemma greach_trans g a b c : greach g a b -> greach g b c -> greach g a c.
Proof. intros P Q. now apply (path_trans _ _ a b c). Qed.

Lemma greach_ind_edge g (P : nat -> nat -> Prop) :
  (forall a b, gedge g a b -> P a b) ->
  (forall a c b, gedge g a c -> greach g c b -> P c b -> P a b) ->
  forall a b, greach g a b -> P a b.
Proof.
  intros H1 H2 a b R. induction R as [a b He|a c b He _ R IH]; apply matrix_of_graph_edge in He; eauto.
Qed.

Lemma greach_first g a b : greach g a b -> exists c, gedge g a c /\ (c = b \/ greach g c b).
Proof. intro R. destruct R as [a b He|a c b He _ R]; apply matrix_of_graph_edge in He; eauto. Qed.

Lemma count_count_occ x l : count x l = count_occ Nat.eq_dec l x.
Proof.
  induction l as [|y l IH]; cbn [count count_occ]; [reflexivity|]. rewrite IH.
  destruct (Nat.eqb_spec x y) as [->|Hne].
  - destruct (Nat.eq_dec y y); [reflexivity|congruence].
  - destruct (Nat.eq_dec y x); [congruence|reflexivity].
Qed.

Definition no_reach (g : graph) (c1 c2 : list nat) : Prop :=
  forall u v, In u c1 -> In v c2 -> ~ greach g u v.

Lemma order_ok_spec g comps : order_ok (reachm g) comps = true -> ForallOrdPairs (no_reach g) comps.
Proof.
  induction comps as [|c rest IH]; cbn [order_ok]; intro H; [constructor|].
  apply andb_true_iff in H as [H1 H2]. constructor; [|now apply IH].
  rewrite forallb_forall in H1. apply Forall_forall. intros c' Hc' u v Hu Hv.
  specialize (H1 u Hu). rewrite forallb_forall in H1. specialize (H1 c' Hc').
  rewrite forallb_forall in H1. specialize (H1 v Hv). apply negb_true_iff in H1.
  now apply greach_false.
Qed.

Record scc_output_ok (g : graph) (comps : list (list nat)) : Prop := {
  scc_each_once : forall v, v < length g -> count_occ Nat.eq_dec (concat comps) v = 1;
  scc_in_range  : forall v, In v (concat comps) -> v < length g;
  scc_connected : forall c u v, In c comps -> In u c -> In v c -> u = v \/ greach g u v;
  scc_order     : ForallOrdPairs (no_reach g) comps
}.

Theorem check_scc_sound g comps : check_scc g comps = true -> scc_output_ok g comps.
Proof.
  unfold check_scc. intro H. apply andb_true_iff in H as [H H4]. apply andb_true_iff in H as [H H3].
  apply andb_true_iff in H as [H1 H2]. constructor.
  - intros v Hv. rewrite forallb_forall in H1. specialize (H1 v). rewrite in_seq in H1.
    specialize (H1 ltac:(lia)). apply Nat.eqb_eq in H1. now rewrite <- count_count_occ.
  - intros v Hv. rewrite forallb_forall in H2. specialize (H2 v Hv). now apply Nat.ltb_lt.
  - intros c u v Hc Hu Hv. rewrite forallb_forall in H3. specialize (H3 c Hc).
    rewrite forallb_forall in H3. specialize (H3 u Hu). rewrite forallb_forall in H3. specialize (H3 v Hv).
    apply orb_true_iff in H3 as [H3|H3]; [left; now apply Nat.eqb_eq|right; now apply reachm_spec].
  - now apply order_ok_spec.
Qed.

(* the reported components are exactly the classes of mutual reachability *)
Theorem scc_output_exact g comps : scc_output_ok g comps ->
  forall u v, u < length g -> v < length g ->
  ((exists c, In c comps /\ In u c /\ In v c) <-> (u = v \/ (greach g u v /\ greach g v u))).
Proof.
  intros [Honce Hrange Hconn Hord] u v Hu Hv. split.
  - intros [c [Hc [Huc Hvc]]].
    destruct (Hconn c u v Hc Huc Hvc) as [->|Huv]; [now left|].
    destruct (Hconn c v u Hc Hvc Huc) as [->|Hvu]; [now left|]. right; split; assumption.
  - intros Heq.
    assert (Hin : forall w, w < length g -> exists c, In c comps /\ In w c).
    { intros w Hw. specialize (Honce w Hw).
      assert (In w (concat comps)) by (apply (count_occ_In Nat.eq_dec); lia).
      apply in_concat in H as [c [Hc Hwc]]. eauto. }
    destruct (Hin u Hu) as [cu [Hcu Hucu]]. destruct (Hin v Hv) as [cv [Hcv Hvcv]].
    destruct Heq as [->|[Huv Hvu]]; [exists cu; auto|].
    destruct (ForallOrdPairs_In Hord cu cv Hcu Hcv) as [<-|[Hno|Hno]].
    + exists cu; auto.
    + exfalso. exact (Hno u v Hucu Hvcv Huv).
    + exfalso. exact (Hno v u Hvcv Hucu Hvu).
Qed.

Inductive valid_path (g : graph) : list nat -> Prop :=
| vp_one v : v < length g -> valid_path g [v]
| vp_cons v w t : v < length g -> In w (nth v g []) -> valid_path g (w :: t) -> valid_path g (v :: w :: t).

Lemma valid_pathb_spec g p : valid_pathb g p = true <-> valid_path g p.
Proof.
  induction p as [|v p IH]; [split; [discriminate|inversion 1]|].
  destruct p as [|w t].
  - cbn [valid_pathb]. rewrite Nat.ltb_lt. split; [apply vp_one|inversion 1; auto].
  - change (valid_pathb g (v :: w :: t)) with ((v <? length g) && memb w (nth v g []) && valid_pathb g (w :: t)).
    split.
    + intro H. apply andb_true_iff in H as [H H3]. apply andb_true_iff in H as [H1 H2].
      apply vp_cons; [now apply Nat.ltb_lt|now apply memb_In|now apply IH].
    + intro H. inversion H as [|? ? ? H1 H2 H3]; subst.
      now rewrite (proj2 (Nat.ltb_lt _ _) H1), (proj2 (memb_In _ _) H2), (proj2 IH H3).
Qed.

Lemma fold_max_le (l : list nat) : forall a x, (x <= a \/ exists y, In y l /\ x <= y) -> x <= fold_left Nat.max l a.
Proof.
  induction l as [|y l IH]; intros a x H; cbn [fold_left].
  - destruct H as [H|[y [[] _]]]; exact H.
  - apply IH. destruct H as [H|[z [[<-|Hz] Hle]]]; [left; lia|left; lia|right; eauto].
Qed.

Lemma fold_max_in (l : list nat) : forall a, fold_left Nat.max l a = a \/ In (fold_left Nat.max l a) l.
Proof.
  induction l as [|y l IH]; intro a; cbn [fold_left]; [now left|].
  destruct (IH (Nat.max a y)) as [H|H]; [|right; now right].
  rewrite H. destruct (Nat.max_spec a y) as [[_ ->]|[_ ->]]; [right; now left|now left].
Qed.

Lemma height_bounds_paths g : forall fuel v t, valid_path g (v :: t) -> length (v :: t) <= fuel ->
  length (v :: t) <= height fuel g v.
Proof.
  induction fuel as [|f IH]; intros v t Hp Hlen; [cbn in Hlen; lia|].
  cbn [height]. inversion Hp as [v' Hv|v' w t' Hv Hw Ht]; subst; [cbn; lia|].
  cbn [length] in *. apply le_n_S.
  apply fold_max_le. right. exists (height f g w). split; [apply in_map; exact Hw|].
  apply (IH w t' Ht). cbn [length]; lia.
Qed.

Lemma valid_path_in_range g p : valid_path g p -> forall v, In v p -> v < length g.
Proof.
  induction 1 as [v Hv|v w t Hv Hw Ht IH]; intros x Hx.
  - destruct Hx as [<-|[]]; exact Hv.
  - destruct Hx as [<-|Hx]; [exact Hv|now apply IH].
Qed.

Lemma nodup_path_short g p : valid_path g p -> NoDup p -> length p <= length g.
Proof.
  intros Hp Hnd. apply NoDup_lt_length; [exact Hnd|]. now apply valid_path_in_range.
Qed.

Lemma path_reaches_later g : forall p v, valid_path g (v :: p) -> forall x, In x p -> greach g v x.
Proof.
  induction p as [|w t IH]; intros v Hp x Hx; [destruct Hx|].
  inversion Hp as [|? ? ? Hv Hw Ht]; subst.
  assert (Hvw : greach g v w).
  { apply gedge_greach. split; [exact Hv|]. split; [|exact Hw].
    apply (valid_path_in_range g (w :: t) Ht). now left. }
  destruct Hx as [<-|Hx]; [exact Hvw|].
  eapply greach_trans; [exact Hvw|]. now apply IH.
Qed.

Lemma valid_path_tail g v w t : valid_path g (v :: w :: t) -> valid_path g (w :: t).
Proof. inversion 1; assumption. Qed.

Lemma acyclic_path_nodup g : (forall v, ~ greach g v v) -> forall p, valid_path g p -> NoDup p.
Proof.
  intros Hac p. induction p as [|v p IH]; intro Hp; [constructor|].
  constructor.
  - intro Hin. apply (Hac v). now apply (path_reaches_later g p v Hp).
  - destruct p as [|w t]; [constructor|]. apply IH. now apply valid_path_tail in Hp.
Qed.

Lemma cyclicb_spec g : cyclicb g = true <-> exists v, greach g v v.
Proof.
  unfold cyclicb. rewrite existsb_exists. split.
  - intros [v [_ H]]. exists v. now apply reachm_spec.
  - intros [v H]. exists v. split; [|now apply reachm_spec].
    apply in_seq. apply reachm_spec in H.
    destruct (has_edge_range (length g) (reachm g) v v) as [Hv _]; [|exact H|lia].
    apply (matrix_closure_spec (length g) _ (matrix_of_graph_wf g)).
Qed.

(* LongestPath contract: nil exactly for cyclic graphs; otherwise a path that no path exceeds *)
Definition longest_ok (g : graph) (res : option (list nat)) : Prop :=
  match res with
  | None => (exists v, greach g v v)
  | Some p => ((forall v, ~ greach g v v) /\ (valid_path g p /\
              (forall q, valid_path g q -> (length q <= length p)%nat)))
  end.

Theorem check_longest_sound g res : check_longest g res = true -> longest_ok g res.
Proof.
  unfold check_longest, longest_ok. destruct res as [p|]; [|apply cyclicb_spec].
  intro H. apply andb_true_iff in H as [H Hlen]. apply andb_true_iff in H as [Hac Hp]. apply negb_true_iff in Hac.
  assert (Hac' : forall v, ~ greach g v v).
  { intros v Hv. assert (cyclicb g = true) by (apply cyclicb_spec; eauto). congruence. }
  split; [exact Hac'|]. split; [now apply valid_pathb_spec|].
  intros q Hq. apply Nat.eqb_eq in Hlen. rewrite Hlen.
  pose proof (nodup_path_short g q Hq (acyclic_path_nodup g Hac' q Hq)) as Hshort.
  destruct q as [|v t]; [inversion Hq|].
  apply fold_max_le. right. exists (height (length g) g v). split.
  - apply in_map. apply in_seq. pose proof (valid_path_in_range g _ Hq v (or_introl eq_refl)). lia.
  - now apply height_bounds_paths.
Qed.

Lemma check_onstack_spec g out : check_onstack g out = true ->
  forall comp on v w, In (comp, on) out -> In v comp -> In w (nth v g []) ->
  (nth w on false = true <-> In w comp).
Proof.
  unfold check_onstack. rewrite forallb_forall. intros H comp on v w Hin Hv Hw.
  specialize (H _ Hin). cbn in H. rewrite forallb_forall in H. specialize (H v Hv).
  rewrite forallb_forall in H. specialize (H w Hw). apply Bool.eqb_prop in H. rewrite H. apply memb_In.
Qed.
