(* Util/PatternErr.v: the origin parsePattern gives a regexp error lies inside the pattern, on its line, with the
   column that line_col gives its offset (pattern_error_wellformed). *)
From Coq Require Import List ZArith Bool Lia.
From TM Require Import Lib.ListX Util.LineCol Util.LineCol_proofs Util.PatternErr.
Import ListNotations.
Local Open Scope Z_scope.

Lemma lc_scan_no_nl_prefix : forall b n line col, ~ In NL b -> (n <= length b)%nat ->
  lc_scan b n line col = (line, col + Z.of_nat n).
Proof.
  induction b as [|x b IH]; intros [|n] line col Hno Hn; cbn [length] in Hn; try (cbn; f_equal; lia).
  cbn [lc_scan]. destruct (Z.eqb_spec x NL) as [->|_]; [destruct Hno; now left|].
  rewrite IH; [f_equal; lia | intro H; apply Hno; now right | lia].
Qed.

Lemma lc_scan_app_le : forall p r n line col,
  lc_scan (p ++ r) (length p + n) line col =
  let '(l, c) := lc_scan p (length p) line col in lc_scan r n l c.
Proof.
  induction p as [|x p IH]; intros r n line col; [reflexivity|].
  cbn [app length plus lc_scan]. destruct (x =? NL); apply IH.
Qed.

Lemma line_col_shift pre mid rest k :
  ~ In NL mid -> 0 <= k <= Z.of_nat (length mid) ->
  line_col (pre ++ mid ++ rest) (Z.of_nat (length pre) + k) =
  (fst (line_col (pre ++ mid ++ rest) (Z.of_nat (length pre))),
   snd (line_col (pre ++ mid ++ rest) (Z.of_nat (length pre))) + k).
Proof.
  intros Hno Hk. rewrite (line_col_prefix pre). cbn [fst snd].
  rewrite <- (firstn_skipn (Z.to_nat k) mid) at 1. rewrite <- app_assoc, app_assoc.
  replace (Z.of_nat (length pre) + k) with (Z.of_nat (length (pre ++ firstn (Z.to_nat k) mid)))
    by (rewrite app_length, firstn_length; lia).
  rewrite line_col_prefix, lines_from_app, (lines_from_no_nl (firstn _ mid)), app_nil_r, app_length, firstn_length.
  - f_equal; lia.
  - intro H. apply Hno. eapply In_firstn, H.
Qed.

(* an origin moved along a newline-free stretch, column and offset by the same amount, stays well-formed *)
Lemma wellformed_same_line path pre mid rest r0 r :
  wellformed path (pre ++ mid ++ rest) r0 -> sr_off r0 = Z.of_nat (length pre) -> ~ In NL mid ->
  sr_file r = sr_file r0 -> sr_line r = sr_line r0 -> sr_col r - sr_col r0 = sr_off r - sr_off r0 ->
  sr_off r0 <= sr_off r <= sr_end r -> sr_end r <= Z.of_nat (length pre + length mid) ->
  wellformed path (pre ++ mid ++ rest) r.
Proof.
  intros (Hf & Hr & He & Hl & Hc & Hlc) Hoff Hno Hfile Hline Hcol Hin Hend.
  pose proof (line_col_shift pre mid rest (sr_off r - sr_off r0) Hno ltac:(lia)) as Hs.
  rewrite <- Hoff, <- Hlc in Hs. cbn [fst snd] in Hs.
  replace (sr_off r0 + (sr_off r - sr_off r0)) with (sr_off r) in Hs by lia.
  unfold wellformed. rewrite Hs, !app_length. repeat split; try congruence; try lia. f_equal; lia.
Qed.

Definition inside (rng r : source_range) : Prop := sr_off rng <= sr_off r <= sr_end r /\ sr_end r <= sr_end rng.

Lemma map_pattern_error_inside rng pe :
  sr_off rng + 2 <= sr_end rng -> 0 <= pe_off pe ->
  let r := map_pattern_error rng pe in
  inside rng r /\ sr_file r = sr_file rng /\ sr_line r = sr_line rng /\ sr_col r - sr_col rng = sr_off r - sr_off rng.
Proof.
  intros Hr Hp. unfold map_pattern_error, pattern_guard, pattern_text_len, inside.
  destruct (_ && _) eqn:Hg; cbn [sr_off sr_end sr_file sr_line sr_col]; [|repeat split; lia].
  apply andb_true_iff in Hg as [Hg H3]. apply andb_true_iff in Hg as [H1 H2].
  apply Z.leb_le in H1, H2. apply Z.ltb_lt in H3.
  destruct (Z.ltb_spec (pe_off pe) (pe_end pe)); repeat split; lia.
Qed.

Lemma map_pattern_error_exact rng pe :
  0 <= pe_off pe <= pe_end pe -> pe_end pe <= pattern_text_len rng -> pe_off pe < pattern_text_len rng ->
  let r := map_pattern_error rng pe in
  sr_off r = sr_off rng + 1 + pe_off pe /\
  sr_end r = (if pe_off pe <? pe_end pe then sr_off rng + 1 + pe_end pe else sr_end rng - 1) /\
  sr_off rng + 1 <= sr_off r /\ sr_off r < sr_end rng - 1 /\ sr_off r <= sr_end r <= sr_end rng - 1 /\
  sr_col r - sr_col rng = sr_off r - sr_off rng.
Proof.
  intros H1 H2 H3. unfold map_pattern_error, pattern_guard.
  replace ((pe_off pe <=? pe_end pe) && (pe_end pe <=? pattern_text_len rng) && (pe_off pe <? pattern_text_len rng)) with true
    by (symmetry; rewrite !andb_true_iff, !Z.leb_le, Z.ltb_lt; lia).
  unfold pattern_text_len in *. cbn [sr_off sr_end sr_col].
  destruct (Z.ltb_spec (pe_off pe) (pe_end pe)); cbv iota; lia.
Qed.

Lemma map_pattern_error_fallback rng pe :
  pattern_guard rng pe = false -> map_pattern_error rng pe = rng.
Proof. intros H. unfold map_pattern_error. now rewrite H. Qed.

(* the guard does not test 0 <= Offset: it relies on ParseRegexp for that *)
Lemma pattern_guard_needs_nonneg :
  exists rng pe, sr_off rng + 2 <= sr_end rng /\ pattern_guard rng pe = true /\
                 sr_off (map_pattern_error rng pe) < sr_off rng.
Proof.
  exists (mkSR [] 10 15 1 11), (mkPE (-5) (-5)). vm_compute. repeat split; congruence.
Qed.

Lemma pattern_error_wellformed path pre pat rest pe :
  (2 <= length pat)%nat -> ~ In NL pat -> 0 <= pe_off pe ->
  let content := pre ++ pat ++ rest in
  let nd := mkNode (Z.of_nat (length pre)) (Z.of_nat (length pre + length pat)) in
  exists r, pattern_error_range path (line_offsets content) nd pe = Some r /\
            wellformed path content r /\
            n_off nd <= sr_off r /\ sr_end r <= n_end nd /\
            sr_line r = fst (line_col content (n_off nd)).
Proof.
  intros Hlen Hno Hp content nd. unfold pattern_error_range, node_source_range.
  replace (n_end nd - n_off nd <? 2) with false by (symmetry; apply Z.ltb_ge; cbn; lia).
  assert (Hlc : 0 <= n_off nd <= Z.of_nat (length content)) by (unfold content; cbn; rewrite !app_length; lia).
  rewrite line_column_spec by exact Hlc.
  assert (Hw0 : wellformed path content (mkSR path (n_off nd) (n_end nd) (fst (line_col content (n_off nd))) (snd (line_col content (n_off nd))))).
  { apply wellformed_at; unfold content; cbn; rewrite ?app_length; lia. }
  destruct (line_col content (n_off nd)) as [l c]. cbn [option_map fst snd] in *.
  set (r0 := mkSR path _ _ l c) in *.
  destruct (map_pattern_error_inside r0 pe) as ((Hi1 & Hi2) & Hfile & Hline & Hcol); [cbn; lia | exact Hp |].
  eexists; split; [reflexivity|]. split; [|cbn in *; repeat split; lia].
  apply (wellformed_same_line path pre pat rest r0); try assumption; reflexivity.
Qed.
