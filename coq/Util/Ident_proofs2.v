(* C28: the collision check in its reporting form.  Produce is not injective (foo-bar, fooBar and foo_bar all
   give FooBar), but two different declared names whose identifiers coincide always make the resolver report
   an error: Produce is injective up to the collision check. *)
From Coq Require Import List ZArith Lia.
From TM Require Import Util.Ident Util.Ident_proofs.
Import ListNotations.

Section Reported.
Variable sty : bytes -> style.   (* the style a name is declared with (tokens / nonterminals / options) *)

Definition ids_produced (l : list (bytes * bytes)) : Prop :=
  forall e, In e l -> fst e = produce (snd e) (sty (snd e)).

Definition decls (names : list bytes) : list (bytes * style) := map (fun n => (n, sty n)) names.

Lemma declare_keeps_produced s name : ids_produced (r_ids s) -> ids_produced (r_ids (declare s name (sty name))).
Proof.
  intro H. unfold declare. destruct (existsb _ _); [exact H|]. cbn [r_ids].
  intros e [<-|He]; [reflexivity|now apply H].
Qed.

Lemma declare_registers s name : ids_produced (r_ids s) ->
  In (produce name (sty name), name) (r_ids (declare s name (sty name))).
Proof.
  intro Hp. unfold declare. destruct (existsb (fun e => bytes_eqb (snd e) name) (r_ids s)) eqn:E; [|now left].
  apply existsb_exists in E as ([id nm] & Hin & Heq). apply bytes_eqb_eq in Heq. cbn [snd] in Heq. subst nm.
  specialize (Hp _ Hin). cbn [fst snd] in Hp. now subst id.
Qed.

Lemma declare_keeps_entries e s name st : In e (r_ids s) -> In e (r_ids (declare s name st)).
Proof. intro H. unfold declare. destruct (existsb _ _); [exact H|]. now right. Qed.

Lemma declare_all_registers n : forall names s, ids_produced (r_ids s) -> In n names ->
  In (produce n (sty n), n) (r_ids (declare_all s (decls names))).
Proof.
  induction names as [|x names IH]; intros s Hp Hin; [destruct Hin|].
  change (declare_all s (decls (x :: names))) with (declare_all (declare s x (sty x)) (decls names)).
  destruct Hin as [->|Hin].
  - apply (declare_all_inv (fun s' => In _ (r_ids s'))); [apply declare_keeps_entries|now apply declare_registers].
  - apply IH; [now apply declare_keeps_produced|exact Hin].
Qed.

Theorem collision_reported names n1 n2 : In n1 names -> In n2 names -> n1 <> n2 ->
  produce n1 (sty n1) = produce n2 (sty n2) ->
  (1 <= r_errors (declare_all (mkR [] 0) (decls names)))%nat.
Proof.
  intros H1 H2 Hne Heq.
  destruct (Nat.eq_dec (r_errors (declare_all (mkR [] 0) (decls names))) 0) as [E|E]; [exfalso|lia].
  assert (Hp0 : ids_produced (r_ids (mkR [] 0))) by (intros e []).
  pose proof (resolver_injective (decls names) (mkR [] 0) ltac:(intros e1 e2 []) E _ _
                (declare_all_registers n1 names _ Hp0 H1) (declare_all_registers n2 names _ Hp0 H2) Heq).
  congruence.
Qed.

Corollary produce_injective_on_declared names n1 n2 :
  r_errors (declare_all (mkR [] 0) (decls names)) = 0%nat ->
  In n1 names -> In n2 names -> produce n1 (sty n1) = produce n2 (sty n2) -> n1 = n2.
Proof.
  intros E H1 H2 Heq. destruct (list_eq_dec Z.eq_dec n1 n2) as [|Hne]; [assumption|exfalso].
  pose proof (collision_reported names n1 n2 H1 H2 Hne Heq). lia.
Qed.
End Reported.
