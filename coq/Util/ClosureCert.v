(* Executable side conditions of the closure theorems (Closure_proofs.v): well-formedness of the node list as
   Closure.Add / Intersect / Complement build it, and the Tarjan contract checked on the actual Tarjan output
   (GraphSpec.check_scc / check_onstack, both proved sound).  Executable definitions only. *)
From Coq Require Import List ZArith Bool Arith.
From TM Require Import Util.IntSet Util.Graph Util.GraphSpec Util.Closure.
Import ListNotations.

Definition node_okb (nd : cnode) : bool :=
  sortedb (elems (n_val nd)) &&
  match n_op nd with
  | OpUnion => true
  | OpIntersection => is_empty (n_val nd)
  | OpComplement => is_empty (n_val nd) && match n_edges nd with [_] => true | _ => false end
  end.

Definition nodes_wfb (nodes : list cnode) : bool :=
  graph_wf (closure_graph nodes) && forallb node_okb nodes.

Definition closure_certb (nodes : list cnode) : bool :=
  let g := closure_graph nodes in
  let out := tarjan g in
  nodes_wfb nodes && check_scc g (map fst out) && check_onstack g out.
