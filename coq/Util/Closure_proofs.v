(* The closure model (Util/Closure.v) against its specification (Util/ClosureSem.v).  One component callback: what it
   may change and which errors it reports, for any input; that it computes the least solution of the component once
   the components it depends on are solved.  The fold over the callbacks: what the Tarjan contract gives a callback,
   and one invariant from which the least-solution theorem and the exactness of the error list follow.  Reading a
   stable solution (equations, leastness, uniqueness); the executable certificates as side conditions. *)
From Coq Require Import List ZArith Bool Lia.
From TM Require Import Lib.ListX Util.IntSet Util.IntSet_proofs Util.Graph Util.Graph_proofs Util.GraphSpec
  Util.GraphSpec_proofs Util.Closure Util.ClosureCert Util.ClosureSem.
Import ListNotations.

Definition shape (nodes : list cnode) (st : cst) : Prop :=
  length (c_nodes st) = length nodes /\
  forall v, n_op (node_at st v) = n_op (nd nodes v) /\ n_edges (node_at st v) = n_edges (nd nodes v).

Definition all_wf (st : cst) : Prop := forall v, wf (val_at st v).

Lemma node_at_set_val st v x u : v < length (c_nodes st) ->
  node_at (set_val st v x) u =
  if Nat.eq_dec u v then mkNode (n_op (node_at st v)) (n_edges (node_at st v)) x else node_at st u.
Proof. intro H. unfold node_at, set_val. cbn [c_nodes]. now rewrite upd_nth. Qed.

Lemma val_at_set_val st v x u : v < length (c_nodes st) ->
  val_at (set_val st v x) u = if Nat.eq_dec u v then x else val_at st u.
Proof. intro H. unfold val_at. rewrite node_at_set_val by exact H. now destruct (Nat.eq_dec u v). Qed.

Lemma shape_set_val nodes st v x : shape nodes st -> v < length nodes -> shape nodes (set_val st v x).
Proof.
  intros [Hl Hs] Hv. split.
  - unfold set_val. cbn [c_nodes]. now rewrite upd_length.
  - intro u. rewrite node_at_set_val by (now rewrite Hl). destruct (Nat.eq_dec u v) as [->|_]; apply Hs.
Qed.

Lemma shape_add_err nodes st v : shape nodes st -> shape nodes (add_err st v).
Proof. intro H. exact H. Qed.

Lemma all_wf_set_val st v x : all_wf st -> wf x -> v < length (c_nodes st) -> all_wf (set_val st v x).
Proof. intros H Hx Hv u. rewrite val_at_set_val by exact Hv. destruct (Nat.eq_dec u v); [exact Hx|apply H]. Qed.

Lemma node_ok_const nodes v x : node_ok nodes v -> den (n_val (nd nodes v)) x -> n_op (nd nodes v) = OpUnion.
Proof.
  intros [_ H] Hx. destruct (n_op (nd nodes v)); [reflexivity|destruct (H x Hx)|destruct (proj1 H x Hx)].
Qed.

(* What the callback of a component may change: the values of the component's nodes, the error list, and the
   fuel flag (only to true). *)
Record frame (nodes : list cnode) (comp : list nat) (st0 st : cst) : Prop := {
  f_shape : shape nodes st;
  f_wf : all_wf st;
  f_oof : c_oof st0 = true -> c_oof st = true;
  f_out : forall u, ~ In u comp -> node_at st u = node_at st0 u
}.

Lemma frame_refl nodes comp st : shape nodes st -> all_wf st -> frame nodes comp st st.
Proof. intros Hs Hw. now constructor. Qed.

Lemma frame_set_val nodes comp st0 st v x : frame nodes comp st0 st -> In v comp -> v < length nodes -> wf x ->
  frame nodes comp st0 (set_val st v x).
Proof.
  intros [Hs Hw Ho Hf] Hc Hv Hx. assert (Hvl : v < length (c_nodes st)) by (now rewrite (proj1 Hs)). constructor.
  - now apply shape_set_val.
  - now apply all_wf_set_val.
  - exact Ho.
  - intros u Hu. rewrite node_at_set_val by exact Hvl. destruct (Nat.eq_dec u v) as [->|_]; [contradiction|now apply Hf].
Qed.

Lemma frame_nodes nodes comp st0 st st' : frame nodes comp st0 st -> c_nodes st' = c_nodes st ->
  (c_oof st = true -> c_oof st' = true) -> frame nodes comp st0 st'.
Proof.
  intros [[Hl Hs] Hw Ho Hf] E Ho'.
  assert (En : forall w, node_at st' w = node_at st w) by (intro w; unfold node_at; now rewrite E).
  constructor.
  - split; [now rewrite E|]. intro v. rewrite En. apply Hs.
  - intro v. unfold val_at. rewrite En. apply Hw.
  - auto.
  - intros u Hu. rewrite En. now apply Hf.
Qed.

(* a fold whose step adds one contribution [C b] to the set accumulated so far *)
Lemma fold_den_acc {B} (step : intset -> B -> intset) (C : B -> Z -> Prop) :
  (forall r b, wf r -> wf (step r b) /\ forall x, den (step r b) x <-> den r x \/ C b x) ->
  forall l r, wf r ->
  wf (fold_left step l r) /\ forall x, den (fold_left step l r) x <-> den r x \/ exists b, In b l /\ C b x.
Proof.
  intro Hs. induction l as [|a l IH]; intros r Hr; cbn [fold_left].
  - split; [exact Hr|]. intro x. split; [now left|]. intros [H|[b [[] _]]]. exact H.
  - destruct (Hs r a Hr) as [W D]. destruct (IH _ W) as [W' D']. split; [exact W'|]. intro x. rewrite D', D. split.
    + intros [[H|H]|[b [Hb H]]]; [now left|right; exists a; split; [now left|exact H]|right; exists b; split; [now right|exact H]].
    + intros [H|[b [[<-|Hb] H]]]; [left; now left|left; now right|right; exists b; now split].
Qed.

Lemma fold_merge_spec {B} (f : B -> intset) (Hf : forall w, wf (f w)) edges init : wf init ->
  wf (fold_left (fun res w => set_merge res (f w)) edges init) /\
  forall x, den (fold_left (fun res w => set_merge res (f w)) edges init) x <->
            den init x \/ exists w, In w edges /\ den (f w) x.
Proof.
  apply (fold_den_acc _ (fun w x => den (f w) x)). intros r w Hr.
  split; [now apply merge_wf|]. intro x. now apply merge_spec.
Qed.

Lemma fold_intersect_spec (f : nat -> intset) (Hf : forall w, wf (f w)) edges : forall init, wf init ->
  wf (fold_left (fun res w => set_intersect res (f w)) edges init) /\
  forall x, den (fold_left (fun res w => set_intersect res (f w)) edges init) x <->
            den init x /\ forall w, In w edges -> den (f w) x.
Proof.
  induction edges as [|e edges IH]; intros init Hi; cbn [fold_left].
  - split; [exact Hi|]. intro x. split; [intro H; split; [exact H|intros w []]|now intros [H _]].
  - destruct (IH (set_intersect init (f e)) (intersect_wf _ _ Hi (Hf e))) as [Hw Hd]. split; [exact Hw|].
    intro x. rewrite Hd. rewrite (intersect_spec _ _ x Hi (Hf e)). split.
    + intros [[H1 H2] H3]. split; [exact H1|]. intros w [<-|Hw']; [exact H2|now apply H3].
    + intros [H1 H2]. split; [split; [exact H1|apply H2; now left]|]. intros w Hw'. apply H2. now right.
Qed.

(* the loop body of Closure.slow_pass *)
Definition sp_step (on : list bool) (acc : cst * bool) : nat -> cst * bool :=
  let '(st, dirty) := acc in fun v =>
  let fs := node_at st v in
  match n_op fs with
  | OpIntersection =>
      let res := fold_left (fun res w => set_intersect res (val_at st w)) (n_edges fs) (mkIntSet true []) in
      if set_equals res (n_val fs) then (st, dirty) else (set_val st v res, true)
  | OpUnion =>
      let res := fold_left (fun res w => set_merge res (val_at st w)) (n_edges fs) (n_val fs) in
      if set_equals res (n_val fs) then (st, dirty) else (set_val st v res, true)
  | OpComplement =>
      match n_edges fs with
      | [w] => if nth w on false then (add_err st v, dirty)
               else let res := complement (val_at st w) in
                    if set_equals res (n_val fs) then (st, dirty) else (set_val st v res, true)
      | _ => (st, dirty)
      end
  end.

Lemma slow_pass_eq comp on st : slow_pass comp on st = fold_left (sp_step on) comp (st, false).
Proof. reflexivity. Qed.

(* a step reports the node (a complement whose operand is on the stack) or compares its value with [sp_new] *)
Definition sp_err (on : list bool) (fs : cnode) : bool :=
  match n_op fs, n_edges fs with OpComplement, [w] => nth w on false | _, _ => false end.

Definition sp_new (st : cst) (v : nat) : intset :=
  let fs := node_at st v in
  match n_op fs with
  | OpIntersection => fold_left (fun res w => set_intersect res (val_at st w)) (n_edges fs) (mkIntSet true [])
  | OpUnion => fold_left (fun res w => set_merge res (val_at st w)) (n_edges fs) (n_val fs)
  | OpComplement => match n_edges fs with [w] => complement (val_at st w) | _ => n_val fs end
  end.

Lemma sp_step_eq on st d v : sp_step on (st, d) v =
  if sp_err on (node_at st v) then (add_err st v, d)
  else if set_equals (sp_new st v) (val_at st v) then (st, d) else (set_val st v (sp_new st v), true).
Proof.
  unfold sp_step, sp_err, sp_new, val_at. destruct (n_op (node_at st v)); try reflexivity.
  destruct (n_edges (node_at st v)) as [|w [|? ?]]; try (now rewrite (proj2 (equals_spec _ _) eq_refl)).
  now destruct (nth w on false).
Qed.

Lemma sp_step_pos on st d v : n_op (node_at st v) <> OpComplement ->
  sp_step on (st, d) v =
  if set_equals (sp_new st v) (val_at st v) then (st, d) else (set_val st v (sp_new st v), true).
Proof. intro H. rewrite sp_step_eq. unfold sp_err. now destruct (n_op (node_at st v)). Qed.

Lemma sp_err_shape nodes on st v : shape nodes st -> sp_err on (node_at st v) = sp_err on (nd nodes v).
Proof. intros [_ Hsh]. unfold sp_err. now destruct (Hsh v) as [-> ->]. Qed.

Lemma sp_err_spec on fs : sp_err on fs = true <->
  n_op fs = OpComplement /\ exists w, n_edges fs = [w] /\ nth w on false = true.
Proof.
  unfold sp_err. split.
  - destruct (n_op fs); try discriminate. destruct (n_edges fs) as [|w [|? ?]]; try discriminate. eauto.
  - intros [-> [w [-> H]]]. exact H.
Qed.

Lemma sp_new_union st v : all_wf st -> n_op (node_at st v) = OpUnion ->
  wf (sp_new st v) /\
  forall x, den (sp_new st v) x <-> den (val_at st v) x \/ exists w, In w (n_edges (node_at st v)) /\ den (val_at st w) x.
Proof. intros Hw Ho. unfold sp_new. rewrite Ho. apply (fold_merge_spec (val_at st) Hw). apply Hw. Qed.

Lemma sp_new_inter st v : all_wf st -> n_op (node_at st v) = OpIntersection ->
  wf (sp_new st v) /\
  forall x, den (sp_new st v) x <-> forall w, In w (n_edges (node_at st v)) -> den (val_at st w) x.
Proof.
  intros Hw Ho. unfold sp_new. rewrite Ho.
  destruct (fold_intersect_spec (val_at st) Hw (n_edges (node_at st v)) (mkIntSet true []) eq_refl) as [H1 H2].
  split; [exact H1|]. intro x. rewrite H2. split; [now intros [_ H]|]. intro H. split; [intros []|exact H].
Qed.

Lemma sp_new_wf st v : all_wf st -> wf (sp_new st v).
Proof.
  intro Hw. destruct (n_op (node_at st v)) eqn:Eo; [now apply sp_new_union|now apply sp_new_inter|].
  unfold sp_new. rewrite Eo. destruct (n_edges (node_at st v)) as [|w [|? ?]]; apply Hw.
Qed.

Lemma sp_pass_frame nodes comp on st0 l : (forall v, In v l -> In v comp /\ v < length nodes) -> forall st d,
  frame nodes comp st0 st ->
  frame nodes comp st0 (fst (fold_left (sp_step on) l (st, d))) /\
  c_err (fst (fold_left (sp_step on) l (st, d))) = c_err st ++ filter (fun v => sp_err on (nd nodes v)) l.
Proof.
  induction l as [|v l IH]; intros Hl st d F; cbn [fold_left filter]; [split; [exact F|now rewrite app_nil_r]|].
  destruct (Hl v (or_introl eq_refl)) as [Hc Hv].
  specialize (IH (fun u Hu => Hl u (or_intror Hu))).
  rewrite sp_step_eq, <- (sp_err_shape nodes on st v (f_shape _ _ _ _ F)).
  destruct (sp_err on (node_at st v)).
  - destruct (IH (add_err st v) d) as [F' E']; [now apply (frame_nodes _ _ _ st)|]. split; [exact F'|].
    rewrite E'. cbn [add_err c_err]. now rewrite <- app_assoc.
  - destruct (set_equals (sp_new st v) (val_at st v)); [now apply IH|].
    apply (IH (set_val st v (sp_new st v)) true). apply frame_set_val; try assumption. apply sp_new_wf, F.
Qed.

Lemma sp_dirty_sticky on l : forall st, snd (fold_left (sp_step on) l (st, true)) = true.
Proof.
  induction l as [|v l IH]; intro st; [reflexivity|]. cbn [fold_left]. rewrite sp_step_eq.
  destruct (sp_err on (node_at st v)); [apply IH|]. destruct (set_equals _ _); apply IH.
Qed.

Lemma sp_clean on l : forall st d st',
  (forall v, In v l -> n_op (node_at st v) <> OpComplement) ->
  fold_left (sp_step on) l (st, d) = (st', false) ->
  st' = st /\ forall v, In v l -> sp_new st v = val_at st v.
Proof.
  induction l as [|v l IH]; intros st d st' Hnc H; cbn [fold_left] in H.
  - inversion H; subst. split; [reflexivity|intros v []].
  - rewrite sp_step_pos in H by (apply Hnc; now left).
    destruct (set_equals (sp_new st v) (val_at st v)) eqn:Eq.
    + destruct (IH st d st' (fun u Hu => Hnc u (or_intror Hu)) H) as [-> Hall]. split; [reflexivity|].
      intros u [<-|Hu]; [now apply equals_spec|now apply Hall].
    + pose proof (sp_dirty_sticky on l (set_val st v (sp_new st v))) as Hs. rewrite H in Hs. discriminate.
Qed.

Lemma slow_closure_frame nodes comp on st0 fuel : (forall v, In v comp -> v < length nodes) -> forall st,
  frame nodes comp st0 st ->
  frame nodes comp st0 (slow_closure fuel comp on st) /\
  forall u, In u (c_err (slow_closure fuel comp on st)) <->
            In u (c_err st) \/ (fuel <> 0 /\ In u comp /\ sp_err on (nd nodes u) = true).
Proof.
  intro Hr. induction fuel as [|f IH]; intros st F; cbn [slow_closure].
  - split; [now apply (frame_nodes _ _ _ st)|]. intro u. split; [now left|]. intros [H|[H _]]; [exact H|now destruct H].
  - rewrite slow_pass_eq.
    destruct (sp_pass_frame nodes comp on st0 comp (fun v Hv => conj Hv (Hr v Hv)) st false F) as [F1 E1].
    destruct (fold_left (sp_step on) comp (st, false)) as [st1 d]. cbn [fst] in F1, E1.
    assert (E : forall u, In u (c_err st1) <-> In u (c_err st) \/ (In u comp /\ sp_err on (nd nodes u) = true))
      by (intro u; now rewrite E1, in_app_iff, filter_In).
    destruct d.
    + destruct (IH st1 F1) as [F2 E2]. split; [exact F2|]. intro u. rewrite E2, E. split.
      * intros [[H|H]|[_ H]]; [now left|right; split; [discriminate|exact H]..].
      * intros [H|[_ H]]; [left; now left|left; now right].
    + split; [exact F1|]. intro u. rewrite E. split.
      * intros [H|H]; [now left|right; split; [discriminate|exact H]].
      * intros [H|[_ H]]; [now left|now right].
Qed.

(* the loop bodies of Closure.union_closure *)
Definition uc_edge (fs : cnode) (v : nat) (on : list bool) (acc : intset * cst) : nat -> intset * cst :=
  let '(res, st) := acc in fun w =>
    let set := val_at st w in
    if is_complement (n_op fs) then
      if nth w on false then (res, add_err st v) else (set_merge res (complement set), st)
    else if nth w on false then (res, st) else (set_merge res set, st).

Definition uc_node (on : list bool) (acc : intset * cst) : nat -> intset * cst :=
  let '(res, st) := acc in fun v =>
    let fs := node_at st v in
    let res := set_merge res (n_val fs) in
    fold_left (uc_edge fs v on) (n_edges fs) (res, st).

(* The accumulated set and the state do not interact: the state only collects errors, which leaves the
   nodes [nf] that the set is computed from as they were. *)
Definition add_errs (st : cst) (l : list nat) : cst := mkC (c_nodes st) (c_err st ++ l) (c_oof st).

Lemma add_errs_nil st : add_errs st [] = st.
Proof. destruct st. unfold add_errs. cbn. now rewrite app_nil_r. Qed.

Lemma add_errs_app st a b : add_errs (add_errs st a) b = add_errs st (a ++ b).
Proof. unfold add_errs. cbn. now rewrite app_assoc. Qed.

Definition edge_val (nf : nat -> cnode) (fs : cnode) (w : nat) : intset :=
  if is_complement (n_op fs) then complement (n_val (nf w)) else n_val (nf w).

Definition edge_errs (on : list bool) (fs : cnode) (v : nat) (edges : list nat) : list nat :=
  if is_complement (n_op fs) then map (fun _ => v) (filter (fun w => nth w on false) edges) else [].

Lemma uc_edge_fold fs v on edges : forall res st,
  fold_left (uc_edge fs v on) edges (res, st) =
  (fold_left (fun r w => set_merge r (edge_val (node_at st) fs w)) (filter (fun w => negb (nth w on false)) edges) res,
   add_errs st (edge_errs on fs v edges)).
Proof.
  unfold edge_errs, edge_val. induction edges as [|e edges IH]; intros res st; cbn [fold_left filter map].
  - now destruct (is_complement (n_op fs)); rewrite add_errs_nil.
  - unfold uc_edge at 2. destruct (is_complement (n_op fs)), (nth e on false);
      cbn [negb map fold_left]; rewrite IH; try reflexivity.
    f_equal. apply (add_errs_app st [v]).
Qed.

Definition node_res (nf : nat -> cnode) (on : list bool) (r : intset) (v : nat) : intset :=
  fold_left (fun r w => set_merge r (edge_val nf (nf v) w)) (filter (fun w => negb (nth w on false)) (n_edges (nf v)))
            (set_merge r (n_val (nf v))).

Definition comp_errs (nf : nat -> cnode) (on : list bool) (comp : list nat) : list nat :=
  flat_map (fun v => edge_errs on (nf v) v (n_edges (nf v))) comp.

Lemma uc_node_fold on comp : forall res st,
  fold_left (uc_node on) comp (res, st) =
  (fold_left (node_res (node_at st) on) comp res, add_errs st (comp_errs (node_at st) on comp)).
Proof.
  induction comp as [|v comp IH]; intros res st; cbn [fold_left flat_map]; [now rewrite add_errs_nil|].
  unfold uc_node at 2. cbv zeta. rewrite uc_edge_fold, IH. f_equal. apply add_errs_app.
Qed.

Lemma union_closure_eq comp on st : union_closure comp on st =
  let st1 := add_errs st (comp_errs (node_at st) on comp) in
  match c_err st1 with
  | [] => fold_left (fun s v => set_val s v (fold_left (node_res (node_at st) on) comp (mkIntSet false []))) comp st1
  | _ => st1
  end.
Proof.
  unfold union_closure. change (fold_left _ comp (mkIntSet false [], st)) with (fold_left (uc_node on) comp (mkIntSet false [], st)).
  rewrite uc_node_fold. reflexivity.
Qed.

Definition node_contrib (nf : nat -> cnode) (on : list bool) (v : nat) (x : Z) : Prop :=
  den (n_val (nf v)) x \/
  exists w, In w (n_edges (nf v)) /\ nth w on false = false /\ den (edge_val nf (nf v) w) x.

Lemma node_res_spec nf on (Hnf : forall w, wf (n_val (nf w))) r v : wf r ->
  wf (node_res nf on r v) /\ forall x, den (node_res nf on r v) x <-> den r x \/ node_contrib nf on v x.
Proof.
  intro Hr. unfold node_res, node_contrib.
  assert (Hev : forall w, wf (edge_val nf (nf v) w)).
  { intro w. unfold edge_val. destruct (is_complement _); [apply complement_wf|]; apply Hnf. }
  destruct (fold_merge_spec _ Hev (filter (fun w => negb (nth w on false)) (n_edges (nf v))) _
              (merge_wf _ _ Hr (Hnf v))) as [W D].
  split; [exact W|]. intro x. rewrite D, (merge_spec _ _ x Hr (Hnf v)). split.
  - intros [[H|H]|[w [Hw H]]]; [now left|right; now left|]. apply filter_In in Hw as [Hw Hon].
    apply negb_true_iff in Hon. right. right. now exists w.
  - intros [H|[H|[w [Hw [Hon H]]]]]; [left; now left|left; now right|]. right. exists w.
    split; [|exact H]. apply filter_In. now rewrite Hon.
Qed.

Lemma assign_val res comp st : (forall v, In v comp -> v < length (c_nodes st)) ->
  forall u, In u comp -> val_at (fold_left (fun s v => set_val s v res) comp st) u = res.
Proof.
  intro Hr. apply (fold_left_prefix_ind _ _
    (fun pre s => length (c_nodes s) = length (c_nodes st) /\ forall u, In u pre -> val_at s u = res));
    [split; [reflexivity|intros u []]|].
  intros pre v post s E [Hl Hp].
  assert (Hv : v < length (c_nodes s)) by (rewrite Hl; apply Hr; rewrite E; apply in_or_app; right; now left).
  split; [unfold set_val; cbn [c_nodes]; now rewrite upd_length|]. intros u Hu. rewrite val_at_set_val by exact Hv.
  destruct (Nat.eq_dec u v) as [|Hne]; [reflexivity|]. apply Hp. apply in_app_or in Hu as [Hu|[<-|[]]]; [exact Hu|congruence].
Qed.

Lemma union_closure_frame nodes comp on st0 st : (forall v, In v comp -> v < length nodes) ->
  frame nodes comp st0 st ->
  frame nodes comp st0 (union_closure comp on st) /\
  c_err (union_closure comp on st) = c_err st ++ comp_errs (node_at st) on comp.
Proof.
  intros Hr F. rewrite union_closure_eq. cbv zeta.
  set (st1 := add_errs st (comp_errs (node_at st) on comp)).
  assert (F1 : frame nodes comp st0 st1) by (apply (frame_nodes _ _ _ st); auto).
  change (c_err st ++ comp_errs (node_at st) on comp) with (c_err st1).
  destruct (c_err st1) eqn:E; [|split; [exact F1|exact E]]. rewrite <- E. split.
  - apply fold_left_inv; [exact F1|]. intros s v Hv Fs. apply frame_set_val; auto.
    apply (fold_den_acc _ _ (node_res_spec _ on (f_wf _ _ _ _ F))). reflexivity.
  - apply fold_left_inv; [reflexivity|]. intros s v _ Hs. exact Hs.
Qed.

(* with one operand per complement node, the union branch reports the nodes a slow pass would report *)
Lemma comp_errs_filter nodes on st comp : shape nodes st -> (forall v, In v comp -> node_ok nodes v) ->
  comp_errs (node_at st) on comp = filter (fun v => sp_err on (nd nodes v)) comp.
Proof.
  intros [_ Hsh] Hok. induction comp as [|v comp IH]; [reflexivity|]. cbn [comp_errs flat_map filter].
  fold (comp_errs (node_at st) on comp). rewrite IH by (intros; apply Hok; now right).
  unfold edge_errs, sp_err. destruct (Hsh v) as [-> ->]. destruct (Hok v (or_introl eq_refl)) as [_ Hk].
  destruct (n_op (nd nodes v)); try reflexivity. destruct Hk as [_ [w ->]]. cbn. now destruct (nth w on false).
Qed.

Lemma closure_cb_frame nodes fuel comp on st : shape nodes st -> all_wf st ->
  (forall v, In v comp -> v < length nodes) -> (forall v, In v comp -> node_ok nodes v) -> fuel <> 0 ->
  frame nodes comp st (closure_cb fuel st (comp, on)) /\
  forall u, In u (c_err (closure_cb fuel st (comp, on))) <->
            In u (c_err st) \/ (In u comp /\ sp_err on (nd nodes u) = true).
Proof.
  intros Hs Hw Hr Hok Hf. pose proof (frame_refl nodes comp st Hs Hw) as F. unfold closure_cb.
  destruct (existsb _ comp).
  - destruct (slow_closure_frame nodes comp on st fuel Hr st F) as [F' E]. split; [exact F'|].
    intro u. rewrite E. split; [intros [H|[_ H]]; [now left|now right]|intros [H|H]; [now left|now right]].
  - destruct (union_closure_frame nodes comp on st st Hr F) as [F' E]. split; [exact F'|].
    intro u. now rewrite E, (comp_errs_filter nodes on st comp Hs Hok), in_app_iff, filter_In.
Qed.

Section Component.
  Variables (nodes : list cnode) (neg : valuation) (comp : list nat) (done : nat -> Prop) (on : list bool) (st0 : cst).
  Hypothesis Hshape : shape nodes st0.
  Hypothesis Hwf : all_wf st0.
  Hypothesis Hrange : forall v, In v comp -> v < length nodes.
  Hypothesis Hok : forall v, In v comp -> node_ok nodes v.
  Hypothesis Hinit : forall v, In v comp -> n_val (node_at st0 v) = n_val (nd nodes v).
  Hypothesis Hedges : forall v w, In v comp -> In w (n_edges (nd nodes v)) -> In w comp \/ done w.
  Hypothesis Hdisj : forall w, done w -> ~ In w comp.
  Hypothesis Hdone : forall w x, done w -> (den (val_at st0 w) x <-> lfp nodes neg w x).
  Hypothesis Hneg : forall w x, done w -> (neg w x <-> den (val_at st0 w) x).

  Lemma init_union v x : In v comp -> den (val_at st0 v) x -> n_op (nd nodes v) = OpUnion.
  Proof. intros Hv Hx. unfold val_at in Hx. rewrite (Hinit v Hv) in Hx. exact (node_ok_const nodes v x (Hok v Hv) Hx). Qed.

  Lemma init_sound v x : In v comp -> den (val_at st0 v) x -> lfp nodes neg v x.
  Proof.
    intros Hv Hx. apply lfp_const; [now apply Hrange|now apply (init_union v x)|].
    unfold val_at in Hx. now rewrite (Hinit v Hv) in Hx.
  Qed.

  Record SlowInv (st : cst) : Prop := {
    SI_frame : frame nodes comp st0 st;
    SI_sound : forall v x, In v comp -> den (val_at st v) x -> lfp nodes neg v x;
    SI_init : forall v x, In v comp -> den (val_at st0 v) x -> den (val_at st v) x
  }.

  Hypothesis Hnc : forall v, In v comp -> n_op (nd nodes v) <> OpComplement.

  Lemma SlowInv_start : SlowInv st0.
  Proof. constructor; [now apply frame_refl|exact init_sound|auto]. Qed.

  Lemma SlowInv_done_val st w x : SlowInv st -> done w -> (den (val_at st w) x <-> lfp nodes neg w x).
  Proof. intros HJ Hw. unfold val_at. rewrite (f_out _ _ _ _ (SI_frame st HJ) w (Hdisj w Hw)). apply Hdone, Hw. Qed.

  Lemma SlowInv_operand st v w x : SlowInv st -> In v comp -> In w (n_edges (nd nodes v)) -> den (val_at st w) x -> lfp nodes neg w x.
  Proof.
    intros HJ Hv Hw Hx. destruct (Hedges v w Hv Hw) as [Hc|Hd]; [now apply (SI_sound st HJ)|now apply (SlowInv_done_val st w x HJ Hd)].
  Qed.

  Lemma SlowInv_step st d v : SlowInv st -> In v comp -> SlowInv (fst (sp_step on (st, d) v)).
  Proof.
    intros HJ Hv. pose proof (SI_frame st HJ) as F. destruct (f_shape _ _ _ _ F) as [Hlen Hsh].
    destruct (Hsh v) as [Hop Hed].
    rewrite sp_step_pos by (rewrite Hop; now apply Hnc).
    destruct (set_equals (sp_new st v) (val_at st v)); [exact HJ|]. cbn [fst].
    assert (Hvl : v < length (c_nodes st)) by (rewrite Hlen; now apply Hrange).
    assert (Hnew : (forall x, den (sp_new st v) x -> lfp nodes neg v x) /\
                   (forall x, den (val_at st0 v) x -> den (sp_new st v) x)).
    { destruct (n_op (nd nodes v)) eqn:Eo.
      - destruct (sp_new_union st v (f_wf _ _ _ _ F) Hop) as [_ D]. split.
        + intros x Hx. apply D in Hx as [Hx|[w [Hw Hx]]]; [now apply (SI_sound st HJ)|].
          rewrite Hed in Hw. apply (lfp_union nodes neg v w x (Hrange v Hv) Eo Hw). now apply (SlowInv_operand st v).
        + intros x Hx. apply D. left. now apply (SI_init st HJ).
      - destruct (sp_new_inter st v (f_wf _ _ _ _ F) Hop) as [_ D]. split.
        + intros x Hx. apply (lfp_inter nodes neg v x (Hrange v Hv) Eo). intros w Hw.
          apply (SlowInv_operand st v w x HJ Hv Hw). apply (proj1 (D x) Hx). now rewrite Hed.
        + intros x Hx. apply (init_union v x Hv) in Hx. congruence.
      - now destruct (Hnc v Hv). }
    destruct Hnew as [Snd Grow]. constructor.
    - apply frame_set_val; auto. now apply sp_new_wf, F.
    - intros u x Hu. rewrite val_at_set_val by exact Hvl.
      destruct (Nat.eq_dec u v) as [->|_]; [apply Snd|now apply (SI_sound st HJ)].
    - intros u x Hu Hx. rewrite val_at_set_val by exact Hvl.
      destruct (Nat.eq_dec u v) as [->|_]; [now apply Grow|now apply (SI_init st HJ)].
  Qed.

  Lemma SlowInv_complete st : SlowInv st -> (forall v, In v comp -> sp_new st v = val_at st v) ->
    forall v x, lfp nodes neg v x -> In v comp -> den (val_at st v) x.
  Proof.
    intros HJ Hfix v x H. pose proof (SI_frame st HJ) as F. destruct (f_shape _ _ _ _ F) as [_ Hsh].
    induction H as [v x Hv Ho Hx|v w x Hv Ho Hw Hl IH|v x Hv Ho Hall IH|v w x Hv Ho He Hn]; intro Hc;
      destruct (Hsh v) as [Hop Hed]; rewrite Ho in Hop.
    - apply (SI_init st HJ v x Hc). unfold val_at. now rewrite (Hinit v Hc).
    - destruct (sp_new_union st v (f_wf _ _ _ _ F) Hop) as [_ D]. rewrite <- (Hfix v Hc). apply D. right. exists w.
      split; [now rewrite Hed|].
      destruct (Hedges v w Hc Hw) as [Hwc|Hd]; [now apply IH|now apply (SlowInv_done_val st w x HJ Hd)].
    - destruct (sp_new_inter st v (f_wf _ _ _ _ F) Hop) as [_ D]. rewrite <- (Hfix v Hc). apply D. intros w Hw.
      rewrite Hed in Hw.
      destruct (Hedges v w Hc Hw) as [Hwc|Hd]; [now apply IH|apply (SlowInv_done_val st w x HJ Hd); now apply Hall].
    - now destruct (Hnc v Hc).
  Qed.

  Lemma slow_closure_correct fuel : forall st, SlowInv st -> c_oof (slow_closure fuel comp on st) = false ->
    forall v x, In v comp -> (den (val_at (slow_closure fuel comp on st) v) x <-> lfp nodes neg v x).
  Proof.
    induction fuel as [|f IH]; intros st HJ; cbn [slow_closure]; [discriminate|].
    rewrite slow_pass_eq.
    assert (HJ1 : SlowInv (fst (fold_left (sp_step on) comp (st, false)))).
    { apply (fold_left_inv (fun acc => SlowInv (fst acc))); [exact HJ|]. intros [s d] v Hv HJs. now apply SlowInv_step. }
    destruct (fold_left (sp_step on) comp (st, false)) as [st1 d] eqn:E. cbn [fst] in HJ1.
    destruct d; [now apply IH|]. intros _.
    assert (Hnc' : forall v, In v comp -> n_op (node_at st v) <> OpComplement).
    { intros v Hv. destruct (f_shape _ _ _ _ (SI_frame st HJ)) as [_ Hsh]. destruct (Hsh v) as [-> _]. now apply Hnc. }
    destruct (sp_clean on comp st false st1 Hnc' E) as [-> Hfix].
    intros v x Hv. split; [now apply (SI_sound st HJ)|]. intro H. now apply (SlowInv_complete st HJ Hfix).
  Qed.

  Hypothesis Hni : forall v, In v comp -> n_op (nd nodes v) <> OpIntersection.
  Hypothesis Hon : forall v w, In v comp -> In w (n_edges (nd nodes v)) -> (nth w on false = true <-> In w comp).
  (* strong connectivity as an induction principle: what holds at one vertex of the component and is inherited
     against its inner edges holds at all *)
  Hypothesis Hconn : forall (P : nat -> Prop) v, In v comp -> P v ->
    (forall a b, In a comp -> In b comp -> In b (n_edges (nd nodes a)) -> P b -> P a) -> forall u, In u comp -> P u.
  Hypothesis Hnoerr : forall v, In v comp -> sp_err on (nd nodes v) = false.
  Hypothesis Herr : c_err st0 = [].

  Let nf := node_at st0.

  Lemma nf_shape v : n_op (nf v) = n_op (nd nodes v) /\ n_edges (nf v) = n_edges (nd nodes v).
  Proof. apply Hshape. Qed.

  Lemma uc_compl_out v w : In v comp -> n_op (nd nodes v) = OpComplement -> n_edges (nd nodes v) = [w] -> ~ In w comp.
  Proof.
    intros Hv Ho He Hw. pose proof (Hnoerr v Hv) as E. unfold sp_err in E. rewrite Ho, He in E.
    apply (Hon v w Hv) in Hw; [congruence|rewrite He; now left].
  Qed.

  Lemma uc_on_false v w : In v comp -> In w (n_edges (nd nodes v)) -> ~ In w comp -> nth w on false = false.
  Proof. intros Hv Hw Hn. destruct (nth w on false) eqn:E; [|reflexivity]. now destruct Hn; apply (Hon v w Hv Hw). Qed.

  Lemma uc_operand_done v w : In v comp -> In w (n_edges (nd nodes v)) -> ~ In w comp -> done w.
  Proof. intros Hv Hw Hn. now destruct (Hedges v w Hv Hw). Qed.

  Lemma uc_contrib_sound u x : In u comp -> node_contrib nf on u x -> lfp nodes neg u x.
  Proof.
    intros Hu [H|[w [Hw [Hon' H]]]]; [now apply init_sound|].
    destruct (nf_shape u) as [Hop Hed]. rewrite Hed in Hw. unfold edge_val in H. rewrite Hop in H.
    assert (Hout : ~ In w comp) by (intro Hc; apply (Hon u w Hu Hw) in Hc; congruence).
    pose proof (uc_operand_done u w Hu Hw Hout) as Hd. fold (val_at st0 w) in H.
    destruct (n_op (nd nodes u)) eqn:Eo; cbn [is_complement] in H.
    - apply (lfp_union nodes neg u w x (Hrange u Hu) Eo Hw). now apply Hdone.
    - now destruct (Hni u Hu).
    - destruct (Hok u Hu) as [_ Ho]. rewrite Eo in Ho. destruct Ho as [_ [w' Hw']].
      rewrite Hw' in Hw. destruct Hw as [->|[]].
      apply (lfp_compl nodes neg u w x (Hrange u Hu) Eo Hw'). intro Hn. apply complement_spec in H. apply H. now apply Hneg.
  Qed.

  Lemma uc_complete v x : lfp nodes neg v x -> In v comp -> exists u, In u comp /\ node_contrib nf on u x.
  Proof.
    intro H. induction H as [v x Hv Ho Hx|v w x Hv Ho Hw Hl IH|v x Hv Ho Hall IH|v w x Hv Ho He Hn]; intro Hc.
    - exists v. split; [exact Hc|]. left. unfold nf. now rewrite (Hinit v Hc).
    - destruct (Hedges v w Hc Hw) as [Hwc|Hd]; [now apply IH|].
      exists v. split; [exact Hc|]. right. exists w. destruct (nf_shape v) as [Hop Hed].
      split; [now rewrite Hed|]. split; [apply (uc_on_false v w Hc Hw (Hdisj w Hd))|].
      unfold edge_val. rewrite Hop, Ho. now apply Hdone.
    - now destruct (Hni v Hc).
    - assert (Hw : In w (n_edges (nd nodes v))) by (rewrite He; now left).
      pose proof (uc_compl_out v w Hc Ho He) as Hout.
      exists v. split; [exact Hc|]. right. exists w. destruct (nf_shape v) as [Hop Hed].
      split; [now rewrite Hed|]. split; [apply (uc_on_false v w Hc Hw Hout)|].
      unfold edge_val. rewrite Hop, Ho. apply complement_spec. intro Hx. apply Hn.
      now apply (Hneg w x (uc_operand_done v w Hc Hw Hout)).
  Qed.

  Lemma union_closure_correct v x : In v comp -> (den (val_at (union_closure comp on st0) v) x <-> lfp nodes neg v x).
  Proof.
    intro Hv. rewrite union_closure_eq. fold nf. cbv zeta.
    replace (comp_errs nf on comp) with (@nil nat).
    2:{ unfold nf. rewrite (comp_errs_filter nodes on st0 comp Hshape Hok). symmetry. apply incl_l_nil.
        intros u Hu. apply filter_In in Hu as [Hu E]. now rewrite (Hnoerr u Hu) in E. }
    rewrite add_errs_nil, Herr, assign_val by (try exact Hv; intros u Hu; rewrite (proj1 Hshape); now apply Hrange).
    destruct (fold_den_acc _ _ (node_res_spec nf on Hwf) comp _ (eq_refl : wf (mkIntSet false []))) as [_ D].
    rewrite D. split.
    - intros [[]|[u [Hu Hc]]]. apply (Hconn (fun a => lfp nodes neg a x) u Hu (uc_contrib_sound u x Hu Hc)); [|exact Hv].
      intros a b Ha Hb He Hl. refine (lfp_union nodes neg a b x (Hrange a Ha) _ He Hl).
      (* a vertex with an edge into the component is a union node *)
      destruct (n_op (nd nodes a)) eqn:Eo; [reflexivity|now destruct (Hni a Ha)|].
      destruct (Hok a Ha) as [_ H]. rewrite Eo in H. destruct H as [_ [w Hw]].
      rewrite Hw in He. destruct He as [<-|[]]. now destruct (uc_compl_out a w Ha Eo Hw).
    - intro Hl. right. now apply (uc_complete v x Hl).
  Qed.
End Component.

Lemma closure_graph_nth nodes v : nth v (closure_graph nodes) [] = n_edges (nd nodes v).
Proof. unfold closure_graph, nd. now rewrite <- (map_nth n_edges nodes dummy_node v). Qed.

Lemma closure_graph_length nodes : length (closure_graph nodes) = length nodes.
Proof. apply map_length. Qed.


Definition in_pre (pre : list (list nat * list bool)) (v : nat) : Prop := In v (concat (map fst pre)).

Lemma in_pre_snoc pre comp on v : in_pre (pre ++ [(comp, on)]) v <-> in_pre pre v \/ In v comp.
Proof. unfold in_pre. rewrite map_app, concat_app. cbn. rewrite app_nil_r. apply in_app_iff. Qed.

Lemma cert_all_in nodes out : tarjan_cert (closure_graph nodes) out -> forall v, v < length nodes -> in_pre out v.
Proof.
  intros [H _] v Hv. rewrite <- closure_graph_length in Hv. pose proof (scc_each_once _ _ H v Hv) as E.
  unfold in_pre. apply (count_occ_In Nat.eq_dec). lia.
Qed.

(* nodes not yet reported hold their constants; the reported ones the least solution relative to every reading
   [neg] of the complements that agrees with the state on them *)
Definition Vals (nodes : list cnode) (st : cst) (done : nat -> Prop) : Prop :=
  (forall v, ~ done v -> n_val (node_at st v) = n_val (nd nodes v)) /\
  forall neg, (forall w x, done w -> (neg w x <-> den (val_at st w) x)) ->
    forall v x, done v -> (den (val_at st v) x <-> lfp nodes neg v x).

Section Cert.
  Variables (nodes : list cnode) (pre post : list (list nat * list bool)) (comp : list nat) (on : list bool).
  Let g := closure_graph nodes.
  Hypothesis Hwf : nodes_wf nodes.
  Hypothesis Hcert : tarjan_cert g (pre ++ (comp, on) :: post).
  Let A := concat (map fst pre).
  Let B := concat (map fst post).

  Lemma cert_comps : map fst (pre ++ (comp, on) :: post) = map fst pre ++ comp :: map fst post.
  Proof. now rewrite map_app. Qed.

  Lemma cert_concat : concat (map fst (pre ++ (comp, on) :: post)) = A ++ comp ++ B.
  Proof. rewrite cert_comps, concat_app. reflexivity. Qed.

  Lemma cert_glen : length g = length nodes.
  Proof. apply closure_graph_length. Qed.

  Lemma cert_range v : In v comp -> v < length nodes.
  Proof.
    intro H. rewrite <- cert_glen. apply (scc_in_range _ _ (proj1 Hcert)). rewrite cert_concat.
    apply in_or_app. right. apply in_or_app. now left.
  Qed.

  Lemma cert_count v : v < length nodes ->
    count_occ Nat.eq_dec A v + count_occ Nat.eq_dec comp v + count_occ Nat.eq_dec B v = 1.
  Proof.
    intro H. rewrite <- cert_glen in H. pose proof (scc_each_once _ _ (proj1 Hcert) v H) as E.
    rewrite cert_concat, !count_occ_app in E. lia.
  Qed.

  Lemma cert_disj v : In v A -> ~ In v comp.
  Proof.
    intros Ha Hc. pose proof (cert_count v (cert_range v Hc)) as E.
    apply (count_occ_In Nat.eq_dec) in Ha. apply (count_occ_In Nat.eq_dec) in Hc. lia.
  Qed.

  Lemma cert_in_some w : w < length nodes -> In w A \/ In w comp \/ In w B.
  Proof.
    intro H. pose proof (cert_count w H) as E.
    destruct (in_dec Nat.eq_dec w A) as [?|Na]; [now left|].
    destruct (in_dec Nat.eq_dec w comp) as [?|Nc]; [right; now left|].
    destruct (in_dec Nat.eq_dec w B) as [?|Nb]; [right; now right|].
    apply (count_occ_not_In Nat.eq_dec) in Na, Nc, Nb. lia.
  Qed.

  Lemma cert_order : (forall w v, In w A -> In v comp -> ~ greach g w v) /\ (forall v w, In v comp -> In w B -> ~ greach g v w).
  Proof.
    pose proof (scc_order _ _ (proj1 Hcert)) as Ho. rewrite cert_comps in Ho.
    apply FOP_app_iff in Ho as [_ [Hp Hx]]. inversion Hp as [|? ? Hf _]; subst. rewrite Forall_forall in Hf. split.
    - intros w v Hw Hv. apply in_concat in Hw as [c' [Hc' Hw]]. exact (Hx c' comp Hc' (or_introl eq_refl) w v Hw Hv).
    - intros v w Hv Hw. apply in_concat in Hw as [c' [Hc' Hw]]. exact (Hf c' Hc' v w Hv Hw).
  Qed.

  Lemma cert_gedge v w : v < length nodes -> In w (n_edges (nd nodes v)) -> gedge g v w.
  Proof.
    intros Hv Hw. destruct Hwf as [Hg _]. unfold graph_wf in Hg. rewrite forallb_forall in Hg.
    fold g in Hg. rewrite <- closure_graph_nth in Hw. fold g in Hw.
    assert (Hin : In (nth v g []) g) by (apply nth_In; now rewrite cert_glen).
    specialize (Hg _ Hin). rewrite forallb_forall in Hg. specialize (Hg w Hw). apply Nat.ltb_lt in Hg.
    split; [now rewrite cert_glen|]. split; assumption.
  Qed.

  Lemma cert_between v c b : In v comp -> In b comp -> gedge g v c -> c = b \/ greach g c b -> In c comp.
  Proof.
    intros Hv Hb E R. destruct cert_order as [Hbefore Hafter].
    assert (Hcn : c < length nodes) by (rewrite <- cert_glen; apply E).
    destruct (cert_in_some c Hcn) as [H|[H|H]]; [|exact H|].
    - destruct R as [->|R]; [now destruct (cert_disj b H)|now destruct (Hbefore c b H Hb)].
    - now destruct (Hafter v c Hv H (gedge_greach g v c E)).
  Qed.

  Lemma cert_edges v w : In v comp -> In w (n_edges (nd nodes v)) -> In w comp \/ In w A.
  Proof.
    intros Hv Hw. pose proof (cert_gedge v w (cert_range v Hv) Hw) as E.
    assert (Hwn : w < length nodes) by (rewrite <- cert_glen; apply E).
    destruct (cert_in_some w Hwn) as [H|[H|H]]; [now right|now left|].
    now destruct (proj2 cert_order v w Hv H (gedge_greach g v w E)).
  Qed.

  Lemma cert_connected u v : In u comp -> In v comp -> u = v \/ greach g u v.
  Proof.
    intros Hu Hv. apply (scc_connected _ _ (proj1 Hcert) comp); [|exact Hu|exact Hv].
    rewrite cert_comps. apply in_or_app. right. now left.
  Qed.

  Lemma cert_conn (P : nat -> Prop) v : In v comp -> P v ->
    (forall a b, In a comp -> In b comp -> In b (n_edges (nd nodes a)) -> P b -> P a) -> forall u, In u comp -> P u.
  Proof.
    intros Hv Pv Hback u Hu. destruct (cert_connected u v Hu Hv) as [->|R]; [exact Pv|]. revert Hu.
    assert (He : forall a b, gedge g a b -> In b (n_edges (nd nodes a)))
      by (intros a b [_ [_ E]]; unfold g in E; now rewrite closure_graph_nth in E).
    remember v as b eqn:Eb in R. revert Eb.
    induction R as [a b E|a c b E R IH] using greach_ind_edge; intros -> Ha.
    - now apply (Hback a v Ha Hv (He a v E)).
    - assert (Hc : In c comp) by (apply (cert_between a c v Ha Hv E); now right).
      apply (Hback a c Ha Hc (He a c E)). now apply IH.
  Qed.

  Lemma cert_cycle v w : In v comp -> In w (n_edges (nd nodes v)) -> (In w comp <-> w = v \/ greach g w v).
  Proof.
    intros Hv Hw. split; [intro Hwc; now apply cert_connected|]. intro R.
    exact (cert_between v w v Hv Hv (cert_gedge v w (cert_range v Hv) Hw) R).
  Qed.

  Lemma cert_on v w : In v comp -> In w (n_edges (nd nodes v)) -> (nth w on false = true <-> In w comp).
  Proof.
    intros Hv Hw. apply (proj2 Hcert comp on v w); [apply in_or_app; right; now left|exact Hv|].
    unfold g. now rewrite closure_graph_nth.
  Qed.

  Lemma cert_err_cycle u : In u comp -> (sp_err on (nd nodes u) = true <-> compl_on_cycle nodes u).
  Proof.
    intro Hu. rewrite sp_err_spec. unfold compl_on_cycle.
    assert (H : forall w, n_edges (nd nodes u) = [w] -> (nth w on false = true <-> w = u \/ greach g w u)).
    { intros w Hw. assert (Hwe : In w (n_edges (nd nodes u))) by (rewrite Hw; now left).
      now rewrite (cert_on u w Hu Hwe), (cert_cycle u w Hu Hwe). }
    split.
    - intros [Ho [w [Hw Hon]]]. split; [now apply cert_range|]. split; [exact Ho|]. exists w. split; [exact Hw|now apply H].
    - intros [_ [Ho [w [Hw Hc]]]]. split; [exact Ho|]. exists w. split; [exact Hw|now apply H].
  Qed.

  Lemma cert_compl_alone v q : In v comp -> In q comp -> q <> v -> n_op (nd nodes v) = OpComplement -> compl_on_cycle nodes v.
  Proof.
    intros Hv Hq Hne Ho. destruct (cert_connected v q Hv Hq) as [->|R]; [congruence|].
    destruct (proj2 Hwf v (cert_range v Hv)) as [_ Hk]. rewrite Ho in Hk. destruct Hk as [_ [w Hw]].
    split; [now apply cert_range|]. split; [exact Ho|]. exists w. split; [exact Hw|].
    assert (Hwe : In w (n_edges (nd nodes v))) by (rewrite Hw; now left).
    apply (cert_cycle v w Hv Hwe). destruct (greach_first g v q R) as [c [E Rc]].
    assert (c = w) by (destruct E as [_ [_ E]]; unfold g in E; rewrite closure_graph_nth, Hw in E; now destruct E as [<-|[]]).
    subst c. exact (cert_between v w q Hv Hq E Rc).
  Qed.

  Lemma closure_cb_vals fuel st : (forall v, ~ compl_on_cycle nodes v) ->
    shape nodes st -> all_wf st -> c_err st = [] -> Vals nodes st (in_pre pre) ->
    frame nodes comp st (closure_cb fuel st (comp, on)) ->
    c_oof (closure_cb fuel st (comp, on)) = false ->
    Vals nodes (closure_cb fuel st (comp, on)) (in_pre (pre ++ [(comp, on)])).
  Proof.
    intros Hnocyc I1 I2 I3 [I4 I5] [_ _ _ S4] Hoof. pose proof cert_disj as Hdisj. pose proof cert_range as Hrange.
    split.
    { intros v Hv. rewrite in_pre_snoc in Hv. rewrite S4 by (intro; apply Hv; now right). apply I4. intro; apply Hv; now left. }
    intros neg Hneg v x Hv.
    assert (Hneg' : forall w x, in_pre pre w -> (neg w x <-> den (val_at st w) x)).
    { intros w y Hw. rewrite (Hneg w y) by (apply in_pre_snoc; now left).
      unfold val_at. now rewrite (S4 w (Hdisj w Hw)). }
    apply in_pre_snoc in Hv as [Hv|Hv].
    { unfold val_at. rewrite (S4 v (Hdisj v Hv)). now apply (I5 neg Hneg'). }
    assert (Hok : forall v, In v comp -> node_ok nodes v) by (intros u Hu; apply (proj2 Hwf), Hrange, Hu).
    assert (Hinit : forall v, In v comp -> n_val (node_at st v) = n_val (nd nodes v)).
    { intros u Hu. apply I4. intro Hp. exact (Hdisj u Hp Hu). }
    assert (Hedges : forall v w, In v comp -> In w (n_edges (nd nodes v)) -> In w comp \/ in_pre pre w)
      by (intros u w; apply cert_edges).
    unfold closure_cb in *. destruct (existsb (fun q => is_intersection (n_op (node_at st q))) comp) eqn:Ex.
    - (* slow closure: an intersection node q; a complement node would be on a cycle through q *)
      apply existsb_exists in Ex as [q [Hq Eq]].
      assert (Hnc : forall v, In v comp -> n_op (nd nodes v) <> OpComplement).
      { intros u Hu Ho. apply (Hnocyc u). apply (cert_compl_alone u q Hu Hq); [|exact Ho].
        intros ->. destruct (proj2 I1 u) as [E _]. rewrite E, Ho in Eq. discriminate. }
      apply (slow_closure_correct nodes neg comp (in_pre pre) on st Hrange Hok Hinit Hedges Hdisj (I5 neg Hneg') Hnc fuel st);
        [now apply SlowInv_start|exact Hoof|exact Hv].
    - assert (Hni : forall v, In v comp -> n_op (nd nodes v) <> OpIntersection).
      { intros u Hu Ho. pose proof (existsb_false _ _ Ex u Hu) as Hf. cbn in Hf.
        destruct (proj2 I1 u) as [E _]. rewrite E, Ho in Hf. discriminate. }
      assert (Hnoerr : forall v, In v comp -> sp_err on (nd nodes v) = false).
      { intros u Hu. destruct (sp_err on (nd nodes u)) eqn:E; [|reflexivity].
        now destruct (Hnocyc u); apply (cert_err_cycle u Hu). }
      exact (union_closure_correct nodes neg comp (in_pre pre) on st I1 I2 Hrange Hok Hinit Hedges Hdisj (I5 neg Hneg') Hneg' Hni
               cert_on cert_conn Hnoerr I3 v x Hv).
  Qed.
End Cert.

Definition st_init (nodes : list cnode) : cst := mkC nodes [] false.

Record FoldInv (nodes : list cnode) (pre : list (list nat * list bool)) (st : cst) : Prop := {
  fi_shape : shape nodes st;
  fi_wf : all_wf st;
  fi_err : forall u, In u (c_err st) <-> in_pre pre u /\ compl_on_cycle nodes u;
  fi_vals : (forall v, ~ compl_on_cycle nodes v) -> c_oof st = false -> Vals nodes st (in_pre pre)
}.

Lemma closure_fold_spec nodes fuel out : nodes_wf nodes -> tarjan_cert (closure_graph nodes) out -> fuel <> 0 ->
  FoldInv nodes out (fold_left (closure_cb fuel) out (st_init nodes)).
Proof.
  intros Hwf Hcert Hf. apply (fold_left_prefix_ind _ _ (FoldInv nodes)).
  - constructor.
    + split; [reflexivity|intro v; split; reflexivity].
    + intro v. unfold val_at, node_at, st_init. cbn [c_nodes]. fold (nd nodes v).
      destruct (Nat.lt_ge_cases v (length nodes)) as [H|H]; [apply (proj2 Hwf v H)|].
      unfold nd. now rewrite nth_overflow.
    + intro u. split; [intros []|intros [[] _]].
    + intros _ _. split; [reflexivity|]. intros neg _ v x [].
  - intros pre [comp on] post st E [I1 I2 I3 I4]. subst out.
    pose proof (cert_range nodes pre post comp on Hcert) as Hr.
    destruct (closure_cb_frame nodes fuel comp on st I1 I2 Hr (fun v Hv => proj2 Hwf v (Hr v Hv)) Hf) as [F E2].
    constructor; [apply F|apply F| |].
    + intro u. rewrite E2, I3, in_pre_snoc. split.
      * intros [H|[Hu He]]; [split; [now left|apply H]|]. split; [now right|].
        now apply (cert_err_cycle nodes pre post comp on Hwf Hcert u Hu).
      * intros [[Hu|Hu] Hc]; [left; now split|right; split; [exact Hu|]].
        now apply (cert_err_cycle nodes pre post comp on Hwf Hcert u Hu).
    + intros Hnc Hoof. assert (Hoof' : c_oof st = false).
      { destruct (c_oof st) eqn:Eo; [|reflexivity]. now rewrite (f_oof _ _ _ _ F Eo) in Hoof. }
      apply (closure_cb_vals nodes pre post comp on Hwf Hcert fuel st Hnc I1 I2); auto.
      apply incl_l_nil. intros u Hu. now destruct (Hnc u); apply (I3 u).
Qed.

Theorem closure_fold_least nodes fuel out :
  nodes_wf nodes -> tarjan_cert (closure_graph nodes) out -> fuel <> 0 ->
  (forall v, ~ compl_on_cycle nodes v) ->
  let st := fold_left (closure_cb fuel) out (st_init nodes) in
  c_oof st = false ->
  c_err st = [] /\ all_wf st /\ stable_solution nodes (sol_of st).
Proof.
  intros Hwf Hcert Hf Hnc st Hoof. destruct (closure_fold_spec nodes fuel out Hwf Hcert Hf) as [_ I2 I3 I4].
  fold st in I2, I3, I4. split; [|split; [exact I2|]].
  - apply incl_l_nil. intros u Hu. now destruct (Hnc u); apply (I3 u).
  - intros v x Hv. apply (proj2 (I4 Hnc Hoof) (sol_of st) (fun _ _ _ => iff_refl _)).
    now apply (cert_all_in nodes out Hcert).
Qed.

Theorem compute_least_solution nodes :
  nodes_wf nodes -> tarjan_cert (closure_graph nodes) (tarjan (closure_graph nodes)) ->
  (forall v, ~ compl_on_cycle nodes v) ->
  c_oof (compute nodes) = false ->
  c_err (compute nodes) = [] /\ (forall v, wf (val_at (compute nodes) v)) /\
  stable_solution nodes (sol_of (compute nodes)).
Proof. intros Hwf Hcert Hnc. now apply closure_fold_least. Qed.

Lemma tarjan_cert_of_checks g out : check_scc g (map fst out) = true -> check_onstack g out = true -> tarjan_cert g out.
Proof. intros H1 H2. split; [now apply check_scc_sound|now apply check_onstack_spec]. Qed.

Theorem compute_errors_exact nodes :
  nodes_wf nodes -> tarjan_cert (closure_graph nodes) (tarjan (closure_graph nodes)) ->
  forall u, In u (c_err (compute nodes)) <-> compl_on_cycle nodes u.
Proof.
  intros Hwf Hcert u. unfold compute. set (fuel := (4 + _)%nat).
  destruct (closure_fold_spec nodes fuel _ Hwf Hcert ltac:(discriminate)) as [_ _ E _].
  etransitivity; [apply E|]. split; [now intros [_ H]|]. intro Hc. split; [|exact Hc].
  apply (cert_all_in nodes _ Hcert), Hc.
Qed.

Corollary compute_error_iff_cycle nodes :
  nodes_wf nodes -> tarjan_cert (closure_graph nodes) (tarjan (closure_graph nodes)) ->
  (c_err (compute nodes) <> [] <-> exists v, compl_on_cycle nodes v).
Proof.
  intros Hwf Hcert. split.
  - intro H. destruct (c_err (compute nodes)) as [|v l] eqn:E; [congruence|]. exists v.
    apply (compute_errors_exact nodes Hwf Hcert). rewrite E. now left.
  - intros [v Hv] E. apply (compute_errors_exact nodes Hwf Hcert) in Hv. rewrite E in Hv. exact Hv.
Qed.

Lemma edge_in_range nodes v w : nodes_wf nodes -> v < length nodes -> In w (n_edges (nd nodes v)) -> w < length nodes.
Proof. intros Hwf Hv Hw. destruct (cert_gedge nodes Hwf v w Hv Hw) as [_ [H _]]. now rewrite closure_graph_length in H. Qed.

Lemma lfp_inv nodes neg v x : lfp nodes neg v x ->
  match n_op (nd nodes v) with
  | OpUnion => den (n_val (nd nodes v)) x \/ exists w, In w (n_edges (nd nodes v)) /\ lfp nodes neg w x
  | OpIntersection => forall w, In w (n_edges (nd nodes v)) -> lfp nodes neg w x
  | OpComplement => exists w, n_edges (nd nodes v) = [w] /\ ~ neg w x
  end.
Proof. intro H. destruct H as [v x _ Ho|v w x _ Ho|v x _ Ho|v w x _ Ho]; rewrite Ho; eauto. Qed.

Theorem stable_is_solution nodes sol : nodes_wf nodes -> stable_solution nodes sol ->
  forall v x, v < length nodes -> eqn_holds nodes sol v x.
Proof.
  intros Hwf Hs v x Hv. unfold eqn_holds.
  assert (Hw : forall w, In w (n_edges (nd nodes v)) -> (sol w x <-> lfp nodes sol w x))
    by (intros w Hw; apply Hs; now apply (edge_in_range nodes v w)).
  destruct (n_op (nd nodes v)) eqn:Eo; rewrite (Hs v x Hv); split; intro H;
    try (apply lfp_inv in H; rewrite Eo in H).
  - destruct H as [H|[w [Hw' H]]]; [now left|right; exists w; split; [exact Hw'|now apply Hw]].
  - destruct H as [H|[w [Hw' H]]]; [now apply lfp_const|]. apply (lfp_union nodes sol v w x Hv Eo Hw'). now apply Hw.
  - intros w Hw'. apply Hw; auto.
  - apply (lfp_inter nodes sol v x Hv Eo). intros w Hw'. apply Hw; auto.
  - exact H.
  - destruct H as [w [Hw' H]]. exact (lfp_compl nodes sol v w x Hv Eo Hw' H).
Qed.

(* least: contained in every valuation closed under the positive equations that contains the complements *)
Theorem stable_is_least nodes sol sol' : stable_solution nodes sol -> pre_solution nodes sol sol' ->
  forall v x, v < length nodes -> sol v x -> sol' v x.
Proof.
  intros Hs Hp v x Hv H. apply (Hs v x Hv) in H. clear Hv.
  induction H as [v x Hv Ho Hx|v w x Hv Ho Hw Hl IH|v x Hv Ho Hall IH|v w x Hv Ho He Hn];
    specialize (Hp v x Hv); rewrite Ho in Hp.
  - now apply Hp.
  - destruct Hp as [_ Hp]. now apply (Hp w).
  - now apply Hp.
  - now apply (Hp w).
Qed.

Theorem stable_unique nodes out sol1 sol2 :
  nodes_wf nodes -> tarjan_cert (closure_graph nodes) out -> (forall v, ~ compl_on_cycle nodes v) ->
  stable_solution nodes sol1 -> stable_solution nodes sol2 ->
  forall v x, v < length nodes -> (sol1 v x <-> sol2 v x).
Proof.
  intros Hwf Hcert Hnc H1 H2.
  assert (Hstep : forall pre comp on post s1 s2, out = pre ++ (comp, on) :: post ->
            stable_solution nodes s1 -> stable_solution nodes s2 ->
            (forall w x, in_pre pre w -> (s1 w x <-> s2 w x)) ->
            forall v x, lfp nodes s1 v x -> In v comp -> lfp nodes s2 v x).
  { intros pre comp on post s1 s2 E S1 S2 Hag v x H. subst out.
    induction H as [v x Hv Ho Hx|v w x Hv Ho Hw Hl IH|v x Hv Ho Hall IH|v w x Hv Ho He Hn]; intro Hc.
    - now apply lfp_const.
    - apply (lfp_union nodes s2 v w x Hv Ho Hw).
      destruct (cert_edges nodes pre post comp on Hwf Hcert v w Hc Hw) as [Hwc|Hd]; [now apply IH|].
      assert (Hwn : w < length nodes) by now apply (edge_in_range nodes v w).
      apply (S2 w x Hwn). apply (Hag w x Hd). now apply (S1 w x Hwn).
    - apply (lfp_inter nodes s2 v x Hv Ho). intros w Hw.
      destruct (cert_edges nodes pre post comp on Hwf Hcert v w Hc Hw) as [Hwc|Hd]; [now apply IH|].
      assert (Hwn : w < length nodes) by now apply (edge_in_range nodes v w).
      apply (S2 w x Hwn). apply (Hag w x Hd). apply (S1 w x Hwn). now apply Hall.
    - apply (lfp_compl nodes s2 v w x Hv Ho He).
      assert (Hw : In w (n_edges (nd nodes v))) by (rewrite He; now left).
      destruct (cert_edges nodes pre post comp on Hwf Hcert v w Hc Hw) as [Hwc|Hd].
      + exfalso. apply (Hnc v). split; [exact Hv|]. split; [exact Ho|]. exists w. split; [exact He|].
        now apply (cert_cycle nodes pre post comp on Hwf Hcert v w Hc Hw).
      + intro Hx. apply Hn. now apply (Hag w x Hd). }
  assert (H : forall w x, in_pre out w -> (sol1 w x <-> sol2 w x)).
  { apply (prefix_ind out (fun pre => forall w x, in_pre pre w -> (sol1 w x <-> sol2 w x))); [intros w x []|].
    intros pre [comp on] post E IH w x Hw.
    apply in_pre_snoc in Hw as [Hw|Hw]; [now apply IH|].
    assert (Hwn : w < length nodes) by (subst out; now apply (cert_range nodes pre post comp on Hcert)).
    rewrite (H1 w x Hwn), (H2 w x Hwn). split; intro Hl.
    - exact (Hstep pre comp on post sol1 sol2 E H1 H2 IH w x Hl Hw).
    - apply (Hstep pre comp on post sol2 sol1 E H2 H1 (fun w x Hw => iff_sym (IH w x Hw)) w x Hl Hw). }
  intros v x Hv. apply H. now apply (cert_all_in nodes out Hcert).
Qed.

Lemma nodes_wfb_sound nodes : nodes_wfb nodes = true -> nodes_wf nodes.
Proof.
  unfold nodes_wfb. intro H. apply andb_true_iff in H as [Hg Hn]. split; [exact Hg|]. intros v Hv.
  rewrite forallb_forall in Hn. specialize (Hn (nd nodes v) (nth_In nodes dummy_node Hv)).
  unfold node_okb in Hn. apply andb_true_iff in Hn as [Hs Hk]. split; [exact Hs|].
  destruct (n_op (nd nodes v)).
  - exact I.
  - now apply is_empty_den.
  - apply andb_true_iff in Hk as [He Hk]. split; [now apply is_empty_den|].
    destruct (n_edges (nd nodes v)) as [|w [|? ?]]; try discriminate. now exists w.
Qed.

Lemma closure_certb_sound nodes : closure_certb nodes = true ->
  nodes_wf nodes /\ tarjan_cert (closure_graph nodes) (tarjan (closure_graph nodes)).
Proof.
  unfold closure_certb. intro H. apply andb_true_iff in H as [H H3]. apply andb_true_iff in H as [H1 H2].
  split; [now apply nodes_wfb_sound|now apply tarjan_cert_of_checks].
Qed.

Theorem compute_ok_least nodes : closure_certb nodes = true ->
  c_oof (compute nodes) = false -> c_err (compute nodes) = [] ->
  stable_solution nodes (sol_of (compute nodes)) /\
  (forall sol, stable_solution nodes sol -> forall v x, v < length nodes -> (sol v x <-> sol_of (compute nodes) v x)).
Proof.
  intros Hc Hoof Herr. destruct (closure_certb_sound nodes Hc) as [Hwf Hcert].
  assert (Hnc : forall v, ~ compl_on_cycle nodes v).
  { intros v Hv. apply (compute_errors_exact nodes Hwf Hcert) in Hv. rewrite Herr in Hv. exact Hv. }
  destruct (compute_least_solution nodes Hwf Hcert Hnc Hoof) as [_ [_ Hs]]. split; [exact Hs|].
  intros sol Hsol. exact (stable_unique nodes _ sol _ Hwf Hcert Hnc Hsol Hs).
Qed.

Theorem compute_err_cycle nodes : closure_certb nodes = true ->
  forall u, In u (c_err (compute nodes)) <-> compl_on_cycle nodes u.
Proof. intro Hc. destruct (closure_certb_sound nodes Hc) as [Hwf Hcert]. now apply compute_errors_exact. Qed.
