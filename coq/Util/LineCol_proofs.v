(* Util/LineCol.v. The table of line starts (lines_from) is the hub: the scan, the binary search over the table and
   strings.LastIndexByte are each related to it. Then: every origin that compile attaches to an error is wellformed
   (status_wellformed), one error per diagnostic. *)
From Coq Require Import List ZArith Bool Lia Sorting.Sorted.
From TM Require Import Util.LineCol.
Import ListNotations.
Local Open Scope Z_scope.

Lemma search_spec f : forall fuel i j,
  0 <= i <= j -> (Z.to_nat (j - i) <= fuel)%nat ->
  (forall a b, i <= a <= b -> b < j -> f a = true -> f b = true) ->
  i <= search fuel f i j <= j /\
  (forall k, i <= k < search fuel f i j -> f k = false) /\
  (forall k, search fuel f i j <= k < j -> f k = true).
Proof.
  induction fuel as [|fuel IH]; intros i j Hij Hfuel Hmono; cbn [search].
  - split; [|split; intros k Hk]; lia.
  - destruct (Z.ltb_spec i j) as [Hlt|Hge]; [|split; [|split; intros k Hk]; lia].
    cbv zeta. assert (Hh : i <= (i + j) / 2 < j).
    { split; [apply Z.div_le_lower_bound; lia | apply Z.div_lt_upper_bound; lia]. }
    set (h := (i + j) / 2) in *. clearbody h. destruct (f h) eqn:Hfh.
    + destruct (IH i h) as (Hr & Hlo & Hhi); [lia | lia | intros a b Hab Hb; apply Hmono; lia |].
      clear IH Hfuel. split; [lia | split; [exact Hlo|]]. intros k Hk.
      destruct (Z_lt_le_dec k h); [apply Hhi; lia | apply (Hmono h k); [lia | lia | exact Hfh]].
    + destruct (IH (h + 1) j) as (Hr & Hlo & Hhi); [lia | lia | intros a b Hab Hb; apply Hmono; lia |].
      clear IH Hfuel. split; [lia | split; [|exact Hhi]]. intros k Hk.
      destruct (Z_lt_le_dec k (h + 1)); [|apply Hlo; lia].
      destruct (f k) eqn:Hfk; [|reflexivity]. rewrite (Hmono k h) in Hfh; [discriminate | lia | lia | exact Hfk].
Qed.

Lemma lines_from_bounds : forall s pos, Forall (fun x => pos < x <= pos + Z.of_nat (length s)) (lines_from s pos).
Proof.
  induction s as [|c t IH]; intro pos; cbn [lines_from length]; [constructor|].
  specialize (IH (pos + 1)).
  assert (H : Forall (fun x => pos < x <= pos + Z.of_nat (S (length t))) (lines_from t (pos + 1))).
  { eapply Forall_impl; [|exact IH]. cbv beta. intros; lia. }
  destruct (c =? NL); [constructor; [lia|exact H] | exact H].
Qed.

Lemma lines_from_sorted : forall s pos, StronglySorted Z.lt (lines_from s pos).
Proof.
  induction s as [|c t IH]; intro pos; cbn [lines_from]; [constructor|].
  destruct (c =? NL); [|apply IH].
  constructor; [apply IH|]. eapply Forall_impl; [|apply lines_from_bounds]. cbv beta. intros; lia.
Qed.

Lemma line_offsets_sorted s : StronglySorted Z.lt (line_offsets s).
Proof.
  unfold line_offsets. constructor; [apply lines_from_sorted|].
  eapply Forall_impl; [|apply lines_from_bounds]. cbv beta. intros; lia.
Qed.

Lemma lines_from_app : forall a b pos,
  lines_from (a ++ b) pos = lines_from a pos ++ lines_from b (pos + Z.of_nat (length a)).
Proof.
  induction a as [|c a IH]; intros b pos; cbn [app lines_from length].
  - now rewrite Z.add_0_r.
  - rewrite IH. replace (pos + 1 + Z.of_nat (length a)) with (pos + Z.of_nat (S (length a))) by lia.
    now destruct (c =? NL).
Qed.

Lemma lines_from_no_nl : forall b pos, ~ In NL b -> lines_from b pos = [].
Proof.
  induction b as [|c b IH]; intros pos Hno; [reflexivity|]. cbn [lines_from].
  destruct (Z.eqb_spec c NL) as [->|_]; [destruct Hno; now left|]. apply IH. intro H. apply Hno. now right.
Qed.

Lemma last_cons {A} : forall (l : list A) a d, last (a :: l) d = last l a.
Proof.
  induction l as [|b l IH]; intros a d; [reflexivity|].
  change (last (a :: b :: l) d) with (last (b :: l) d). now rewrite (IH b d), (IH b a).
Qed.

(* The scan of a prefix p, read off the line starts of p: one line further for each of them, and the column
   counts from the last one (from ls, the start of the current line, when p has none). *)
Lemma lc_scan_prefix : forall p r line col pos ls, col = pos - ls + 1 ->
  lc_scan (p ++ r) (length p) line col =
  (line + Z.of_nat (length (lines_from p pos)), pos + Z.of_nat (length p) - last (lines_from p pos) ls + 1).
Proof.
  induction p as [|c p IH]; intros r line col pos ls ->.
  - destruct r; cbn; f_equal; lia.
  - cbn [app length lc_scan lines_from]. destruct (c =? NL).
    + rewrite (IH _ _ _ (pos + 1) (pos + 1)), last_cons by lia. cbn [length]. f_equal; lia.
    + rewrite (IH _ _ _ (pos + 1) ls) by lia. f_equal; lia.
Qed.

Lemma line_col_prefix p r :
  line_col (p ++ r) (Z.of_nat (length p)) =
  (1 + Z.of_nat (length (lines_from p 0)), Z.of_nat (length p) - last (lines_from p 0) 0 + 1).
Proof. unfold line_col. rewrite Nat2Z.id. apply lc_scan_prefix. reflexivity. Qed.

Lemma search_at_partition f fuel n a :
  0 <= a <= n -> (Z.to_nat n <= fuel)%nat ->
  (forall k, 0 <= k < a -> f k = false) -> (forall k, a <= k < n -> f k = true) -> search fuel f 0 n = a.
Proof.
  intros Ha Hfuel Hlo Hhi.
  destruct (search_spec f fuel 0 n) as (Hr & Hlo' & Hhi'); [lia | lia | |].
  { intros x y Hxy Hy Hfx. apply Hhi. destruct (Z_lt_le_dec x a); [|lia]. rewrite Hlo in Hfx by lia. discriminate. }
  set (r := search fuel f 0 n) in *. clearbody r.
  destruct (Z.lt_trichotomy r a) as [Hlt|[Heq|Hgt]]; [|exact Heq|].
  - specialize (Hhi' r ltac:(lia)). rewrite Hlo in Hhi' by lia. discriminate.
  - specialize (Hlo' a ltac:(lia)). rewrite Hhi in Hlo' by lia. discriminate.
Qed.

(* Node.LineColumn on any table that splits into the entries up to the offset and those beyond it *)
Lemma line_column_split A B off :
  A <> [] -> Forall (fun x => x <= off) A -> Forall (fun x => off < x) B ->
  line_column (A ++ B) off = Some (Z.of_nat (length A), off - last A 0 + 1).
Proof.
  intros Hne HA HB. unfold line_column.
  rewrite (search_at_partition _ _ _ (Z.of_nat (length A))); rewrite ?app_length; try lia.
  - destruct (exists_last Hne) as (A' & a & ->). rewrite app_length in *. cbn [length] in *.
    replace ((_ <? 0) || _) with false by (symmetry; apply orb_false_intro; [apply Z.ltb_ge | apply Z.leb_gt]; lia).
    rewrite last_last. unfold nthZ. rewrite <- app_assoc.
    replace (Z.to_nat (Z.of_nat (length A' + 1) - 1)) with (length A') by lia. cbn [app]. rewrite nth_middle.
    f_equal. f_equal; lia.
  - intros k Hk. apply Z.ltb_ge. unfold nthZ. rewrite app_nth1 by lia.
    rewrite Forall_forall in HA. apply HA, nth_In. lia.
  - intros k Hk. apply Z.ltb_lt. unfold nthZ. rewrite app_nth2 by lia.
    rewrite Forall_forall in HB. apply HB, nth_In. lia.
Qed.

(* Node.LineColumn over the table built by lineOffsets agrees with the scanning specification, for every text
   and every offset inside it (and never indexes out of range). *)
Lemma line_column_spec s off :
  0 <= off <= Z.of_nat (length s) ->
  line_column (line_offsets s) off = Some (line_col s off).
Proof.
  intro Hoff. rewrite <- (firstn_skipn (Z.to_nat off) s).
  set (p := firstn (Z.to_nat off) s). set (q := skipn (Z.to_nat off) s).
  assert (Hp : off = Z.of_nat (length p)) by (unfold p; rewrite firstn_length; lia).
  rewrite Hp at 2. rewrite line_col_prefix. unfold line_offsets. rewrite lines_from_app, app_comm_cons.
  rewrite line_column_split, last_cons; cbn [length]; [f_equal; f_equal; lia | discriminate | |].
  - constructor; [lia|]. eapply Forall_impl; [|apply lines_from_bounds]. cbv beta. intros; lia.
  - eapply Forall_impl; [|apply lines_from_bounds]. cbv beta. intros; lia.
Qed.

Fixpoint count_nl (s : list Z) : Z :=
  match s with [] => 0 | c :: t => (if c =? NL then 1 else 0) + count_nl t end.

Lemma count_nl_lines : forall s pos, count_nl s = Z.of_nat (length (lines_from s pos)).
Proof.
  induction s as [|c s IH]; intro pos; [reflexivity|]. cbn [count_nl lines_from].
  rewrite (IH (pos + 1)). destruct (c =? NL); cbn [length]; lia.
Qed.

Lemma last_index_lines : forall s pos acc, last_index_from s pos acc = last (lines_from s pos) (acc + 1) - 1.
Proof.
  induction s as [|c s IH]; intros pos acc; cbn [last_index_from lines_from]; [cbn; lia|].
  rewrite IH. destruct (c =? NL); [now rewrite last_cons | reflexivity].
Qed.

Lemma lines_from_ends_nl a pos : (a = [] \/ last a 0 = NL) -> last (lines_from a pos) pos = pos + Z.of_nat (length a).
Proof.
  intros [->|Hl]; [cbn; lia|]. destruct a as [|x a'] using rev_ind; [cbn; lia|].
  rewrite last_last in Hl. subst x. rewrite lines_from_app, app_length. cbn. rewrite last_last. lia.
Qed.

Lemma line_col_decl a b rest :
  (a = [] \/ last a 0 = NL) -> ~ In NL b ->
  line_col (a ++ b ++ rest) (Z.of_nat (length a + length b)) = (1 + count_nl a, Z.of_nat (length b) + 1).
Proof.
  intros Ha Hb. rewrite app_assoc, <- app_length, line_col_prefix, lines_from_app, (lines_from_no_nl b), app_nil_r by exact Hb.
  rewrite (lines_from_ends_nl a 0 Ha), (count_nl_lines a 0), app_length. f_equal; lia.
Qed.

(* the byte offset is recovered from (line, column) through the line table *)
Definition offset_of (lines : list Z) (lc : Z * Z) : Z := nthZ lines (fst lc - 1) + snd lc - 1.

Lemma line_column_inverse lines off lc : line_column lines off = Some lc -> offset_of lines lc = off.
Proof.
  unfold line_column, offset_of. destruct (_ || _); [discriminate|]. intros [= <-]. cbn [fst snd].
  match goal with |- nthZ _ (?a + 1 - 1) + _ - 1 = _ => replace (a + 1 - 1) with a by lia end. lia.
Qed.

Lemma line_col_injective s o1 o2 :
  0 <= o1 <= Z.of_nat (length s) -> 0 <= o2 <= Z.of_nat (length s) ->
  line_col s o1 = line_col s o2 -> o1 = o2.
Proof.
  intros H1 H2 Heq.
  rewrite <- (line_column_inverse _ _ _ (line_column_spec s o1 H1)).
  rewrite <- (line_column_inverse _ _ _ (line_column_spec s o2 H2)). now rewrite Heq.
Qed.

Lemma lc_scan_ge1 : forall s n line col, 1 <= line -> 1 <= col ->
  1 <= fst (lc_scan s n line col) /\ 1 <= snd (lc_scan s n line col).
Proof.
  induction s as [|c t IH]; intros n line col Hl Hc; destruct n; cbn [lc_scan fst snd]; try lia.
  destruct (c =? NL); apply IH; lia.
Qed.

Definition wellformed (path content : list Z) (r : source_range) : Prop :=
  sr_file r = path /\ 0 <= sr_off r <= sr_end r /\ sr_end r <= Z.of_nat (length content) /\
  1 <= sr_line r /\ 1 <= sr_col r /\ (sr_line r, sr_col r) = line_col content (sr_off r).

Lemma wellformedb_iff path content r : wellformedb path content r = true <-> wellformed path content r.
Proof.
  unfold wellformedb, wellformed. destruct (line_col content (sr_off r)) as [l c].
  destruct (list_eq_dec Z.eq_dec (sr_file r) path) as [He|He].
  - rewrite andb_true_r. split.
    + intro H. do 6 (apply andb_prop in H as [H ?]).
      rewrite Z.leb_le, ?Z.eqb_eq in *. repeat split; try assumption. congruence.
    + intros (_ & H1 & H2 & H3 & H4 & [= E1 E2]).
      repeat (apply andb_true_intro; split); first [apply Z.leb_le; lia | apply Z.eqb_eq; assumption].
  - rewrite andb_false_r. split; [discriminate | intros (H & _); congruence].
Qed.

Lemma wellformed_at path content off en :
  0 <= off <= en -> en <= Z.of_nat (length content) ->
  wellformed path content (mkSR path off en (fst (line_col content off)) (snd (line_col content off))).
Proof.
  intros H1 H2. pose proof (lc_scan_ge1 content (Z.to_nat off) 1 1 ltac:(lia) ltac:(lia)) as (Hl & Hc).
  unfold wellformed; cbn [sr_file sr_off sr_end sr_line sr_col]. repeat split; try assumption; try lia.
  now destruct (line_col content off).
Qed.

Definition node_ok (content : list Z) (n : node) : Prop := 0 <= n_off n <= n_end n /\ n_end n <= Z.of_nat (length content).

Lemma node_source_range_wellformed path content nd :
  node_ok content nd ->
  exists r, node_source_range path (line_offsets content) (Some nd) = Some r /\ wellformed path content r.
Proof.
  intros (H1 & H2). unfold node_source_range. rewrite line_column_spec by lia.
  pose proof (wellformed_at path content _ _ H1 H2) as Hw.
  destruct (line_col content (n_off nd)) as [l c]. eexists; split; [reflexivity|exact Hw].
Qed.

Lemma last_index_col s off :
  0 <= off <= Z.of_nat (length s) -> off - last_index_nl (firstn (Z.to_nat off) s) = snd (line_col s off).
Proof.
  intro Hoff. rewrite <- (firstn_skipn (Z.to_nat off) s) at 2. set (p := firstn (Z.to_nat off) s).
  assert (Hp : off = Z.of_nat (length p)) by (unfold p; rewrite firstn_length; lia).
  rewrite Hp, line_col_prefix. unfold last_index_nl. rewrite last_index_lines. change (-1 + 1) with 0. cbn [snd]. lia.
Qed.

Definition syntax_error_ok (content : list Z) (se : syntax_error) : Prop :=
  0 <= se_off se <= se_end se /\ se_end se <= Z.of_nat (length content) /\
  se_line se = fst (line_col content (se_off se)).    (* contract of the generated lexer's line counter (C12) *)

Lemma syntax_error_range_wellformed path content se :
  syntax_error_ok content se -> wellformed path content (syntax_error_range path content se).
Proof.
  intros (H1 & H2 & H3). unfold syntax_error_range. rewrite H3, last_index_col by lia. now apply wellformed_at.
Qed.

Definition diag_ok (content : list Z) (d : option node * list Z) : Prop :=
  exists nd, fst d = Some nd /\ node_ok content nd.

Definition front_end_ok (content : list Z) (r : front_end_result) : Prop :=
  match r with
  | ParseFail se => syntax_error_ok content se
  | ParseOk ds => Forall (diag_ok content) ds
  end.

(* one diagnostic handed to Status.Errorf: the loop body of compile_pinned *)
Definition diag_step (path lines : list Z) (acc : option (list serror)) (d : option node * list Z) : option (list serror) :=
  match acc, node_source_range path lines (fst d) with
  | Some s, Some rg => Some (s ++ [mkErr rg (snd d)])
  | _, _ => None
  end.

Lemma compile_diags path content ds :
  compile path content (ParseOk ds) = option_map status_err (fold_left (diag_step path (line_offsets content)) ds (Some [])).
Proof. reflexivity. Qed.

Lemma fold_diags path content : forall ds acc,
  Forall (diag_ok content) ds -> Forall (fun e => wellformed path content (e_origin e)) acc ->
  exists s,
    fold_left (diag_step path (line_offsets content)) ds (Some acc) = Some s /\
    Forall (fun e => wellformed path content (e_origin e)) s /\ length s = (length acc + length ds)%nat.
Proof.
  induction ds as [|d ds IH]; intros acc Hds Hacc.
  - exists acc. cbn. repeat split; [assumption | lia].
  - apply Forall_cons_iff in Hds as [(nd & Hfst & Hnd) Hrest]. cbn [fold_left]. unfold diag_step at 2. rewrite Hfst.
    destruct (node_source_range_wellformed path content nd Hnd) as (rg & Hrg & Hwf). rewrite Hrg.
    destruct (IH (acc ++ [mkErr rg (snd d)]) Hrest) as (s & Hs & Hall & Hlen).
    { apply Forall_app; split; [assumption|]. constructor; [exact Hwf|constructor]. }
    exists s. repeat split; try assumption. rewrite Hlen, app_length. cbn. lia.
Qed.

Lemma from_error_status_err s : from_error (status_err s) = s.
Proof. destruct s; reflexivity. Qed.

Lemma status_wellformed path content r :
  front_end_ok content r ->
  exists e, compile path content r = Some e /\
            Forall (fun x => wellformed path content (e_origin x)) (from_error e).
Proof.
  destruct r as [se|ds]; cbn [front_end_ok]; intro Hok.
  - eexists; split; [reflexivity|]. cbn. constructor; [|constructor].
    apply syntax_error_range_wellformed; exact Hok.
  - rewrite compile_diags. destruct (fold_diags path content ds [] Hok ltac:(constructor)) as (s & Hs & Hall & _).
    rewrite Hs. cbn [option_map]. eexists; split; [reflexivity|]. now rewrite from_error_status_err.
Qed.

(* the pinned glue: every syntax error comes out origin-less, whatever the text *)
Lemma pinned_syntax_error_originless path content se :
  exists e, compile_pinned path content (ParseFail se) = Some e /\
            from_error e = [mkErr empty_range syntax_error_msg] /\
            ~ wellformed path content (e_origin (mkErr empty_range syntax_error_msg)).
Proof.
  eexists; split; [reflexivity|]. split; [reflexivity|].
  unfold wellformed, empty_range; cbn. intros (_ & _ & _ & H & _). lia.
Qed.

Lemma compile_error_count path content ds :
  Forall (diag_ok content) ds ->
  exists e, compile path content (ParseOk ds) = Some e /\ length (from_error e) = length ds.
Proof.
  intro Hok. rewrite compile_diags.
  destruct (fold_diags path content ds [] Hok ltac:(constructor)) as (s & Hs & _ & Hlen).
  rewrite Hs. cbn [option_map]. eexists; split; [reflexivity|]. rewrite from_error_status_err. exact Hlen.
Qed.
