(* Myers' greedy lemma for a distance [dst] on the (extended) edit graph that behaves like an edit distance
   w.r.t. the match predicate of [slide]: the value computed for diagonal k in round d from the furthest points of
   round d-1 on k-1 and k+1 is the furthest point of round d on k. *)
From Coq Require Import List ZArith Bool Lia.
From TM Require Import Util.Diff.
Import ListNotations.
Local Open Scope Z_scope.

Section Greedy.
Variables (m n : Z) (cond : Z -> Z -> bool) (dst : Z -> Z -> Z).
Definition grid_match (x y : Z) : bool := (x <? m) && (y <? n) && cond x y.

Lemma slide_spec k : forall fuel x, m - x < Z.of_nat fuel ->
  let r := slide fuel cond m n x (x - k) in
  x <= r /\ (forall j, x <= j < r -> grid_match j (j - k) = true) /\ grid_match r (r - k) = false.
Proof.
  induction fuel as [|f IH]; intros x Hf; cbn [slide]; cbn zeta.
  - split; [lia|]. split; [intros; lia|]. unfold grid_match. now rewrite (proj2 (Z.ltb_ge x m)) by lia.
  - fold (grid_match x (x - k)). destruct (grid_match x (x - k)) eqn:E; [|split; [lia|]; split; [intros; lia|exact E]].
    replace (x - k + 1) with (x + 1 - k) by lia. destruct (IH (x + 1) ltac:(lia)) as [H1 [H2 H3]].
    split; [lia|]. split; [|exact H3]. intros j Hj. destruct (Z.eq_dec j x) as [->|Hne]; [exact E|apply H2; lia].
Qed.

Hypothesis H_r : forall x y, 0 <= x -> 0 <= y -> dst (x + 1) y <= dst x y + 1.
Hypothesis H_d : forall x y, 0 <= x -> 0 <= y -> dst x (y + 1) <= dst x y + 1.
Hypothesis H_m : forall x y, 0 <= x -> 0 <= y -> grid_match x y = true -> dst (x + 1) (y + 1) = dst x y.
Hypothesis H_mm : forall x y, 0 <= x -> 0 <= y -> grid_match x y = false ->
  dst (x + 1) y + 1 <= dst (x + 1) (y + 1) \/ dst x (y + 1) + 1 <= dst (x + 1) (y + 1).
Hypothesis H_ge : forall x y, 0 <= x -> 0 <= y -> x - y <= dst x y /\ y - x <= dst x y.
Hypothesis H_00 : dst 0 0 = 0.

(* v is the furthest point on diagonal k (x - y = k) at distance <= d *)
Definition Vok (d k v : Z) : Prop :=
  0 <= v /\ k <= v /\ dst v (v - k) <= d /\
  forall x, 0 <= x -> k <= x -> dst x (x - k) <= d -> x <= v.

Lemma slide_Vok fuel d k x0 :
  0 <= x0 -> k <= x0 -> dst x0 (x0 - k) <= d -> m - x0 < Z.of_nat fuel ->
  (forall x, x0 < x -> ~ dst (x - 1) (x - k) <= d - 1) -> (forall x, x0 < x -> ~ dst x (x - k - 1) <= d - 1) ->
  Vok d k (slide fuel cond m n x0 (x0 - k)).
Proof.
  intros Hx0 Hk H0 Hf Hup1 Hup2.
  destruct (slide_spec k fuel x0 Hf) as [H1 [H2 H3]]. cbn zeta in *.
  set (r := slide fuel cond m n x0 (x0 - k)) in *.
  assert (Hsn : forall t, 0 <= t -> x0 + t <= r -> dst (x0 + t) (x0 + t - k) <= d).
  { intros t Ht. pattern t. apply natlike_ind; [rewrite Z.add_0_r; intros; exact H0| |exact Ht].
    intros t' Ht' IHt Hle. specialize (IHt ltac:(lia)).
    specialize (H2 (x0 + t') ltac:(lia)).
    pose proof (H_m (x0 + t') (x0 + t' - k) ltac:(lia) ltac:(lia) H2) as Hm.
    replace (x0 + Z.succ t') with (x0 + t' + 1) by lia. replace (x0 + t' + 1 - k) with (x0 + t' - k + 1) by lia. lia. }
  (* a point beyond x0 at distance <= d is preceded on its diagonal by a match, at distance <= d *)
  assert (Hstep : forall x, x0 < x -> dst x (x - k) <= d -> grid_match (x - 1) (x - 1 - k) = true /\ dst (x - 1) (x - 1 - k) <= d).
  { intros x Hx Hd. pose proof (Hup1 x Hx) as N1. pose proof (Hup2 x Hx) as N2.
    destruct (grid_match (x - 1) (x - 1 - k)) eqn:E.
    - pose proof (H_m (x - 1) (x - 1 - k) ltac:(lia) ltac:(lia) E) as Hm.
      replace (x - 1 + 1) with x in Hm by lia. replace (x - 1 - k + 1) with (x - k) in Hm by lia. split; [reflexivity|lia].
    - exfalso. destruct (H_mm (x - 1) (x - 1 - k) ltac:(lia) ltac:(lia) E) as [Hc|Hc];
        replace (x - 1 + 1) with x in Hc by lia; replace (x - 1 - k + 1) with (x - k) in Hc by lia.
      + apply N2. replace (x - k - 1) with (x - 1 - k) by lia. lia.
      + apply N1. lia. }
  repeat split; try lia.
  - specialize (Hsn (r - x0) ltac:(lia) ltac:(lia)). now replace (x0 + (r - x0)) with r in Hsn by lia.
  - intros x Hx Hkx Hd. destruct (Z.le_gt_cases x r) as [Hle|Hgt]; [exact Hle|exfalso].
    revert Hd. replace x with (r + 1 + (x - r - 1)) by lia.
    apply (natlike_ind (fun t => dst (r + 1 + t) (r + 1 + t - k) <= d -> False)); [| |lia].
    + intro Hd. destruct (Hstep (r + 1 + 0) ltac:(lia) Hd) as [Hm _]. replace (r + 1 + 0 - 1) with r in Hm by lia. congruence.
    + intros t Ht IHt Hd. destruct (Hstep (r + 1 + Z.succ t) ltac:(lia) Hd) as [_ Hd'].
      apply IHt. now replace (r + 1 + t) with (r + 1 + Z.succ t - 1) by lia.
Qed.

Definition newx (fuel : nat) (d k vm vp : Z) : Z :=
  let x0 := if (k =? - d) || (negb (k =? d) && (vm <? vp)) then vp else vm + 1 in
  slide fuel cond m n x0 (x0 - k).

(* entering diagonal k from the furthest point of round d - 1 on k + 1 or k - 1: the point reached costs at most d,
   and beyond it no cheaper point enters k by the same move *)
Lemma enter_down d k vp : Vok (d - 1) (k + 1) vp ->
  0 <= vp /\ k <= vp /\ dst vp (vp - k) <= d /\ forall x, vp < x -> ~ dst x (x - k - 1) <= d - 1.
Proof.
  intros [P1 [P2 [P3 P4]]]. repeat split; try lia.
  - pose proof (H_d vp (vp - (k + 1)) ltac:(lia) ltac:(lia)) as H.
    replace (vp - (k + 1) + 1) with (vp - k) in H by lia. lia.
  - intros x Hx H. specialize (P4 x ltac:(lia) ltac:(lia)). replace (x - (k + 1)) with (x - k - 1) in P4 by lia.
    specialize (P4 H). lia.
Qed.

Lemma enter_right d k vm : Vok (d - 1) (k - 1) vm ->
  0 <= vm + 1 /\ k <= vm + 1 /\ dst (vm + 1) (vm + 1 - k) <= d /\ forall x, vm + 1 < x -> ~ dst (x - 1) (x - k) <= d - 1.
Proof.
  intros [P1 [P2 [P3 P4]]]. repeat split; try lia.
  - pose proof (H_r vm (vm - (k - 1)) ltac:(lia) ltac:(lia)) as H.
    replace (vm + 1 - k) with (vm - (k - 1)) by lia. lia.
  - intros x Hx H. specialize (P4 (x - 1) ltac:(lia) ltac:(lia)). replace (x - 1 - (k - 1)) with (x - k) in P4 by lia.
    specialize (P4 H). lia.
Qed.

Lemma newx_ok fuel d k vm vp : m < Z.of_nat fuel -> 0 <= d -> - d <= k <= d ->
  (d = 0 -> vp = 0) ->
  (1 <= d -> - d < k -> Vok (d - 1) (k - 1) vm) ->
  (1 <= d -> k < d -> Vok (d - 1) (k + 1) vp) ->
  Vok d k (newx fuel d k vm vp).
Proof.
  intros Hf Hd Hk H0 Hm Hp. unfold newx.
  assert (Elo : k = - d -> forall x, 0 < x -> k < x -> ~ dst (x - 1) (x - k) <= d - 1).
  { intros Ek x G1 G2 H. pose proof (H_ge (x - 1) (x - k) ltac:(lia) ltac:(lia)). lia. }
  assert (Ehi : k = d -> forall x, 0 < x -> k < x -> ~ dst x (x - k - 1) <= d - 1).
  { intros Ek x G1 G2 H. pose proof (H_ge x (x - k - 1) ltac:(lia) ltac:(lia)). lia. }
  destruct (Z.eqb_spec k (- d)) as [E1|E1]; cbn [orb].
  - destruct (Z.eq_dec d 0) as [Hd0|Hd0].
    + rewrite (H0 Hd0). apply slide_Vok; try lia; [|intros x Hx; apply Elo; lia|intros x Hx; apply Ehi; lia].
      replace (0 - k) with 0 by lia. rewrite H_00. lia.
    + destruct (enter_down d k vp (Hp ltac:(lia) ltac:(lia))) as (A1 & A2 & A3 & A4).
      apply slide_Vok; auto; try lia. intros x Hx. apply Elo; lia.
  - destruct (Z.eqb_spec k d) as [E2|E2]; cbn [negb andb].
    + destruct (enter_right d k vm (Hm ltac:(lia) ltac:(lia))) as (B1 & B2 & B3 & B4).
      apply slide_Vok; auto; try lia. intros x Hx. apply Ehi; lia.
    + destruct (enter_down d k vp (Hp ltac:(lia) ltac:(lia))) as (A1 & A2 & A3 & A4).
      destruct (enter_right d k vm (Hm ltac:(lia) ltac:(lia))) as (B1 & B2 & B3 & B4).
      destruct (Z.ltb_spec vm vp); apply slide_Vok; auto; try lia; intros x Hx; [apply B4|apply A4]; lia.
Qed.
End Greedy.
