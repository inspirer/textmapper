(* The set algebra of Util/IntSet.v (sorted lists, possibly standing for their complement) computes union,
   intersection and complement of the denoted subsets of Z and keeps the lists sorted. *)
From Coq Require Import List ZArith Bool Lia.
From TM Require Import Util.IntSet.
Import ListNotations.
Local Open Scope Z_scope.

Definition sorted (l : list Z) : Prop := sortedb l = true.
Definition wf (s : intset) : Prop := sorted (elems s).

Definition lb (v : Z) (l : list Z) : Prop := forall y, In y l -> v < y.
Definition lbe (v : Z) (l : list Z) : Prop := forall y, In y l -> v <= y.

Lemma sorted_cons_inv x l : sorted (x :: l) -> sorted l /\ lb x l.
Proof.
  revert x; induction l as [|y l IH]; intros x H.
  - split; [reflexivity | intros ? []].
  - unfold sorted in *. cbn [sortedb] in H. apply andb_true_iff in H as [Hxy Hs].
    apply Z.ltb_lt in Hxy. split; [exact Hs|].
    destruct (IH y Hs) as [_ Hlb]. intros z [->|Hz]; [exact Hxy|]. exact (Z.lt_trans _ _ _ Hxy (Hlb z Hz)).
Qed.

Lemma sorted_cons x l : sorted l -> lb x l -> sorted (x :: l).
Proof.
  intros Hs Hlb. destruct l as [|y l]; [reflexivity|].
  unfold sorted in *. cbn [sortedb]. apply andb_true_iff. split; [|exact Hs].
  apply Z.ltb_lt. apply Hlb. left; reflexivity.
Qed.

Lemma sorted_tail x l : sorted (x :: l) -> sorted l.
Proof. intro H; apply (sorted_cons_inv x l H). Qed.

Lemma span_lt_app v b : b = fst (span_lt v b) ++ snd (span_lt v b).
Proof.
  induction b as [|x b IH]; cbn [span_lt]; [reflexivity|].
  destruct (x <? v); [|reflexivity].
  destruct (span_lt v b) as [p r]; cbn [fst snd app] in *. now rewrite <- IH.
Qed.

Lemma span_lt_fst v b : forall y, In y (fst (span_lt v b)) -> y < v.
Proof.
  induction b as [|x b IH]; cbn [span_lt]; [intros ? []|].
  destruct (x <? v) eqn:E; [|intros ? []].
  destruct (span_lt v b) as [p r]; cbn [fst snd] in *.
  intros y [->|Hy]; [now apply Z.ltb_lt | now apply IH].
Qed.

Lemma span_lt_snd v b : sorted b -> lbe v (snd (span_lt v b)).
Proof.
  induction b as [|x b IH]; cbn [span_lt]; intro Hs; [intros ? []|].
  destruct (x <? v) eqn:E.
  - specialize (IH (sorted_tail _ _ Hs)). destruct (span_lt v b) as [p r]; exact IH.
  - cbn [snd]. apply Z.ltb_ge in E. destruct (sorted_cons_inv _ _ Hs) as [_ Hlb].
    intros y [->|Hy]; [lia|]. specialize (Hlb y Hy). lia.
Qed.

Lemma span_lt_snd_sorted v b : sorted b -> sorted (snd (span_lt v b)).
Proof.
  induction b as [|x b IH]; cbn [span_lt]; intro Hs; [reflexivity|].
  destruct (x <? v); [|exact Hs].
  specialize (IH (sorted_tail _ _ Hs)). destruct (span_lt v b); exact IH.
Qed.

Lemma in_span v b y : In y b <-> In y (fst (span_lt v b)) \/ In y (snd (span_lt v b)).
Proof. rewrite <- in_app_iff. now rewrite <- span_lt_app. Qed.

Lemma in_drop_eq v r y : In y r -> v = y \/ In y (drop_eq v r).
Proof.
  destruct r as [|x r]; cbn [drop_eq]; [intros []|].
  destruct (Z.eqb_spec x v) as [->|_]; [|now right]. intros [H|H]; [now left|now right].
Qed.

Lemma drop_eq_in v r y : In y (drop_eq v r) -> In y r.
Proof. destruct r as [|x r]; cbn [drop_eq]; [trivial|]. destruct (x =? v); [now right|trivial]. Qed.

Lemma combine_in a : forall b y, In y (combine a b) <-> In y a \/ In y b.
Proof.
  induction a as [|v a IH]; intros b y; cbn [combine]; [split; [now right|intros [[]|H]; exact H]|].
  rewrite (surjective_pairing (span_lt v b)), in_app_iff, (in_span v b y). cbn [In]. split.
  - intros [H|[H|H]]; [right; now left|left; now left|].
    apply IH in H as [H|H]; [left; now right|right; right; eapply drop_eq_in; eauto].
  - intros [[H|H]|[H|H]]; [right; now left|right; right; apply IH; now left|now left|right].
    destruct (in_drop_eq v _ y H); [now left|right; apply IH; now right].
Qed.

Lemma sorted_app p l : sorted p -> sorted l -> (forall x y, In x p -> In y l -> x < y) -> sorted (p ++ l).
Proof.
  induction p as [|x p IH]; intros Hp Hl H; [exact Hl|].
  cbn [app]. destruct (sorted_cons_inv _ _ Hp) as [Hp' Hlb].
  apply sorted_cons.
  - apply IH; [exact Hp'|exact Hl|]. intros; apply H; [now right|assumption].
  - intros y Hy. apply in_app_iff in Hy as [Hy|Hy]; [now apply Hlb|]. apply H; [now left|exact Hy].
Qed.

Lemma span_lt_fst_sorted v b : sorted b -> sorted (fst (span_lt v b)).
Proof.
  induction b as [|x b IH]; cbn [span_lt]; intro Hs; [reflexivity|].
  destruct (x <? v); [|reflexivity].
  destruct (sorted_cons_inv _ _ Hs) as [Hs' Hlb]. specialize (IH Hs').
  pose proof (span_lt_app v b) as Happ.
  destruct (span_lt v b) as [p r]; cbn [fst snd] in *.
  apply sorted_cons; [exact IH|]. intros y Hy. apply Hlb. rewrite Happ. apply in_or_app; now left.
Qed.

Lemma drop_eq_sorted v r : sorted r -> sorted (drop_eq v r).
Proof. destruct r as [|x r]; cbn [drop_eq]; [trivial|]. destruct (x =? v); [apply sorted_tail|trivial]. Qed.

Lemma drop_eq_lb v r : sorted r -> lbe v r -> lb v (drop_eq v r).
Proof.
  destruct r as [|x r]; cbn [drop_eq]; intros Hs Hl; [intros ? []|].
  destruct (x =? v) eqn:E.
  - apply Z.eqb_eq in E; subst. apply (sorted_cons_inv _ _ Hs).
  - apply Z.eqb_neq in E. intros y Hy. destruct Hy as [->|Hy].
    + specialize (Hl y (or_introl eq_refl)). lia.
    + destruct (sorted_cons_inv _ _ Hs) as [_ Hlb]. specialize (Hlb y Hy).
      specialize (Hl x (or_introl eq_refl)). lia.
Qed.

Lemma combine_sorted a : forall b, sorted a -> sorted b -> sorted (combine a b).
Proof.
  induction a as [|v a IH]; intros b Ha Hb; cbn [combine]; [exact Hb|].
  rewrite (surjective_pairing (span_lt v b)).
  destruct (sorted_cons_inv _ _ Ha) as [Ha' Hlb].
  pose proof (span_lt_snd v b Hb) as Hr. pose proof (span_lt_snd_sorted v b Hb) as Hrs.
  apply sorted_app.
  - now apply span_lt_fst_sorted.
  - apply sorted_cons.
    + apply IH; [exact Ha'|now apply drop_eq_sorted].
    + intros y Hy. apply combine_in in Hy as [Hy|Hy]; [now apply Hlb|].
      now apply (drop_eq_lb v _ Hrs Hr).
  - intros x y Hx Hy. apply span_lt_fst in Hx. destruct Hy as [->|Hy]; [exact Hx|].
    apply combine_in in Hy as [Hy|Hy].
    + specialize (Hlb y Hy). lia.
    + specialize (drop_eq_lb v _ Hrs Hr y Hy). lia.
Qed.

Lemma existsb_eqb_in x l : existsb (Z.eqb x) l = true <-> In x l.
Proof.
  rewrite existsb_exists. split.
  - intros [y [Hy E]]. apply Z.eqb_eq in E. now subst.
  - intro H. exists x. split; [exact H|apply Z.eqb_refl].
Qed.

(* The part of b that span_lt cuts off lies below v, hence below every later element of a; what is left
   starts with v exactly when v occurs in b. *)
Lemma span_cut v a b : sorted (v :: a) -> sorted b ->
  head_eq v (snd (span_lt v b)) = existsb (Z.eqb v) b /\
  forall z, In z a -> existsb (Z.eqb z) (snd (span_lt v b)) = existsb (Z.eqb z) b.
Proof.
  intros Ha Hb. destruct (sorted_cons_inv _ _ Ha) as [_ Hlb].
  pose proof (span_lt_fst v b) as Hp. pose proof (span_lt_snd v b Hb) as Hr.
  pose proof (span_lt_snd_sorted v b Hb) as Hrs.
  assert (Hcut : forall z, v <= z -> In z b -> In z (snd (span_lt v b))).
  { intros z Hz H. apply (in_span v) in H as [H|H]; [specialize (Hp z H); lia|exact H]. }
  assert (Hhead : head_eq v (snd (span_lt v b)) = true <-> In v b).
  { split.
    - intro E. apply (in_span v). right. destruct (snd (span_lt v b)) as [|x r]; [discriminate|].
      apply Z.eqb_eq in E. now left.
    - intro H. apply (Hcut v (Z.le_refl v)) in H. destruct (snd (span_lt v b)) as [|x r]; [destruct H|].
      cbn [head_eq]. apply Z.eqb_eq. destruct H as [H|H]; [exact H|].
      pose proof (proj2 (sorted_cons_inv _ _ Hrs) v H). pose proof (Hr x (or_introl eq_refl)). lia. }
  assert (Hlater : forall z, In z a -> (In z (snd (span_lt v b)) <-> In z b)).
  { intros z Hz. split; [intro H; apply (in_span v); now right|apply Hcut]. specialize (Hlb z Hz). lia. }
  split; [|intros z Hz]; apply eq_true_iff_eq; rewrite ?existsb_eqb_in; [exact Hhead|now apply Hlater].
Qed.

Lemma intersect_filter a : forall b, sorted a -> sorted b ->
  intersect a b = filter (fun z => existsb (Z.eqb z) b) a.
Proof.
  induction a as [|v a IH]; intros b Ha Hb; [reflexivity|]. cbn [intersect filter].
  destruct (span_cut v a b Ha Hb) as [Hh Hc].
  rewrite (IH _ (sorted_tail _ _ Ha) (span_lt_snd_sorted v b Hb)), (filter_ext_in _ _ _ Hc), Hh.
  reflexivity.
Qed.

Lemma subtract_filter a : forall b, sorted a -> sorted b ->
  subtract a b = filter (fun z => negb (existsb (Z.eqb z) b)) a.
Proof.
  induction a as [|v a IH]; intros b Ha Hb; [reflexivity|]. cbn [subtract filter].
  destruct (span_cut v a b Ha Hb) as [Hh Hc].
  rewrite (IH _ (sorted_tail _ _ Ha) (span_lt_snd_sorted v b Hb)), Hh.
  rewrite (filter_ext_in _ (fun z => negb (existsb (Z.eqb z) b)) a) by (intros z Hz; now rewrite Hc).
  now destruct (existsb (Z.eqb v) b).
Qed.

Lemma sorted_filter p l : sorted l -> sorted (filter p l).
Proof.
  induction l as [|x l IH]; intro H; [reflexivity|]. destruct (sorted_cons_inv _ _ H) as [Hl Hlb].
  cbn [filter]. destruct (p x); [|now apply IH].
  apply sorted_cons; [now apply IH|]. intros y Hy. apply Hlb. now apply filter_In in Hy.
Qed.

Lemma intersect_in a b y : sorted a -> sorted b -> (In y (intersect a b) <-> In y a /\ In y b).
Proof. intros Ha Hb. now rewrite intersect_filter, filter_In, existsb_eqb_in. Qed.

Lemma subtract_in a b y : sorted a -> sorted b -> (In y (subtract a b) <-> In y a /\ ~ In y b).
Proof.
  intros Ha Hb. now rewrite subtract_filter, filter_In, negb_true_iff, <- not_true_iff_false, existsb_eqb_in.
Qed.

Lemma intersect_sorted a b : sorted a -> sorted b -> sorted (intersect a b).
Proof. intros Ha Hb. rewrite intersect_filter by assumption. now apply sorted_filter. Qed.

Lemma subtract_sorted a b : sorted a -> sorted b -> sorted (subtract a b).
Proof. intros Ha Hb. rewrite subtract_filter by assumption. now apply sorted_filter. Qed.

Definition den (s : intset) (x : Z) : Prop := if inverse s then ~ In x (elems s) else In x (elems s).

Lemma mem_den s x : mem x s = true <-> den s x.
Proof.
  unfold mem, den. destruct (inverse s).
  - rewrite negb_true_iff. rewrite <- not_true_iff_false. now rewrite existsb_eqb_in.
  - apply existsb_eqb_in.
Qed.

Lemma is_empty_den s : is_empty s = true -> forall x, ~ den s x.
Proof.
  unfold is_empty, den. destruct (elems s); [|discriminate].
  destruct (inverse s); [discriminate|]. intros _ x [].
Qed.

Theorem complement_spec s x : den (complement s) x <-> ~ den s x.
Proof.
  unfold den, complement; cbn. destruct (inverse s); cbn; [|tauto].
  destruct (in_dec Z.eq_dec x (elems s)); tauto.
Qed.

Theorem complement_wf s : wf s -> wf (complement s).
Proof. trivial. Qed.

(* De Morgan for the co-finite cases: membership in a list of integers is decidable *)
Lemma intersect_nin a b x : sorted a -> sorted b -> (~ In x (intersect a b) <-> ~ In x a \/ ~ In x b).
Proof.
  intros Ha Hb. rewrite (intersect_in _ _ _ Ha Hb). split.
  - intro H. destruct (in_dec Z.eq_dec x a) as [i|n]; [right; intro j; apply H; now split|now left].
  - intros [H|H] [i j]; contradiction.
Qed.

Lemma subtract_nin a b x : sorted a -> sorted b -> (~ In x (subtract a b) <-> ~ In x a \/ In x b).
Proof.
  intros Ha Hb. rewrite (subtract_in _ _ _ Ha Hb). split.
  - intro H. destruct (in_dec Z.eq_dec x b) as [i|n]; [now right|left; intro j; apply H; now split].
  - intros [H|H] [i j]; contradiction.
Qed.

Theorem merge_spec a b x : wf a -> wf b -> (den (set_merge a b) x <-> den a x \/ den b x).
Proof.
  intros Ha Hb. unfold set_merge.
  destruct (is_empty a) eqn:Ea.
  { split; [now right|intros [H|H]; [now apply is_empty_den in H|exact H]]. }
  destruct (is_empty b) eqn:Eb.
  { split; [now left|intros [H|H]; [exact H|now apply is_empty_den in H]]. }
  unfold den. destruct (inverse a), (inverse b); cbn [inverse elems].
  - now apply intersect_nin.
  - now apply subtract_nin.
  - rewrite or_comm. now apply subtract_nin.
  - apply combine_in.
Qed.

Theorem merge_wf a b : wf a -> wf b -> wf (set_merge a b).
Proof.
  intros Ha Hb. unfold set_merge, wf.
  destruct (is_empty a); [exact Hb|]. destruct (is_empty b); [exact Ha|].
  destruct (inverse a), (inverse b); cbn [elems];
    auto using intersect_sorted, subtract_sorted, combine_sorted.
Qed.

Theorem intersect_spec a b x : wf a -> wf b -> (den (set_intersect a b) x <-> den a x /\ den b x).
Proof.
  intros Ha Hb. unfold set_intersect.
  destruct (is_empty a) eqn:Ea.
  { split; [intros []|intros [H _]; now apply is_empty_den in H]. }
  destruct (is_empty b) eqn:Eb.
  { split; [intros []|intros [_ H]; now apply is_empty_den in H]. }
  cbn [orb]. unfold den. destruct (inverse a), (inverse b); cbn [inverse elems].
  - rewrite combine_in. split; [intro H; split; intro i; apply H; [now left|now right]|intros [H1 H2] [i|i]; contradiction].
  - rewrite and_comm. apply (subtract_in _ _ _ Hb Ha).
  - apply (subtract_in _ _ _ Ha Hb).
  - apply (intersect_in _ _ _ Ha Hb).
Qed.

Theorem intersect_wf a b : wf a -> wf b -> wf (set_intersect a b).
Proof.
  intros Ha Hb. unfold set_intersect, wf.
  destruct (is_empty a || is_empty b); [reflexivity|].
  destruct (inverse a), (inverse b); cbn [elems];
    auto using intersect_sorted, subtract_sorted, combine_sorted.
Qed.

Lemma list_eqb_eq a : forall b, list_eqb a b = true <-> a = b.
Proof.
  induction a as [|x a IH]; destruct b as [|y b]; cbn [list_eqb]; try (split; [discriminate|discriminate]); [tauto|].
  rewrite andb_true_iff, Z.eqb_eq, IH. split; [intros [-> ->]; reflexivity|intros [= -> ->]; auto].
Qed.

Theorem equals_spec a b : set_equals a b = true <-> a = b.
Proof.
  unfold set_equals. rewrite andb_true_iff, list_eqb_eq, Bool.eqb_true_iff.
  destruct a, b; cbn. split; [intros [-> ->]; reflexivity|intros [= -> ->]; auto].
Qed.
