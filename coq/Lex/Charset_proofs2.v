(* fold (lex/charset.go): the folded set is the union of the fold orbits of the members.  One direction holds for every
   fold function; the other when the orbits are cycles that the orbit loop walks completely (closes). *)
From Coq Require Import List ZArith Bool Lia.
From TM Require Import Lex.Charset Lex.Charset_proofs.
Import ListNotations.
Local Open Scope Z_scope.

Lemma nat_iter_succ_r {A} (f : A -> A) k x : Nat.iter (S k) f x = Nat.iter k f (f x).
Proof. induction k as [|k IH]; [reflexivity|]. cbn [Nat.iter nat_rect] in *. rewrite IH. reflexivity. Qed.

Lemma iter_plus {A} (f : A -> A) a b x : Nat.iter (a + b) f x = Nat.iter a f (Nat.iter b f x).
Proof.
  induction a as [|a IH]; [reflexivity|].
  change (f (Nat.iter (a + b) f x) = f (Nat.iter a f (Nat.iter b f x))). rewrite IH. reflexivity.
Qed.

Lemma valid_lower_bound (l : charset) : (forall p, In p l -> valid p) -> exists m, forall p, In p l -> m <= fst p <= snd p.
Proof.
  induction l as [|a l IH]; intros H; [exists 0; intros p []|].
  destruct IH as (m & Hm); [intros p Hp; apply H; right; exact Hp|].
  exists (Z.min m (fst a)). intros p [Hp|Hp].
  - subst. specialize (H p (or_introl eq_refl)). unfold valid in H. lia.
  - specialize (Hm p Hp). lia.
Qed.

Section FoldExact.
  Variable sf : Z -> Z.

  Definition closes (n : nat) (c : Z) : Prop := exists k, (1 <= k <= n)%nat /\ Nat.iter k sf c = c.

  Definition justified (ascii : bool) (src : Z -> Prop) (x : Z) : Prop :=
    exists c k, src c /\ x = Nat.iter k sf c /\ (ascii = false \/ x < 128).

  Lemma justified_mono ascii (s s' : Z -> Prop) x : (forall c, s c -> s' c) -> justified ascii s x -> justified ascii s' x.
  Proof. intros Hi (c & k & Hc & Hk). exists c, k. split; [apply Hi, Hc|exact Hk]. Qed.

  Lemma orbit_add ascii f out : (forall p, In p out -> valid p) ->
    (forall p, In p (if ascii && (f >=? 128) then out else append_range_rev out f f) -> valid p) /\
    forall x, mem x (if ascii && (f >=? 128) then out else append_range_rev out f f) =
              mem x out || (x =? f) && negb (ascii && (f >=? 128)).
  Proof.
    intros Hv. destruct (ascii && (f >=? 128)).
    - split; [exact Hv|]. intros x. rewrite andb_false_r, orb_false_r. reflexivity.
    - split; [apply append_range_rev_valid; [lia|exact Hv]|].
      intros x. rewrite append_range_rev_mem by (try lia; exact Hv). zb.
  Qed.

  (* the orbit loop adds f, sf f, ... and nothing else; it leaves out none of them before it meets c or runs out of fuel *)
  Lemma fold_orbit_props n : forall ascii c f out, (forall p, In p out -> valid p) ->
    (forall p, In p (fold_orbit sf n ascii c f out) -> valid p) /\
    (forall x, mem x out = true -> mem x (fold_orbit sf n ascii c f out) = true) /\
    (forall x, mem x (fold_orbit sf n ascii c f out) = true ->
       mem x out = true \/ (exists k, x = Nat.iter k sf f) /\ (ascii = false \/ x < 128)) /\
    (forall j, (j < n)%nat -> ascii = false \/ Nat.iter j sf f < 128 ->
       mem (Nat.iter j sf f) (fold_orbit sf n ascii c f out) = true \/ exists i, (i <= j)%nat /\ Nat.iter i sf f = c).
  Proof.
    induction n as [|n IH]; intros ascii c f out Hv; cbn [fold_orbit].
    - splits; auto. intros; lia.
    - destruct (Z.eqb_spec f c) as [E|N].
      { splits; auto. intros j _ _. right. exists 0%nat. split; [lia|exact E]. }
      destruct (orbit_add ascii f out Hv) as (Hv' & Hm).
      destruct (IH ascii c (sf f) _ Hv') as (I1 & I2 & I3 & I4). splits.
      + exact I1.
      + intros x Hx. apply I2. rewrite Hm, Hx. reflexivity.
      + intros x Hx. destruct (I3 x Hx) as [Ho|((k & Hk) & Hf)].
        * rewrite Hm in Ho. destruct (mem x out); [left; reflexivity|right].
          split; [exists 0%nat; cbn; lia|lia].
        * right. split; [|assumption]. exists (S k). rewrite nat_iter_succ_r. assumption.
      + intros [|j] Hj Hf.
        * left. apply I2. rewrite Hm. cbn in Hf |- *. lia.
        * rewrite nat_iter_succ_r in Hf |- *.
          destruct (I4 j ltac:(lia) Hf) as [Hin|(i & Hi & Ei)]; [left; exact Hin|right].
          exists (S i). split; [lia|]. rewrite nat_iter_succ_r. exact Ei.
  Qed.

  (* res is out plus the orbits of the code points in src: nothing lost, what is new lies on such an orbit, and orbits
     that close within n steps are there entirely *)
  Definition folded (n : nat) (ascii : bool) (src : Z -> Prop) (out res : charset) : Prop :=
    (forall p, In p out -> valid p) ->
    (forall p, In p res -> valid p) /\
    (forall x, mem x out = true -> mem x res = true) /\
    (forall x, mem x res = true -> mem x out = true \/ justified ascii src x) /\
    ((forall c, src c -> closes n c) -> forall c j, src c -> ascii = false \/ Nat.iter j sf c < 128 ->
       Nat.iter j sf c = c \/ mem (Nat.iter j sf c) res = true).

  Lemma folded_nil n ascii src out : (forall c, ~ src c) -> folded n ascii src out out.
  Proof.
    intros Hs Hv. splits; auto. intros _ c j Hc. destruct (Hs c Hc).
  Qed.

  Lemma folded_app n ascii s1 s2 src o0 o1 o2 : folded n ascii s1 o0 o1 -> folded n ascii s2 o1 o2 ->
    (forall c, src c <-> s1 c \/ s2 c) -> folded n ascii src o0 o2.
  Proof.
    intros F1 F2 Hs Hv. destruct (F1 Hv) as (V1 & E1 & S1 & C1). destruct (F2 V1) as (V2 & E2 & S2 & C2). splits.
    - exact V2.
    - intros x Hx. apply E2, E1, Hx.
    - intros x Hx. destruct (S2 x Hx) as [Ho|Hj]; [destruct (S1 x Ho) as [?|Hj]; [left; assumption|]|];
        right; revert Hj; apply justified_mono; intros c Hc; apply Hs; auto.
    - intros Hcl c j Hc Hf. apply Hs in Hc. destruct Hc as [Hc|Hc].
      + destruct (C1 (fun c' H => Hcl c' (proj2 (Hs c') (or_introl H))) c j Hc Hf) as [E|Hm]; [left; exact E|right; apply E2, Hm].
      + apply C2; [|exact Hc|exact Hf]. intros c' H. apply Hcl, Hs. right. exact H.
  Qed.

  Lemma folded_ext n ascii s src out res : folded n ascii s out res -> (forall c, src c <-> s c) -> folded n ascii src out res.
  Proof.
    intros F Hs. apply (folded_app n ascii s (fun _ => False) src out res res F); [apply folded_nil; tauto|].
    intros c. rewrite Hs. tauto.
  Qed.

  (* Nat.iter j sf c of a closing orbit is c itself or comes before the orbit loop is back at c: j is reduced by the
     period found until one of the two is seen *)
  Lemma folded_step n ascii c out : folded n ascii (eq c) out (fold_orbit sf n ascii c (sf c) out).
  Proof.
    intros Hv. destruct (fold_orbit_props n ascii c (sf c) out Hv) as (I1 & I2 & I3 & I4). splits; auto.
    - intros x Hx. destruct (I3 x Hx) as [?|((k & Hk) & Hf)]; [left; assumption|right].
      exists c, (S k). rewrite nat_iter_succ_r. auto.
    - intros Hcl c' j <-. destruct (Hcl c eq_refl) as (k & Hk & Ek).
      induction j as [j IHj] using lt_wf_ind. intros Hf. destruct j as [|j]; [left; reflexivity|].
      assert (Hred : forall p, (1 <= p <= S j)%nat -> Nat.iter p sf c = c ->
                Nat.iter (S j) sf c = c \/ mem (Nat.iter (S j) sf c) (fold_orbit sf n ascii c (sf c) out) = true).
      { intros p Hp Ep. replace (S j) with ((S j - p) + p)%nat in Hf |- * by lia.
        rewrite iter_plus, Ep in Hf |- *. apply IHj; [lia|exact Hf]. }
      destruct (Nat.lt_ge_cases j n) as [Hj|Hj]; [|apply (Hred k); [lia|exact Ek]].
      rewrite nat_iter_succ_r in Hf. destruct (I4 j Hj Hf) as [Hin|(i & Hi & Ei)].
      + right. rewrite nat_iter_succ_r. exact Hin.
      + apply (Hred (S i)); [lia|]. rewrite nat_iter_succ_r. exact Ei.
  Qed.

  Lemma folded_range n ascii lo p out :
    fst (Pos.iter (fold_step sf n ascii) (lo, out) p) = lo + Zpos p /\
    folded n ascii (fun c => lo <= c < lo + Zpos p) out (snd (Pos.iter (fold_step sf n ascii) (lo, out) p)).
  Proof.
    apply (Pos.iter_ind _ (fold_step sf n ascii) (lo, out)
      (fun p st => fst st = lo + Zpos p /\ folded n ascii (fun c => lo <= c < lo + Zpos p) out (snd st))).
    - unfold fold_step. cbn [fst snd]. split; [reflexivity|].
      apply (folded_ext n ascii (eq lo)); [apply folded_step|intros c; lia].
    - intros q [c0 o] (P1 & P2). cbn [fst snd] in *. subst c0. unfold fold_step. cbn [fst snd]. split; [lia|].
      eapply folded_app; [exact P2|apply folded_step|intros c; lia].
  Qed.

  Lemma folded_ranges n ascii r : forall out, folded n ascii (fun c => mem c r = true) out (fold_ranges sf n ascii r out).
  Proof.
    induction r as [|[lo hi] t IH]; intros out; cbn [fold_ranges].
    - apply folded_nil. intros c. discriminate.
    - apply (folded_app n ascii (fun c => lo <= c <= hi) (fun c => mem c t = true) _ _ (fold_range sf n ascii lo hi out));
        [|apply IH|intros c; rewrite mem_cons; zb].
      unfold fold_range, Z.iter. destruct (hi - lo + 1) as [|p|p] eqn:Ep; cbn [snd]; [apply folded_nil; intros c; lia| |apply folded_nil; intros c; lia].
      apply (folded_ext n ascii _ _ _ _ (proj2 (folded_range n ascii lo p out))). intros c. lia.
  Qed.

  Lemma fold_folded n cs ascii lb : (forall p, In p cs -> lb <= fst p <= snd p) ->
    exists out, (exists lb', wf_cs lb' (fold sf n cs ascii)) /\ (forall x, mem x (fold sf n cs ascii) = mem x out) /\
      (forall x, mem x cs = true -> mem x out = true) /\
      (forall x, mem x out = true -> mem x cs = true \/ justified ascii (fun c => mem c cs = true) x) /\
      ((forall c, mem c cs = true -> closes n c) -> forall c j, mem c cs = true -> ascii = false \/ Nat.iter j sf c < 128 ->
         Nat.iter j sf c = c \/ mem (Nat.iter j sf c) out = true).
  Proof.
    intros H. exists (fold_ranges sf n ascii cs (rev cs)).
    destruct (folded_ranges n ascii cs (rev cs)) as (V & E & S & C).
    { intros q Hq. apply in_rev in Hq. destruct (H q Hq). unfold valid. lia. }
    destruct (valid_lower_bound (rev (fold_ranges sf n ascii cs (rev cs)))) as (m & Hm).
    { intros p Hp. apply V, in_rev, Hp. }
    destruct (new_charset_spec _ m Hm) as (Hwf & Hmem). splits.
    - exists m. exact Hwf.
    - intros x. unfold fold. rewrite Hmem. apply mem_rev.
    - intros x Hx. apply E. rewrite mem_rev. exact Hx.
    - intros x Hx. rewrite <- (mem_rev x cs). apply S, Hx.
    - exact C.
  Qed.

  Theorem fold_sound_and_extensive : forall n cs ascii lb, (forall p, In p cs -> lb <= fst p <= snd p) ->
    (forall x, mem x cs = true -> mem x (fold sf n cs ascii) = true) /\
    (forall x, mem x (fold sf n cs ascii) = true ->
       mem x cs = true \/ exists c k, mem c cs = true /\ x = Nat.iter k sf c /\ (ascii = false \/ x < 128)).
  Proof.
    intros n cs ascii lb H. destruct (fold_folded n cs ascii lb H) as (out & _ & M & E & S & _).
    split; intros x; rewrite M; [apply E|apply S].
  Qed.

  (* when the fold orbit of every member closes within n (SimpleFold walks a cycle): normal form, and x is in the result
     iff it is a member or on the orbit of one (in bytes mode, below 0x80) *)
  Theorem fold_exact : forall n cs ascii lb, (forall p, In p cs -> lb <= fst p <= snd p) ->
    (forall c, mem c cs = true -> closes n c) ->
    (exists lb', wf_cs lb' (fold sf n cs ascii)) /\
    forall x, mem x (fold sf n cs ascii) = true <->
      (mem x cs = true \/ exists c j, mem c cs = true /\ x = Nat.iter j sf c /\ (ascii = false \/ x < 128)).
  Proof.
    intros n cs ascii lb H Hcl. destruct (fold_folded n cs ascii lb H) as (out & W & M & E & S & C).
    split; [exact W|]. intros x. rewrite M. split; [apply S|].
    intros [Hx|(c & j & Hc & -> & Hf)]; [apply E, Hx|].
    destruct (C Hcl c j Hc Hf) as [Ej|Hin]; [rewrite Ej; apply E, Hc|exact Hin].
  Qed.
End FoldExact.
