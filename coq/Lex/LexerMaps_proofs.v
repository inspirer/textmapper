(* C11 rune_class_lookup: the tables emitted for a symbol map give the plain symbol-map lookup. *)
From Coq Require Import List ZArith Bool Lia.
From TM Require Import Lex.Tables Lex.Tables_proofs Lex.LexerMaps.
Import ListNotations.
Local Open Scope Z_scope.

Fixpoint sorted_from (prev : Z) (m : list (Z * Z)) : Prop :=
  match m with
  | [] => True
  | (s, _) :: rest => prev < s /\ sorted_from s rest
  end.

(* a symbol map as lex.Compile builds it: starts at 0, strictly increasing starts *)
Definition sorted_map (m : list (Z * Z)) : Prop :=
  match m with
  | (s0, _) :: rest => s0 = 0 /\ sorted_from 0 rest
  | [] => False
  end.

(* value at r when `target` holds before the first start of m *)
Fixpoint val (target : Z) (m : list (Z * Z)) (r : Z) : Z :=
  match m with
  | [] => target
  | (s, tg) :: rest => if r <? s then target else val tg rest r
  end.

Lemma lookup_val rest : forall s0 t0 r, sorted_from s0 rest -> lookup_sym ((s0, t0) :: rest) r = val t0 rest r.
Proof.
  induction rest as [|[s1 t1] rest IH]; intros s0 t0 r Hs; [reflexivity|].
  cbn [lookup_sym val]. cbn in Hs. destruct Hs as [H1 H2].
  rewrite Z.gtb_ltb. destruct (Z.ltb_spec r s1) as [|Hge]; [reflexivity|]. exact (IH s1 t1 r H2).
Qed.

Lemma sorted_last rest : forall s t, sorted_from s rest -> s <= last_start ((s, t) :: rest).
Proof.
  induction rest as [|[s1 t1] rest IH]; intros s t H; [unfold last_start; cbn; lia|].
  cbn in H. destruct H as [H1 H2]. specialize (IH s1 t1 H2). unfold last_start in *. cbn [last] in *. lia.
Qed.

Lemma sorted_le_last m : forall p e, sorted_from p m -> In e m -> fst e <= last_start m.
Proof.
  induction m as [|[s t] rest IH]; intros p e Hs Hin; [destruct Hin|].
  cbn in Hs. destruct Hs as [_ Hs]. destruct Hin as [<-|Hin].
  - apply sorted_last. exact Hs.
  - destruct rest as [|e1 rest']; [destruct Hin|]. exact (IH s e Hs Hin).
Qed.

Lemma nth_repeat' {A} (a d : A) n k : (k < n)%nat -> nth k (repeat a n) d = a.
Proof. revert k. induction n as [|n IH]; intros k H; [lia|]. destruct k; [reflexivity|]. cbn. apply IH. lia. Qed.

Lemma sym_arr_loop_spec m : forall index target size,
  0 <= index <= size -> sorted_from (index - 1) m -> (m = [] -> index = size) -> (m <> [] -> size <= last_start m) ->
  Z.of_nat (length (sym_arr_loop m index target size)) = size - index /\
  forall r, index <= r < size -> nth (Z.to_nat (r - index)) (sym_arr_loop m index target size) 0 = val target m r.
Proof.
  induction m as [|[st tg] rest IH]; intros index target size Hi Hs He Hl.
  - cbn. specialize (He eq_refl). split; [lia|]. intros r Hr. lia.
  - cbn [sym_arr_loop val]. cbn in Hs. destruct Hs as [Hs1 Hs2].
    set (stop := if st <? size then st else size).
    assert (Hstop : index <= stop <= size /\ stop <= st) by (subst stop; destruct (Z.ltb_spec st size); lia).
    assert (Hidx : (if index <? stop then stop else index) = stop) by (destruct (Z.ltb_spec index stop); lia).
    rewrite Hidx.
    destruct (Z.eqb_spec stop size) as [Heq|Hneq].
    + rewrite app_nil_r, repeat_length. split; [lia|]. intros r Hr.
      rewrite nth_repeat' by lia. destruct (Z.ltb_spec r st); [reflexivity|lia].
    + assert (Hst : stop = st) by (subst stop; destruct (Z.ltb_spec st size); lia).
      destruct (IH st tg size) as (L & N).
      * lia.
      * destruct rest as [|[s1 t1] r1]; [exact I|]. cbn in *. destruct Hs2. split; [lia|assumption].
      * intros ->. specialize (Hl ltac:(congruence)). unfold last_start in Hl. cbn in Hl. lia.
      * intros Hne. specialize (Hl ltac:(congruence)). destruct rest as [|e r1]; [congruence|]. exact Hl.
      * rewrite Hst in *. rewrite app_length, repeat_length. split; [lia|]. intros r Hr.
        destruct (Z.ltb_spec r st) as [Hlt|Hge].
        -- rewrite app_nth1 by (rewrite repeat_length; lia). apply nth_repeat'. lia.
        -- rewrite app_nth2 by (rewrite repeat_length; lia). rewrite repeat_length.
           replace (Z.to_nat (r - index) - Z.to_nat (st - index))%nat with (Z.to_nat (r - st)) by lia.
           apply N. lia.
Qed.

Lemma symbol_arr_spec m max_rune : sorted_map m -> 0 <= max_rune ->
  let size := if negb (max_rune =? 0) && (max_rune <? last_start m) then max_rune else last_start m in
  Z.of_nat (length (symbol_arr m max_rune)) = size /\
  forall r, 0 <= r < size -> nth (Z.to_nat r) (symbol_arr m max_rune) 0 = lookup_sym m r.
Proof.
  intros Hs Hm. destruct m as [|[s0 t0] rest]; [destruct Hs|]. destruct Hs as [-> Hs].
  destruct rest as [|e1 rest'].
  - cbn [symbol_arr length]. unfold last_start. cbn. destruct (negb (max_rune =? 0) && (max_rune <? 0)) eqn:E.
    + apply andb_true_iff in E. destruct E as [_ E]. apply Z.ltb_lt in E. lia.
    + split; [reflexivity|]. intros r Hr. lia.
  - set (m := (0, t0) :: e1 :: rest') in *. cbn zeta.
    set (size := if negb (max_rune =? 0) && (max_rune <? last_start m) then max_rune else last_start m).
    pose proof (sorted_last _ 0 t0 Hs) as Hlast. fold m in Hlast.
    assert (Hsz : 0 <= size <= last_start m).
    { subst size. destruct (negb (max_rune =? 0) && (max_rune <? last_start m)) eqn:E; [|lia].
      apply andb_true_iff in E. destruct E as [_ E]. apply Z.ltb_lt in E. lia. }
    change (symbol_arr m max_rune) with (sym_arr_loop m 0 0 size).
    destruct (sym_arr_loop_spec m 0 0 size) as (L & N).
    + lia.
    + unfold m. cbn. split; [lia|]. destruct e1 as [s1 t1]. cbn in Hs. cbn. destruct Hs. split; [lia|assumption].
    + unfold m. congruence.
    + intros _. lia.
    + split; [lia|]. intros r Hr. specialize (N r Hr). rewrite Z.sub_0_r in N. rewrite N.
      unfold m. cbn [val]. destruct (Z.ltb_spec r 0); [lia|]. symmetry. apply lookup_val. assumption.
Qed.

Lemma lookup_last m r : sorted_map m -> last_start m <= r -> lookup_sym m r = last_target m.
Proof.
  destruct m as [|[s0 t0] rest]; [destruct 1|]. intros [-> Hs] Hr. apply lookup_sym_last; [discriminate|].
  intros e He. assert (Hs' : sorted_from (-1) ((0, t0) :: rest)) by (split; [lia|exact Hs]).
  pose proof (sorted_le_last _ _ e Hs' He). lia.
Qed.

Definition ce_val (e : centry) (c : Z) : Z :=
  let i := c - ce_lo e in
  if i <? Z.of_nat (length (ce_vals e)) then nth (Z.to_nat i) (ce_vals e) 0 else ce_default e.

Definition rng (ranges : list centry) (k : Z) : centry := nth (Z.to_nat k) ranges dce.

Definition ranges_sorted (ranges : list centry) : Prop :=
  let n := Z.of_nat (length ranges) in
  (forall i, 0 <= i < n -> ce_lo (rng ranges i) <= ce_hi (rng ranges i)) /\
  (forall i j, 0 <= i -> i < j -> j < n -> ce_hi (rng ranges i) <= ce_lo (rng ranges j)).

Definition holds (ranges : list centry) (k c : Z) : Prop := ce_lo (rng ranges k) <= c < ce_hi (rng ranges k).

Lemma map_rune_loop_spec ranges d c : ranges_sorted ranges ->
  forall fuel lo hi, (Z.to_nat (hi - lo) < fuel)%nat -> 0 <= lo <= hi -> hi <= Z.of_nat (length ranges) ->
  (forall i, 0 <= i < lo -> ce_hi (rng ranges i) <= c) ->
  (forall i, hi <= i < Z.of_nat (length ranges) -> c < ce_lo (rng ranges i)) ->
  (forall k, 0 <= k < Z.of_nat (length ranges) -> holds ranges k c ->
     map_rune_loop fuel ranges d c lo hi = ce_val (rng ranges k) c) /\
  ((forall k, 0 <= k < Z.of_nat (length ranges) -> ~ holds ranges k c) -> map_rune_loop fuel ranges d c lo hi = d).
Proof.
  intros (Hv & Hs). induction fuel as [|f IH]; intros lo hi Hf Hlo Hhi Hbelow Habove; [lia|].
  cbn [map_rune_loop]. destruct (Z.ltb_spec lo hi) as [Hlt|Hge].
  - set (m := lo + (hi - lo) / 2). assert (Hm : lo <= m < hi) by (subst m; split; [|]; 
      [pose proof (Z.div_pos (hi - lo) 2); lia| assert ((hi - lo) / 2 < hi - lo) by (apply Z.div_lt; lia); lia]).
    fold (rng ranges m).
    destruct (Z.ltb_spec c (ce_lo (rng ranges m))) as [Hc1|Hc1].
    + apply IH; try lia; try assumption.
      intros i Hi. destruct (Z.eq_dec i m) as [->|]; [assumption|].
      pose proof (Hs m i ltac:(lia) ltac:(lia) ltac:(lia)). pose proof (Hv m ltac:(lia)). lia.
    + rewrite Z.geb_leb. destruct (Z.leb_spec (ce_hi (rng ranges m)) c) as [Hc2|Hc2].
      * apply IH; try lia; try assumption.
        intros i Hi. destruct (Z.eq_dec i m) as [->|]; [assumption|].
        destruct (Z_lt_ge_dec i lo); [apply Hbelow; lia|].
        pose proof (Hs i m ltac:(lia) ltac:(lia) ltac:(lia)). pose proof (Hv m ltac:(lia)). lia.
      * split.
        -- intros k Hk Hh. unfold holds in Hh.
           assert (k = m); [|subst k; reflexivity].
           destruct (Z_lt_ge_dec k m) as [Hkm|Hkm].
           { pose proof (Hs k m ltac:(lia) ltac:(lia) ltac:(lia)). lia. }
           destruct (Z.eq_dec k m); [assumption|].
           pose proof (Hs m k ltac:(lia) ltac:(lia) ltac:(lia)). lia.
        -- intros Hnone. exfalso. apply (Hnone m ltac:(lia)). unfold holds. lia.
  - split; [|reflexivity].
    intros k Hk Hh. unfold holds in Hh. exfalso.
    destruct (Z_lt_ge_dec k lo) as [Hkl|Hkl]; [specialize (Hbelow k ltac:(lia)); lia|].
    specialize (Habove k ltac:(lia)). lia.
Qed.

Theorem map_rune_spec ranges d c : ranges_sorted ranges ->
  (forall k, 0 <= k < Z.of_nat (length ranges) -> holds ranges k c -> map_rune ranges d c = ce_val (rng ranges k) c) /\
  ((forall k, 0 <= k < Z.of_nat (length ranges) -> ~ holds ranges k c) -> map_rune ranges d c = d).
Proof.
  intros Hs. unfold map_rune. apply map_rune_loop_spec; try assumption; try lia.
Qed.

Lemma rng_cons e t i : 0 <= i -> rng (e :: t) (i + 1) = rng t i.
Proof. intros Hi. unfold rng. replace (Z.to_nat (i + 1)) with (S (Z.to_nat i)) by lia. reflexivity. Qed.

Lemma sortedb_index ranges : forall lb, ranges_sortedb lb ranges = true ->
  (forall i, 0 <= i < Z.of_nat (length ranges) -> lb <= ce_lo (rng ranges i) /\ ce_lo (rng ranges i) <= ce_hi (rng ranges i)) /\
  (forall i j, 0 <= i -> i < j -> j < Z.of_nat (length ranges) -> ce_hi (rng ranges i) <= ce_lo (rng ranges j)).
Proof.
  induction ranges as [|e t IH]; intros lb H; [cbn; split; intros; lia|].
  cbn [ranges_sortedb] in H. apply andb_true_iff in H. destruct H as [H H3]. apply andb_true_iff in H. destruct H as [H1 H2].
  apply Z.leb_le in H1, H2. destruct (IH _ H3) as (I1 & I2). cbn [length]. split.
  - intros i Hi. destruct (Z.eq_dec i 0) as [->|Hn]; [cbn; lia|].
    replace i with ((i - 1) + 1) by lia. rewrite rng_cons by lia. destruct (I1 (i - 1) ltac:(lia)). lia.
  - intros i j Hi Hij Hj. replace j with ((j - 1) + 1) by lia. rewrite (rng_cons e t (j - 1)) by lia.
    destruct (Z.eq_dec i 0) as [->|Hn].
    + change (rng (e :: t) 0) with e. destruct (I1 (j - 1) ltac:(lia)). lia.
    + replace i with ((i - 1) + 1) by lia. rewrite rng_cons by lia. apply I2; lia.
Qed.

Theorem sortedb_sorted ranges lb : ranges_sortedb lb ranges = true -> ranges_sorted ranges.
Proof.
  intros H. destruct (sortedb_index ranges lb H) as (I1 & I2). split; [intros i Hi; apply (I1 i Hi)|exact I2].
Qed.
