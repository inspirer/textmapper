(* The model of lex/regexp.go below the grammar: hex/octal digit values, the saturating \\x accumulator, and pst_ok, the
   position invariant that next keeps (next_ok, next_err). *)
From Coq Require Import List ZArith Bool Lia.
From TM Require Import Lex.Tables Lex.Tables_proofs Lex.RegexParse.
Import ListNotations.
Local Open Scope Z_scope.

Definition is_hex_digit (c : Z) : Prop := 48 <= c <= 57 \/ 65 <= c <= 70 \/ 97 <= c <= 102.
Definition hex_value (c : Z) : Z := if c <=? 57 then c - 48 else if c <=? 70 then c - 55 else c - 87.

Lemma between_spec a b c : BoolSpec (a <= c <= b) (c < a \/ b < c) ((a <=? c) && (c <=? b)).
Proof. destruct (Z.leb_spec a c), (Z.leb_spec c b); constructor; lia. Qed.

Lemma hexval_spec c : (is_hex_digit c /\ hexval c = hex_value c /\ 0 <= hexval c < 16) \/ (~ is_hex_digit c /\ hexval c = -1).
Proof.
  unfold is_hex_digit, hexval, hex_value.
  destruct (between_spec 97 102 c); [|destruct (between_spec 65 70 c); [|destruct (between_spec 48 57 c)]];
    destruct (Z.leb_spec c 57), (Z.leb_spec c 70); lia.
Qed.

Lemma octval_spec c : (48 <= c <= 55 /\ octval c = c - 48) \/ (~ 48 <= c <= 55 /\ octval c = -1).
Proof. unfold octval. destruct (between_spec 48 55 c); lia. Qed.

(* the saturating accumulator never wraps: it is the exact value capped just above unicode.MaxRune *)
Lemma hex_acc_min v d : 0 <= v -> 0 <= d < 16 ->
  hex_acc (Z.min v (max_rune_u + 1)) d = Z.min (v * 16 + d) (max_rune_u + 1).
Proof.
  intros Hv Hd. unfold hex_acc. cbv zeta. rewrite Z.gtb_ltb.
  destruct (Z.ltb_spec max_rune_u (Z.min v (max_rune_u + 1) * 16 + d)); unfold max_rune_u in *; lia.
Qed.

Lemma hex_acc_exact ds : forall v, 0 <= v -> Forall (fun d => 0 <= d < 16) ds ->
  fold_left hex_acc ds (Z.min v (max_rune_u + 1)) = Z.min (fold_left (fun r d => r * 16 + d) ds v) (max_rune_u + 1).
Proof.
  induction ds as [|d ds IH]; intros v Hv Hd; [reflexivity|].
  inversion Hd as [|? ? Hd1 Hd2]; subst. cbn [fold_left].
  rewrite hex_acc_min by assumption. apply IH; [lia|assumption].
Qed.

Corollary hex_acc_in_range_iff ds : Forall (fun d => 0 <= d < 16) ds ->
  (fold_left hex_acc ds 0 <= max_rune_u <-> fold_left (fun r d => r * 16 + d) ds 0 <= max_rune_u) /\
  (fold_left hex_acc ds 0 <= max_rune_u -> fold_left hex_acc ds 0 = fold_left (fun r d => r * 16 + d) ds 0).
Proof.
  intros H. pose proof (hex_acc_exact ds 0 ltac:(lia) H) as E. change (Z.min 0 (max_rune_u + 1)) with 0 in E.
  rewrite E. lia.
Qed.

Definition pst_ok (p : pstate) : Prop :=
  0 <= p_off p <= p_scan p /\ p_scan p + Z.of_nat (length (p_rest p)) = Z.of_nat (length (p_src p)).

Lemma next_ok p p' : pst_ok p -> next p = Ok p' ->
  pst_ok p' /\ p_off p' = p_scan p /\ p_src p' = p_src p /\ p_scan p <= p_scan p'.
Proof.
  unfold pst_ok, next. intros (H1 & H2) E. destruct (p_rest p) as [|b t] eqn:Er; rewrite ?Er in H2.
  - inversion E; subst; cbn. cbn in H2. repeat split; lia.
  - destruct (b <? 128).
    + inversion E; subst; cbn. cbn [length] in H2. repeat split; lia.
    + pose proof (decode_rune_width (b :: t) ltac:(congruence)) as W.
      destruct (decode_rune (b :: t)) as [r w]. cbn [snd] in W.
      destruct ((r =? rune_error) && Nat.eqb w 1); [discriminate|]. inversion E; subst; cbn [p_off p_scan p_rest p_src].
      rewrite skipn_length. cbn [length] in *. repeat split; lia.
Qed.

Lemma next_err p m a e : pst_ok p -> next p = Err m a e -> 0 <= a <= e /\ e <= Z.of_nat (length (p_src p)).
Proof.
  unfold pst_ok, next. intros (H1 & H2) E. destruct (p_rest p) as [|b t] eqn:Er; [discriminate|]. rewrite ?Er in H2.
  destruct (b <? 128); [discriminate|]. destruct (decode_rune (b :: t)) as [r w].
  destruct ((r =? rune_error) && Nat.eqb w 1); [|discriminate]. inversion E; subst. cbn [length] in H2. lia.
Qed.
