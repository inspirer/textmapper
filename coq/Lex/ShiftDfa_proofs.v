(* C24: the packed shift-DFA scanner (shiftdfa.Pack, Scanner.Scan) agrees with the lexer tables it packs: 6-bit fields
   of a row read back; Pack accepts exactly under [packed]; what a cell encodes to; the two loops step by step. *)
From Coq Require Import List ZArith Bool Lia ZifyBool ZifyN.
From TM Require Import Lib.ListX Lex.Tables Lex.Tables_proofs Lex.ShiftDfa.
Import ListNotations.

Lemma small_bits x m : (x < 64 -> 6 <= m -> N.testbit x m = false)%N.
Proof.
  intros Hx Hm. rewrite <- (N.mod_small x (2 ^ 6)) by (change (2 ^ 6)%N with 64%N; exact Hx).
  now apply N.mod_pow2_bits_high.
Qed.

Lemma ones6_bits m : N.testbit 63 m = (m <? 6)%N.
Proof.
  change 63%N with (N.ones 6). destruct (m <? 6)%N eqn:E.
  - apply N.ones_spec_low. lia.
  - apply N.ones_spec_high. lia.
Qed.

Section Fields.
Local Open Scope N_scope.
Variable f : nat -> N.

Definition rowk (k : nat) : N :=
  fold_left (fun row st => N.lor row (N.shiftl (f st) (6 * N.of_nat st))) (seq 0 k) 0.

Lemma rowk_S k : rowk (S k) = N.lor (rowk k) (N.shiftl (f k) (6 * N.of_nat k)).
Proof. unfold rowk. rewrite seq_S, fold_left_app. reflexivity. Qed.

(* only the fields that were written have to be narrow *)
Lemma rowk_bits k : (forall i, (i < k)%nat -> f i < 64) -> forall n,
  N.testbit (rowk k) n =
  if n <? 6 * N.of_nat k then N.testbit (f (N.to_nat (n / 6))) (n mod 6) else false.
Proof.
  induction k as [|k IH]; intros Hk n.
  - cbn. destruct (n <? 0) eqn:E; [lia|reflexivity].
  - rewrite rowk_S, N.lor_spec, IH by (intros i Hi; apply Hk; lia).
    destruct (n <? 6 * N.of_nat k) eqn:E1.
    + rewrite N.shiftl_spec_low by lia. rewrite orb_false_r.
      destruct (n <? 6 * N.of_nat (S k)) eqn:E2; [reflexivity|lia].
    + rewrite N.shiftl_spec_high' by lia. cbn [orb].
      destruct (n <? 6 * N.of_nat (S k)) eqn:E2.
      * replace (N.to_nat (n / 6)) with k by lia.
        replace (n - 6 * N.of_nat k) with (n mod 6) by lia. reflexivity.
      * apply small_bits; [apply Hk|]; lia.
Qed.

Lemma rowk_field_lt k j : (forall i, (i < k)%nat -> f i < 64) -> (j < k)%nat ->
  N.land (N.shiftr (rowk k) (6 * N.of_nat j)) 63 = f j.
Proof.
  intros Hk Hj. apply N.bits_inj. intro m.
  rewrite N.land_spec, ones6_bits, N.shiftr_spec', rowk_bits by exact Hk.
  destruct (m <? 6) eqn:E.
  - rewrite andb_true_r. destruct (m + 6 * N.of_nat j <? 6 * N.of_nat k) eqn:E2; [|lia].
    replace (N.to_nat ((m + 6 * N.of_nat j) / 6)) with j by lia.
    replace ((m + 6 * N.of_nat j) mod 6) with m by lia. reflexivity.
  - rewrite andb_false_r. symmetry. apply small_bits; [apply Hk|]; lia.
Qed.

Hypothesis Hf : forall i, f i < 64.

Lemma rowk_field k j : (j < k)%nat -> N.land (N.shiftr (rowk k) (6 * N.of_nat j)) 63 = f j.
Proof. apply rowk_field_lt. intros i _. apply Hf. Qed.
End Fields.

Lemma shl64_small x k : (x < 64)%N -> (k <= 54)%N -> shl64 x k = N.shiftl x k.
Proof.
  intros Hx Hk. unfold shl64. apply N.mod_small. rewrite N.shiftl_mul_pow2.
  assert (2 ^ k <= 2 ^ 54)%N by (apply N.pow_le_mono_r; lia).
  change (2 ^ 54)%N with 18014398509481984%N in H. unfold two64. nia.
Qed.

Lemma land1_mod x y : N.land x 63 = y -> N.land x 1 = (y mod 2)%N.
Proof.
  intros <-. transitivity (N.land (N.land x 63) 1); [now rewrite <- N.land_assoc|]. exact (N.land_ones (N.land x 63) 1).
Qed.

Lemma last_indep {A} (l : list A) d d' : l <> [] -> last l d = last l d'.
Proof.
  induction l as [|x l IH]; intro H; [congruence|].
  destruct l as [|y l']; [reflexivity|]. cbn [last]. cbn [last] in IH. apply IH. discriminate.
Qed.

Local Open Scope Z_scope.

Lemma in_zseq n x : In x (zseq n) <-> 0 <= x < n.
Proof. apply in_map_of_nat_seq. Qed.

Lemma zseq_nth n i d : 0 <= i < n -> nth (Z.to_nat i) (zseq n) d = i.
Proof. intro H. unfold zseq. rewrite map_seq_nth by lia. lia. Qed.

Lemma nthZ_in (l : list Z) i : 0 <= i < Z.of_nat (length l) -> In (nthZ l i) l.
Proof.
  intro H. unfold nthZ. destruct (i <? 0) eqn:E; [lia|]. apply nth_In. lia.
Qed.

Lemma idx_range st sym states ns : 0 <= st < states -> 0 <= sym < ns -> 0 <= st * ns + sym < states * ns.
Proof. nia. Qed.

Lemma first_err_stuck (step : Z -> Z) l e : e <> 0 ->
  fold_left (fun err idx => if negb (err =? 0) then err else step idx) l e = e.
Proof.
  intro He. induction l as [|x l IH]; cbn [fold_left]; [reflexivity|].
  destruct (e =? 0) eqn:E; [lia|]. cbn [negb]. exact IH.
Qed.

Lemma first_err_zero_iff (step : Z -> Z) l :
  fold_left (fun err idx => if negb (err =? 0) then err else step idx) l 0 = 0 <->
  forall idx, In idx l -> step idx = 0.
Proof.
  induction l as [|x l IH]; cbn [fold_left In]; [tauto|]. cbn [Z.eqb negb].
  destruct (Z.eq_dec (step x) 0) as [E|E].
  - rewrite E, IH. split; [intros H idx [<-|Hin]; auto|intros H idx Hin; apply H; right; exact Hin].
  - rewrite (first_err_stuck step l _ E). split; [contradiction|]. intros H. apply H. left. reflexivity.
Qed.

Record packed (t : tables) (s : scanner) : Prop := {
  pk_states : num_states t <= 10;
  pk_bt : backtrack t = [];
  pk_sm : state_map t = [0];
  pk_ascii : fst (last (symbol_map t) (0, 0)) <= 128;
  pk_cells : forall idx, 0 <= idx < num_states t * num_symbols t ->
     exists e, enc_target (nthZ (dfa t) idx) = Some e /\ (idx mod num_symbols t = 0 -> Z.even e = false);
  pk_table : sc_table s = map (pack_row t (Z.to_nat (num_states t))) (zseq 256);
  pk_eoi : sc_on_eoi s = map (fun st => if (Z.of_nat st <? num_states t) then N.div (enc_cell t st 0) 2 else 0%N) (seq 0 11)
}.

Lemma cell_check_zero c m :
  match enc_target c with None => 5 | Some e => if (m =? 0) && Z.even e then 6 else 0 end = 0 <->
  exists e, enc_target c = Some e /\ (m = 0 -> Z.even e = false).
Proof.
  destruct (enc_target c) as [e|]; [|split; [discriminate|intros (e & H & _); discriminate]].
  split.
  - intros H. exists e. split; [reflexivity|]. intros ->. destruct (Z.even e); [discriminate|reflexivity].
  - intros (e' & [= <-] & H). destruct (Z.eqb_spec m 0) as [E|E]; [rewrite (H E)|]; reflexivity.
Qed.

(* [injection] on the equation below would first normalise the packed table *)
Lemma PackOk_inj a b : PackOk a = PackOk b -> a = b.
Proof. congruence. Qed.

Theorem pack_ok_iff t s : pack t = PackOk s <-> packed t s.
Proof.
  unfold pack. fold (num_states t). split.
  - destruct (num_states t >? 10) eqn:E1; [discriminate|].
    destruct (negb (Nat.eqb (length (backtrack t)) 0)) eqn:E2; [discriminate|].
    destruct (negb match state_map t with [0] => true | _ => false end) eqn:E3; [discriminate|].
    destruct (fst (last (symbol_map t) (0, 0)) >? 128) eqn:E4; [discriminate|].
    match goal with |- context [fold_left ?F ?L 0] => destruct (negb (fold_left F L 0 =? 0)) eqn:E5; [discriminate|] end.
    intros H. apply PackOk_inj in H. rewrite <- H. constructor; cbn [sc_table sc_on_eoi]; try reflexivity; try lia.
    + destruct (backtrack t); [reflexivity|discriminate].
    + destruct (state_map t) as [|[] [|? ?]]; try discriminate. reflexivity.
    + intros idx Hidx. apply cell_check_zero. apply negb_false_iff, Z.eqb_eq in E5.
      exact (proj1 (first_err_zero_iff _ _) E5 idx (proj2 (in_zseq _ _) Hidx)).
  - intros [H1 H2 H3 H4 H5 H6 H7].
    replace (num_states t >? 10) with false by lia.
    rewrite H2, H3. cbn [length Nat.eqb negb].
    replace (fst (last (symbol_map t) (0, 0)) >? 128) with false by lia.
    rewrite (proj2 (first_err_zero_iff _ _)).
    + cbn [Z.eqb negb]. destruct s as [tb eoi]. cbn [sc_table sc_on_eoi] in H6, H7. now rewrite H6, H7.
    + intros idx Hin. apply cell_check_zero, H5, in_zseq, Hin.
Qed.

Lemma enc_target_some c e : enc_target c = Some e ->
  (c < 0 -> e = (-1 - c) * 2 + 1 /\ -1 - c < 32) /\ (0 <= c -> e = c * 6).
Proof.
  unfold enc_target. destruct (c <? 0) eqn:E.
  - destruct (-1 - c >=? 32) eqn:E2; [discriminate|]. intro H. assert (He : e = (-1 - c) * 2 + 1) by congruence. lia.
  - intro H. assert (He : e = c * 6) by congruence. lia.
Qed.

Record wf24 (t : tables) : Prop := {
  w_bytes : scan_bytes t = true;
  w_ns : 0 < num_symbols t;
  w_len : Z.of_nat (length (dfa t)) = num_states t * num_symbols t;
  w_cells : forall c, In c (dfa t) -> c < num_states t;
  w_syms : forall e, In e (symbol_map t) -> 0 <= snd e < num_symbols t /\ fst e <= fst (last (symbol_map t) (0, 0));
  w_map : symbol_map t <> [];
  w_states : 0 < num_states t
}.

Lemma wf24b_ok t : wf24b t = true -> wf24 t.
Proof.
  unfold wf24b. rewrite !andb_true_iff, !forallb_forall. intros [[[[[[H1 H2] H3] H4] H5] H6] H7].
  constructor; [assumption|lia|lia| | | |lia].
  - intros c Hc. specialize (H4 c Hc). lia.
  - intros e He. specialize (H5 e He). lia.
  - intros E. rewrite E in H6. discriminate.
Qed.

Section Agree.
Variable t : tables.
Variable s : scanner.
Hypothesis Hwf : wf24 t.
Hypothesis Hpk : packed t s.

Let ns := num_symbols t.
Let states := num_states t.

Lemma byte_sym_lookup b : 0 <= b -> byte_sym t b = lookup_sym (symbol_map t) b.
Proof.
  intro Hb. unfold byte_sym. destruct (b <? 128) eqn:E; [reflexivity|].
  symmetry. apply lookup_sym_last; [exact (w_map t Hwf)|].
  intros e He. destruct (w_syms t Hwf e He) as [_ Hl]. pose proof (pk_ascii t s Hpk). lia.
Qed.

Lemma sym_range b : 0 <= lookup_sym (symbol_map t) b < ns.
Proof.
  apply lookup_sym_range; [exact (w_map t Hwf)|]. intros e He. apply (w_syms t Hwf e He).
Qed.

Lemma enc_cell_spec (st : nat) sym : Z.of_nat st < states -> 0 <= sym < ns ->
  (cell t st sym < 0 -> Z.of_N (enc_cell t st sym) = (-1 - cell t st sym) * 2 + 1 /\ -1 - cell t st sym < 32) /\
  (0 <= cell t st sym -> Z.of_N (enc_cell t st sym) = cell t st sym * 6 /\ cell t st sym < states /\ sym <> 0).
Proof.
  intros Hst Hsym. pose proof (idx_range (Z.of_nat st) sym states ns ltac:(lia) Hsym) as Hidx.
  destruct (pk_cells t s Hpk _ Hidx) as [e [He Hodd]].
  unfold enc_cell, cell. fold ns. rewrite He. destruct (enc_target_some _ _ He) as [Hneg Hpos].
  split; intro Hc.
  - destruct (Hneg Hc). lia.
  - rewrite (Hpos Hc) in *. split; [lia|]. split.
    + apply (w_cells t Hwf), nthZ_in. rewrite (w_len t Hwf). exact Hidx.
    + intros ->. rewrite Z.add_0_r, Z.mod_mul, Z.even_mul, orb_true_r in Hodd by (pose proof (w_ns t Hwf); lia).
      discriminate (Hodd eq_refl).
Qed.

Lemma enc_cell_lt64 (st : nat) sym : Z.of_nat st < states -> 0 <= sym < ns -> (enc_cell t st sym < 64)%N.
Proof.
  intros Hst Hsym. destruct (enc_cell_spec st sym Hst Hsym) as [Hneg Hpos]. pose proof (pk_states t s Hpk).
  destruct (Z.lt_ge_cases (cell t st sym) 0) as [Hc|Hc]; [destruct (Hneg Hc)|destruct (Hpos Hc) as (? & ? & _)]; lia.
Qed.

Lemma table_field b (st : nat) : 0 <= b < 256 -> Z.of_nat st < states ->
  N.land (N.shiftr (nth (Z.to_nat b) (sc_table s) 0%N) (6 * N.of_nat st)) 63
  = enc_cell t st (lookup_sym (symbol_map t) b).
Proof.
  intros Hb Hst. rewrite (pk_table t s Hpk).
  rewrite (nth_indep _ 0%N (pack_row t (Z.to_nat (num_states t)) 0)) by (unfold zseq; rewrite !map_length, seq_length; lia).
  rewrite map_nth, zseq_nth by lia.
  unfold pack_row. rewrite byte_sym_lookup by lia.
  pose proof (pk_states t s Hpk) as Hs. pose proof (sym_range b) as Hsym.
  assert (H64 : forall i, (i < Z.to_nat (num_states t))%nat -> (enc_cell t i (lookup_sym (symbol_map t) b) < 64)%N).
  { intros i Hi. apply enc_cell_lt64; [unfold states; lia|exact Hsym]. }
  rewrite (fold_left_ext_in _ (fun row st0 => N.lor row (N.shiftl (enc_cell t st0 (lookup_sym (symbol_map t) b)) (6 * N.of_nat st0)))).
  - apply (rowk_field_lt (fun st0 => enc_cell t st0 (lookup_sym (symbol_map t) b))); [exact H64|unfold states in Hst; lia].
  - intros a x Hx. apply in_seq in Hx. f_equal. apply shl64_small; [apply H64|]; lia.
Qed.

(* field st of the row of byte b is the encoded transition of state st on the symbol of b: 2*action+1, or 6*target *)
Lemma field_spec b (st : nat) : 0 <= b < 256 -> Z.of_nat st < states ->
  let c := cell t st (lookup_sym (symbol_map t) b) in
  let fld := Z.of_N (N.land (N.shiftr (nth (Z.to_nat b) (sc_table s) 0%N) (6 * N.of_nat st)) 63) in
  (c < 0 -> fld = (-1 - c) * 2 + 1) /\ (0 <= c -> fld = c * 6 /\ c < states).
Proof.
  intros Hb Hst c fld. unfold fld. rewrite (table_field b st Hb Hst).
  destruct (enc_cell_spec st _ Hst (sym_range b)) as [Hneg Hpos].
  split; intros Hc; [apply Hneg, Hc|]. destruct (Hpos Hc) as (? & ? & _). split; assumption.
Qed.

Lemma eoi_spec (st : nat) : Z.of_nat st < states ->
  cell t st 0 < 0 /\ Z.of_N (nth st (sc_on_eoi s) 0%N) = -1 - cell t st 0.
Proof.
  intros Hst. pose proof (pk_states t s Hpk). pose proof (w_ns t Hwf). unfold states, ns in *.
  destruct (enc_cell_spec st 0 Hst ltac:(lia)) as [Hneg Hpos].
  assert (Hc : cell t st 0 < 0).
  { destruct (Z.lt_ge_cases (cell t st 0) 0) as [|Hc]; [assumption|]. destruct (Hpos Hc) as (_ & _ & N). congruence. }
  split; [exact Hc|]. destruct (Hneg Hc).
  rewrite (pk_eoi t s Hpk), map_seq_nth by lia. replace (Z.of_nat st <? num_states t) with true by lia. lia.
Qed.

(* Scanner.Scan reads the low field of the shifted row: even = six times the state, odd = an action, seen one byte late *)
Lemma shift_loop_even state i input k : N.land state 63 = (6 * k)%N ->
  shift_loop s state i input =
    match input with
    | [] => (i, nth (N.to_nat k) (sc_on_eoi s) 0%N)
    | b :: rest => shift_loop s (N.shiftr (nth (Z.to_nat b) (sc_table s) 0%N) (6 * k)) (i + 1) rest
    end.
Proof.
  intros H. assert (E : N.land state 1 = 0%N) by (rewrite (land1_mod _ _ H); lia).
  destruct input; cbn [shift_loop]; rewrite E, H; cbn [N.eqb]; [|reflexivity].
  replace (6 * k / 6)%N with k by lia. reflexivity.
Qed.

Lemma shift_loop_odd state i input a : N.land state 63 = (2 * a + 1)%N -> shift_loop s state i input = (i - 1, a).
Proof.
  intros H. assert (E : N.land state 1 = 1%N) by (rewrite (land1_mod _ _ H); lia).
  destruct input; cbn [shift_loop]; rewrite E, H; cbn [N.eqb]; f_equal; lia.
Qed.

Lemma action_start_packed : action_start t = -1.
Proof. unfold action_start. rewrite (pk_bt t s Hpk). reflexivity. Qed.

Lemma scan_loop_nil f (st : nat) i : scan_loop (S f) t (Z.of_nat st) i 0 0 [] = (i, -1 - cell t st 0).
Proof.
  cbn [scan_loop]. rewrite action_start_packed. change (0 >? 0) with false. rewrite andb_false_r.
  unfold cell. rewrite Z.add_0_r. reflexivity.
Qed.

Lemma scan_loop_cons f (st : nat) i b rest : scan_loop (S f) t (Z.of_nat st) i 0 0 (b :: rest) =
  if cell t st (lookup_sym (symbol_map t) b) <? 0 then (i, -1 - cell t st (lookup_sym (symbol_map t) b))
  else scan_loop f t (cell t st (lookup_sym (symbol_map t) b)) (i + 1) 0 0 rest.
Proof.
  cbn [scan_loop]. unfold decode. rewrite (w_bytes t Hwf), action_start_packed. cbn [Z.of_nat Pos.of_succ_nat Pos.succ skipn].
  fold (cell t st (lookup_sym (symbol_map t) b)).
  destruct (cell t st (lookup_sym (symbol_map t) b) <? 0) eqn:E; [|reflexivity].
  replace (cell t st (lookup_sym (symbol_map t) b) >? -1) with false by lia.
  change (0 >? 0) with false. rewrite andb_false_r. reflexivity.
Qed.

(* from any state lst, the scanner holding a row whose low six bits are 6*lst: both loops return the same *)
Lemma loop_agree : forall text (lst : nat) state i f,
  (length text < f)%nat -> Z.of_nat lst < states ->
  N.land state 63 = (6 * N.of_nat lst)%N -> Forall (fun b => 0 <= b < 256) text ->
  scan_loop f t (Z.of_nat lst) i 0 0 text = (fst (shift_loop s state i text), Z.of_N (snd (shift_loop s state i text))).
Proof.
  induction text as [|b rest IH]; intros lst state i f Hf Hst Hfield Hbytes;
    (destruct f as [|f]; [cbn in Hf; lia|]); rewrite (shift_loop_even _ _ _ _ Hfield).
  - rewrite scan_loop_nil, Nnat.Nat2N.id. cbn [fst snd]. f_equal. symmetry. apply eoi_spec, Hst.
  - inversion Hbytes as [|? ? Hb Hrest]; subst. cbn [length] in Hf. rewrite scan_loop_cons.
    destruct (field_spec b lst Hb Hst) as [Hneg Hpos].
    destruct (cell t lst (lookup_sym (symbol_map t) b) <? 0) eqn:Ec.
    + rewrite (shift_loop_odd _ (i + 1) rest (Z.to_N (-1 - cell t lst (lookup_sym (symbol_map t) b)))) by lia.
      cbn [fst snd]. f_equal; lia.
    + rewrite <- (Z2Nat.id (cell t lst (lookup_sym (symbol_map t) b))) by lia.
      apply IH; [lia|lia|lia|exact Hrest].
Qed.
End Agree.

Theorem packed_field_is_transition t s : wf24b t = true -> pack t = PackOk s ->
  forall b (st : nat), 0 <= b < 256 -> Z.of_nat st < num_states t ->
  let c := cell t st (lookup_sym (symbol_map t) b) in
  let fld := Z.of_N (N.land (N.shiftr (nth (Z.to_nat b) (sc_table s) 0%N) (6 * N.of_nat st)) 63) in
  (c < 0 -> fld = (-1 - c) * 2 + 1) /\ (0 <= c -> fld = c * 6 /\ c < num_states t).
Proof. intros Hwf Hp. exact (field_spec t s (wf24b_ok t Hwf) (proj1 (pack_ok_iff t s) Hp)). Qed.

Theorem packed_eoi_is_action t s : wf24b t = true -> pack t = PackOk s ->
  forall (st : nat), Z.of_nat st < num_states t ->
  cell t st 0 < 0 /\ Z.of_N (nth st (sc_on_eoi s) 0%N) = -1 - cell t st 0.
Proof. intros Hwf Hp. exact (eoi_spec t s (wf24b_ok t Hwf) (proj1 (pack_ok_iff t s) Hp)). Qed.

Theorem scan_loops_simulate t s : wf24b t = true -> pack t = PackOk s ->
  forall text (lst : nat) state i f,
  (length text < f)%nat -> Z.of_nat lst < num_states t ->
  N.land state 63 = (6 * N.of_nat lst)%N -> Forall (fun b => 0 <= b < 256) text ->
  shift_loop s state i text =
  (fst (scan_loop f t (Z.of_nat lst) i 0 0 text), Z.to_N (snd (scan_loop f t (Z.of_nat lst) i 0 0 text))).
Proof.
  intros Hwf Hp text lst state i f Hf Hst Hfield Hb.
  rewrite (loop_agree t s (wf24b_ok t Hwf) (proj1 (pack_ok_iff t s) Hp) text lst state i f Hf Hst Hfield Hb).
  cbn [fst snd]. rewrite N2Z.id. now destruct (shift_loop s state i text).
Qed.

Theorem pack_scan_agrees t s : wf24b t = true -> pack t = PackOk s ->
  forall text, Forall (fun b => 0 <= b < 256) text ->
  (fst (shift_scan s text), Z.of_N (snd (shift_scan s text))) = scan t 0 text.
Proof.
  intros Hwf Hp text Hb. apply wf24b_ok in Hwf. apply pack_ok_iff in Hp.
  unfold shift_scan, scan. rewrite (pk_sm t s Hp). change (nthZ [0] 0) with (Z.of_nat 0).
  symmetry. apply (loop_agree t s Hwf Hp); [lia|pose proof (w_states t Hwf); lia|reflexivity|exact Hb].
Qed.
