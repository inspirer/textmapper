(* C12, and the vocabulary of its statements (bytes_ok, linv, tok_start, inner, tok_facts, stream_ok).  char_at: what is
   read at an offset; linv is kept by advance and rewind; under wf_lexer_tables: dfa_loop_ok (the DFA loop returns, inside
   the token), attempt_ok, next_tok_ok (Next returns and progresses), the stream, and the capped stream never runs dry. *)
From Coq Require Import List ZArith Bool Lia.
From TM Require Import Lib.ListX Lex.Tables Lex.Tables_proofs Lex.Scan Lex.Scan_proofs Lex.LexerRT Lex.LexerWf Lex.Deriv
  Lex.LexerRT_proofs.
Import ListNotations.
Local Open Scope Z_scope.

Definition bytes_ok (src : list Z) : Prop := Forall (fun b => 0 <= b < 256) src.

Lemma count_nl_nonneg s : 0 <= count_nl s.
Proof. unfold count_nl. lia. Qed.

(* what is read at offset off of src: the end marker at the end, else a character, the offset after it, the rest, and
   whether a newline was passed *)
Definition char_at (src : list Z) (off ch scan : Z) (rest : list Z) : Prop :=
  (off = Z.of_nat (length src) -> ch = -1 /\ scan = off /\ rest = []) /\
  (off < Z.of_nat (length src) ->
     0 <= ch /\ off < scan <= Z.of_nat (length src) /\ rest = skipn (Z.to_nat scan) src /\
     ((ch = 10 /\ sub src off scan = [10] /\ scan = off + 1) \/ (ch <> 10 /\ count_nl (sub src off scan) = 0))).

Lemma read_char_facts bytes src off ch scan rest :
  bytes_ok src -> 0 <= off <= Z.of_nat (length src) ->
  read_char bytes off (skipn (Z.to_nat off) src) = (ch, scan, rest) -> char_at src off ch scan rest.
Proof.
  intros Hsrc Hoff E. remember (skipn (Z.to_nat off) src) as s eqn:Hs.
  assert (Hlen : Z.of_nat (length s) = Z.of_nat (length src) - off) by (subst s; rewrite skipn_length; lia).
  destruct s as [|b t']; cbn [length] in Hlen.
  - split; [|lia]. intros _. cbn in E. inversion E. auto.
  - split; [lia|]. intros _.
    assert (Hb : 0 <= b < 256).
    { unfold bytes_ok in Hsrc. rewrite Forall_forall in Hsrc. apply Hsrc.
      apply In_skipn with (n := Z.to_nat off). rewrite <- Hs. left. reflexivity. }
    rewrite read_char_decode in E by discriminate.
    pose proof (decode_b_width bytes (b :: t') ltac:(discriminate)) as W. cbn [length] in W.
    destruct (decode_b_nl bytes b t' (proj1 Hb)) as (Hc & Hnl).
    destruct (decode_b bytes (b :: t')) as [c w]. cbn [fst snd] in *. inversion E; subst ch scan rest. clear E.
    assert (Hchunk : sub src off (off + Z.of_nat w) = firstn w (b :: t')) by (unfold sub; rewrite <- Hs; f_equal; lia).
    split; [exact Hc|]. split; [lia|]. split; [rewrite Hs, skipn_skipn'; f_equal; lia|].
    rewrite Hchunk. destruct Hnl as [(E1 & E2)|N]; [left|right; exact N].
    split; [exact E1|]. split; [exact E2|]. apply (f_equal (@length Z)) in E2. rewrite firstn_length in E2. cbn [length] in E2. lia.
Qed.

Section Inv.
  Variable lx : lexer.

  Record linv (l : lstate) : Prop := mk_linv {
    li_src : bytes_ok (l_src l);
    li_off : 0 <= l_off l <= slen l;
    li_read : read_char (scan_bytes (lx_tables lx)) (l_off l) (skipn (Z.to_nat (l_off l)) (l_src l)) = (l_ch l, l_scan l, l_rest l);
    li_line : lx_token_line lx = true -> l_line l = 1 + count_nl (firstn (Z.to_nat (l_off l)) (l_src l));
    li_lineoff : lx_token_line lx && lx_token_column lx = true ->
                 l_lineoff l = after_last_nl (firstn (Z.to_nat (l_off l)) (l_src l)) 0 0
  }.

  Definition same (l l' : lstate) : Prop :=
    l_src l' = l_src l /\ l_tokoff l' = l_tokoff l /\ l_tokline l' = l_tokline l /\ l_tokcol l' = l_tokcol l.

  Lemma same_refl l : same l l. Proof. unfold same. auto. Qed.
  Lemma same_trans a b c : same a b -> same b c -> same a c.
  Proof. unfold same. intros (A1 & A2 & A3 & A4) (B1 & B2 & B3 & B4). repeat split; congruence. Qed.

  Lemma linv_char l : linv l -> char_at (l_src l) (l_off l) (l_ch l) (l_scan l) (l_rest l).
  Proof. intros [H1 H2 H3 _ _]. exact (read_char_facts _ _ _ _ _ _ H1 H2 H3). Qed.

  Lemma linv_ch l : linv l -> (l_ch l <? 0) = true <-> l_off l = slen l.
  Proof.
    intros H. pose proof (li_off l H) as Ho. split.
    - intros Hc. destruct (Z.eq_dec (l_off l) (slen l)); [assumption|].
      destruct (proj2 (linv_char l H)) as (Hch & _); unfold slen in *; lia.
    - intros He. destruct (proj1 (linv_char l H) He) as (Hc & _). rewrite Hc. reflexivity.
  Qed.

  Lemma advance_ok l : linv l -> l_off l < slen l ->
    linv (advance lx l) /\ same l (advance lx l) /\ l_off (advance lx l) = l_scan l /\ l_off l < l_scan l <= slen l.
  Proof.
    intros H Hlt. destruct (proj2 (linv_char l H) Hlt) as (Hch & Hsc & Hrest & Hnl).
    pose proof (li_off l H) as Hoff0. pose proof (firstn_sub (l_src l) (l_off l) (l_scan l) ltac:(lia)) as Hfirst. unfold advance.
    destruct (read_char (scan_bytes (lx_tables lx)) (l_scan l) (l_rest l)) as [[ch' scan'] rest'] eqn:Er.
    split; [|split; [unfold same; cbn; auto|split; [reflexivity|assumption]]].
    constructor; cbn [l_src l_off l_scan l_ch l_rest l_line l_lineoff].
    - exact (li_src l H).
    - unfold slen in *. cbn [l_src] in *. lia.
    - rewrite <- Hrest. exact Er.
    - intros Htl. rewrite Htl. cbn [andb]. rewrite Hfirst, count_nl_app, (li_line l H Htl).
      destruct Hnl as [(Hc & Hs & _)|(Hc & Hs)].
      + rewrite Hc, Hs. replace (count_nl [10]) with 1 by reflexivity. rewrite Z.eqb_refl. lia.
      + rewrite Hs. destruct (Z.eqb_spec (l_ch l) 10); [congruence|]. lia.
    - intros Htc. rewrite Htc. rewrite Hfirst, after_last_nl_app, <- (li_lineoff l H Htc).
      rewrite firstn_length_le by (unfold slen in *; lia).
      destruct Hnl as [(Hc & Hs & Hs1)|(Hc & Hs)].
      + rewrite Hc, Hs. cbn. lia.
      + destruct (Z.eqb_spec (l_ch l) 10); [congruence|].
        (* no newline in the character: the offset after the last newline is unchanged *)
        assert (Hlo : 0 <= l_lineoff l <= 0 + Z.of_nat (Z.to_nat (l_off l))).
        { rewrite (li_lineoff l H Htc).
          pose proof (after_last_nl_spec (firstn (Z.to_nat (l_off l)) (l_src l)) 0 0 ltac:(lia)) as (A & _).
          cbn zeta in A. rewrite firstn_length_le in A by (unfold slen in *; lia). lia. }
        destruct (after_last_nl_spec (sub (l_src l) (l_off l) (l_scan l)) (0 + Z.of_nat (Z.to_nat (l_off l))) (l_lineoff l) Hlo) as (_ & B & _).
        symmetry. apply B. assumption.
  Qed.

  Lemma rewind_src l o : l_src (rewind lx l o) = l_src l.
  Proof. unfold rewind. destruct (read_char _ _ _) as [[a b] c]. reflexivity. Qed.

  (* rewind needs of the state only its source, offset and line; Init calls it on a state that has no character yet *)
  Lemma rewind_ok_gen l offset :
    bytes_ok (l_src l) -> 0 <= l_off l <= slen l ->
    (lx_token_line lx = true -> l_line l = 1 + count_nl (firstn (Z.to_nat (l_off l)) (l_src l))) ->
    0 <= offset <= slen l ->
    linv (rewind lx l offset) /\ same l (rewind lx l offset) /\ l_off (rewind lx l offset) = offset.
  Proof.
    intros Hsrc Hoff Hline Ho. unfold rewind.
    set (offset' := if offset <? l_off l then offset else if offset >? slen l then slen l else offset).
    assert (Eo : offset' = offset) by (subst offset'; destruct (offset <? l_off l), (Z.gtb_spec offset (slen l)); lia).
    destruct (read_char (scan_bytes (lx_tables lx)) offset' (skipn (Z.to_nat offset') (l_src l))) as [[ch scan] rest'] eqn:Er.
    split; [|split; [unfold same; cbn; auto|cbn; assumption]].
    constructor; cbn [l_src l_off l_scan l_ch l_rest l_line l_lineoff].
    - exact Hsrc.
    - unfold slen in *. cbn [l_src]. lia.
    - exact Er.
    - intros Htl. rewrite Htl. rewrite (Hline Htl). rewrite Eo.
      destruct (Z.ltb_spec offset (l_off l)) as [Hlt|Hge].
      + rewrite (firstn_sub (l_src l) offset (l_off l)), count_nl_app by lia. lia.
      + rewrite (firstn_sub (l_src l) (l_off l) offset), count_nl_app by lia. lia.
    - intros Htc. rewrite Htc. reflexivity.
  Qed.

  Lemma rewind_ok l offset : linv l -> 0 <= offset <= slen l ->
    linv (rewind lx l offset) /\ same l (rewind lx l offset) /\ l_off (rewind lx l offset) = offset.
  Proof. intros H Ho. apply rewind_ok_gen; try assumption; [exact (li_src l H)|exact (li_off l H)|exact (li_line l H)]. Qed.

  Lemma init_ok src : bytes_ok src -> linv (init lx src) /\ l_src (init lx src) = src /\ l_off (init lx src) = 0.
  Proof.
    intros Hsrc. unfold init.
    destruct (rewind_ok_gen (mkL src 0 0 0 src 0 1 1 0 1) 0) as (A & (B & _) & C); cbn [l_src l_off l_line]; try assumption.
    - unfold slen. cbn [l_src]. lia.
    - intros _. reflexivity.
    - unfold slen. cbn [l_src]. lia.
    - split; [assumption|]. split; assumption.
  Qed.

  Lemma linv_tokfields l a b c : linv l ->
    linv (mkL (l_src l) (l_off l) (l_scan l) (l_ch l) (l_rest l) a (l_line l) b (l_lineoff l) c).
  Proof. intros [H1 H2 H3 H4 H5]. constructor; cbn; assumption. Qed.

  Definition bk_ok (l : lstate) (bk : option (Z * Z * Z)) : Prop :=
    match bk with Some (_, o, _) => l_tokoff l < o <= l_off l | None => True end.

  Lemma finish_progress st l h bk tok sp l3 :
    linv l -> 0 <= l_tokoff l -> l_tokoff l < l_off l -> bk_ok l bk -> finish lx st l h bk = (tok, sp, l3) ->
    linv l3 /\ same l l3 /\ l_tokoff l3 < l_off l3.
  Proof.
    intros Hl Ht Hp Hbk Ef. rewrite finish_shape in Ef. cbv beta zeta in Ef.
    assert (Hid : linv l /\ same l l /\ l_tokoff l < l_off l) by (split; [|split]; [assumption|apply same_refl|assumption]).
    rewrite (proj2 (Z.eqb_neq (l_off l) (l_tokoff l))) in Ef by lia.
    destruct (_ =? inv_act lx) in Ef; [|inversion Ef; subst l3; exact Hid].
    destruct (has_bt lx); [destruct bk as [[[a o] hh]|]|]; inversion Ef; subst l3; try exact Hid.
    cbn [bk_ok] in Hbk. pose proof (li_off l Hl).
    destruct (rewind_ok l o Hl ltac:(lia)) as (A & B & C). split; [exact A|]. split; [exact B|].
    destruct B as (_ & B & _). rewrite B, C. lia.
  Qed.

  (* nothing consumed at the end of the input: token and space flag are those computed on the empty input *)
  Lemma finish_at_end c b l : linv l -> l_off l = slen l -> l_tokoff l = l_off l ->
    exists l3, finish lx c l 0 (lift_backup b (l_off l) 0 None) = (fst (finish lx c end_state 0 (lift_backup b 0 0 None)), l3) /\
               linv l3 /\ same l l3 /\ l_off l3 = l_off l.
  Proof.
    intros Hl He Ht. destruct (proj1 (linv_char l Hl) He) as (Hc & Hs & _).
    destruct (rewind_ok l (l_off l) Hl (li_off l Hl)) as (R1 & R2 & R3).
    assert (Hre : exists l3, rewind lx l (l_off l) = l3 /\ linv l3 /\ same l l3 /\ l_off l3 = l_off l) by eauto.
    assert (Htxt : sub (l_src l) (l_tokoff l) (l_off l) = []) by (rewrite Ht; apply sub_same).
    assert (Htxt' : sub (l_src (rewind lx l (l_off l))) (l_tokoff (rewind lx l (l_off l))) (l_off (rewind lx l (l_off l))) = []).
    { destruct R2 as (_ & T & _). rewrite T, R3, Ht. apply sub_same. }
    rewrite !finish_shape. cbv beta zeta. rewrite Htxt, Hc, Hs, Ht, Z.eqb_refl.
    change (sub (l_src end_state) (l_tokoff end_state) (l_off end_state)) with (@nil Z).
    change (l_off end_state =? l_tokoff end_state) with true. change (l_ch end_state =? -1) with true. cbv iota.
    destruct (_ =? inv_act lx); [|exists l; split; [reflexivity|]; split; [assumption|]; split; [apply same_refl|reflexivity]].
    destruct (has_bt lx); [destruct b as [a|]|]; cbn [lift_backup fst];
      try (destruct Hre as (l3 & -> & Hre); exists l3; split; [reflexivity|exact Hre]).
    rewrite Htxt', rewind_src, sub_nil. destruct Hre as (l3 & -> & Hre). exists l3. split; [reflexivity|exact Hre].
  Qed.
End Inv.

(* at the end of the input the DFA loop is the end-of-input run, with any fuel that is enough for the latter *)
Lemma dfa_eoi lx k : forall s eb c b k' l h inc, eoi_run k (lx_tables lx) s eb = Some (c, b) -> (k <= k')%nat ->
  (l_ch l <? 0) = true ->
  c < 0 /\ dfa_loop k' lx s l h (lift_backup eb (l_off l) h inc) = Some (c, l, h, lift_backup b (l_off l) h inc).
Proof.
  induction k as [|k IH]; intros s eb c b k' l h inc E Hk Hch; [discriminate|].
  destruct k' as [|k']; [lia|]. cbn [eoi_run] in E. cbn [dfa_loop].
  destruct (Z.ltb_spec s 0); [inversion E; subst; split; [assumption|reflexivity]|]. rewrite Hch.
  destruct ((cell (lx_tables lx) s 0 >? action_start (lx_tables lx)) && (cell (lx_tables lx) s 0 <? 0)).
  - destruct (bt_entry (lx_tables lx) (cell (lx_tables lx) s 0)) as [a ns].
    apply (IH ns (Some a)); [exact E|lia|exact Hch].
  - apply (IH _ eb); [exact E|lia|exact Hch].
Qed.

Lemma dfa_loop_neg f lx s l h bk : s < 0 -> dfa_loop (S f) lx s l h bk = Some (s, l, h, bk).
Proof. intros H. cbn [dfa_loop]. rewrite (proj2 (Z.ltb_lt s 0) H). reflexivity. Qed.

Lemma dfa_loop_char f lx s l h bk : 0 <= s -> (l_ch l <? 0) = false ->
  dfa_loop (S f) lx s l h bk =
  let t := lx_tables lx in
  let st := cell t s (lookup_sym (symbol_map t) (l_ch l)) in
  if st >? action_start t then
    dfa_loop f lx (if st <? 0 then snd (bt_entry t st) else st) (advance lx l) (wrap32u (h * 31 + l_ch l))
             (if st <? 0 then Some (fst (bt_entry t st), l_off l, h) else bk)
  else dfa_loop f lx st l h bk.
Proof.
  intros Hs Hc. cbn [dfa_loop]. rewrite (proj2 (Z.ltb_ge s 0) Hs), Hc. cbv zeta.
  set (st := cell _ _ _). destruct (st >? _); [|reflexivity]. destruct (st <? 0); [destruct (bt_entry _ st)|]; reflexivity.
Qed.

Section Main.
  Variable lx : lexer.
  Hypothesis Hwf : wf_lexer_tables lx = true.
  Notation t := (lx_tables lx).

  Record wf_facts : Prop := {
    wf_nsym : 0 < num_symbols t;
    wf_nst : 0 < nstates t;
    wf_len : Z.of_nat (length (dfa t)) = nstates t * num_symbols t;
    wf_cell : forall c, In c (dfa t) -> c < nstates t;
    wf_bt : forall e, In e (backtrack t) -> 0 <= snd e < nstates t;
    wf_start : forall s, In s (state_map t) -> 0 <= s < nstates t;
    wf_sym : forall r, 1 <= lookup_sym (symbol_map t) r < num_symbols t;
    wf_eoi : forall s, 0 <= s < nstates t -> exists r, eoi_run (eoi_fuel t) t s None = Some r;
    wf_entry : forall s0, In s0 (state_map t) -> start_ok lx s0 = true /\ eoi_ok lx s0 = true;
    wf_kw : assocZ (inv_act lx) (lx_kw lx) = None;
    wf_inv : 0 <= inv_act lx
  }.

  Lemma wf_parts : wf_facts.
  Proof.
    pose proof Hwf as H. unfold wf_lexer_tables, wf_tables, wf_entry in H.
    apply andb_prop in H as [H HE]. apply andb_prop in HE as [HE E3]. apply andb_prop in HE as [E1 E2].
    apply andb_prop in H as [H A9]. apply andb_prop in H as [H A8]. apply andb_prop in H as [H A7].
    apply andb_prop in H as [H A6]. apply andb_prop in H as [H A5]. apply andb_prop in H as [H A4].
    apply andb_prop in H as [H A3]. apply andb_prop in H as [A1 A2].
    rewrite forallb_forall in A4, A5, A6, A8, A9, E1.
    constructor.
    - apply Z.ltb_lt, A1.
    - apply Z.ltb_lt, A2.
    - apply Z.eqb_eq, A3.
    - intros c Hc. apply Z.ltb_lt, A4, Hc.
    - intros e He. exact (between_ltb _ _ _ (A5 e He)).
    - intros s Hs. exact (between_ltb _ _ _ (A6 s Hs)).
    - intros r. apply lookup_sym_range; [intro E; rewrite E in A7; discriminate|].
      intros e He. exact (between_ltb _ _ _ (A8 e He)).
    - intros s Hs. specialize (A9 s (proj2 (zrange_in _ _) Hs)). cbv beta in A9.
      destruct (eoi_run _ _ _ _) as [r|]; [eauto|discriminate].
    - intros s0 Hs. apply andb_prop. exact (E1 s0 Hs).
    - destruct (assocZ _ _); [discriminate|reflexivity].
    - apply Z.leb_le, E3.
  Qed.

  Lemma cell_range s y : 0 <= s < nstates t -> 0 <= y < num_symbols t -> cell t s y < nstates t.
  Proof.
    intros Hs Hy. pose proof wf_parts as W. pose proof (wf_len W).
    unfold cell, nthZ. destruct (Z.ltb_spec (s * num_symbols t + y) 0) as [Hn|Hn]; [lia|].
    apply (wf_cell W). apply nth_In. nia.
  Qed.

  Lemma bt_range c : 0 <= snd (bt_entry t c) < nstates t.
  Proof.
    pose proof wf_parts as W. unfold bt_entry.
    destruct (nth_in_or_default (Z.to_nat (-1 - c)) (backtrack t) (0, 0)) as [Hin|Hd].
    - apply (wf_bt W). assumption.
    - rewrite Hd. pose proof (wf_nst W). cbn. lia.
  Qed.

  Lemma start_cell s y : start_ok lx s = true -> 1 <= y < num_symbols t ->
    0 <= cell t s y \/ cell t s y = action_start t - inv_act lx.
  Proof.
    unfold start_ok. rewrite forallb_forall. intros H Hy. specialize (H y). cbv beta zeta in H.
    assert (Hin : In y (map (Z.add 1) (zrange (num_symbols t - 1)))).
    { apply in_map_iff. exists (y - 1). split; [lia|]. apply zrange_in. lia. }
    apply H, orb_prop in Hin. destruct Hin as [Hc|Hc]; [left; apply Z.leb_le|right; apply Z.eqb_eq]; exact Hc.
  Qed.

  Lemma dfa_at_end fuel s l h bk : linv lx l -> l_off l = slen l -> 0 <= s < nstates t -> (eoi_fuel t <= fuel)%nat ->
    exists c b, eoi_run (eoi_fuel t) t s None = Some (c, b) /\ c < 0 /\
      dfa_loop fuel lx s l h bk = Some (c, l, h, lift_backup b (l_off l) h bk).
  Proof.
    intros Hl He Hs Hf. destruct (wf_eoi wf_parts s Hs) as ([c b] & Er). exists c, b. split; [exact Er|].
    exact (dfa_eoi lx _ s None c b fuel l h bk Er Hf (proj2 (linv_ch lx l Hl) He)).
  Qed.

  Lemma remaining_advance l : linv lx l -> l_off l < slen l -> (remaining (advance lx l) < remaining l)%nat.
  Proof.
    intros H Hlt. destruct (advance_ok lx l H Hlt) as (_ & (Hs & _) & Ho & Hsc).
    unfold remaining, slen in *. rewrite Hs, Ho. lia.
  Qed.

  (* what the DFA loop leaves: a stop cell, a consistent state of the same token, a checkpoint inside the token if any;
     if nothing was consumed the stop cell says "no match" *)
  Definition loop_post (l : lstate) (st : Z) (l2 : lstate) (b2 : option (Z * Z * Z)) : Prop :=
    st < 0 /\ linv lx l2 /\ same l l2 /\ l_off l <= l_off l2 /\ bk_ok l2 b2 /\
    (l_off l2 = l_tokoff l -> l2 = l /\ st = action_start t - inv_act lx).

  Lemma loop_post_here l st bk : linv lx l -> st < 0 -> bk_ok l bk ->
    (l_off l = l_tokoff l -> st = action_start t - inv_act lx) -> loop_post l st l bk.
  Proof. intros Hl Hst Hbk H0. repeat (split; [assumption || apply same_refl || lia|]). auto. Qed.

  Lemma loop_post_step l l' st l2 b2 : same l l' -> l_off l <= l_off l' -> l_tokoff l < l_off l' ->
    loop_post l' st l2 b2 -> loop_post l st l2 b2.
  Proof.
    intros Hs Ho Ht (P1 & P2 & P3 & P4 & P5 & _). pose proof Hs as (_ & T & _).
    split; [assumption|]. split; [assumption|]. split; [eapply same_trans; eauto|]. split; [lia|]. split; [assumption|lia].
  Qed.

  (* the DFA loop inside a token; at its first character (nothing consumed) the state is a start state *)
  Lemma dfa_loop_ok fuel : forall s l h bk,
    (remaining l + Z.to_nat (nstates t) + 2 <= fuel)%nat ->
    linv lx l -> s < nstates t -> l_tokoff l <= l_off l -> bk_ok l bk ->
    (l_off l = l_tokoff l -> 0 <= s /\ start_ok lx s = true /\ l_off l < slen l) ->
    exists st l2 h2 b2, dfa_loop fuel lx s l h bk = Some (st, l2, h2, b2) /\ loop_post l st l2 b2.
  Proof.
    induction fuel as [|f IH]; intros s l h bk Hf Hl Hs Htk Hbk H0; [lia|].
    pose proof wf_parts as W. pose proof (li_off lx l Hl) as Hoff.
    destruct (Z.ltb_spec s 0) as [Hneg|Hnn].
    { exists s, l, h, bk. rewrite dfa_loop_neg by exact Hneg. split; [reflexivity|].
      apply loop_post_here; try assumption. intros E. destruct (H0 E). lia. }
    destruct (l_ch l <? 0) eqn:Ech.
    - assert (He : l_off l = slen l) by (apply (linv_ch lx l Hl); exact Ech).
      assert (Htk' : l_tokoff l < l_off l) by (destruct (Z.eq_dec (l_off l) (l_tokoff l)) as [E|]; [destruct (H0 E); lia|lia]).
      destruct (dfa_at_end (S f) s l h bk Hl He ltac:(lia) ltac:(unfold eoi_fuel; lia)) as (c & b & _ & Hc & ->).
      exists c, l, h, (lift_backup b (l_off l) h bk). split; [reflexivity|].
      apply loop_post_here; try assumption; [|lia]. destruct b; cbn [lift_backup bk_ok]; [lia|assumption].
    - assert (Hlt : l_off l < slen l).
      { destruct (Z.eq_dec (l_off l) (slen l)) as [E|]; [|lia]. apply (linv_ch lx l Hl) in E. congruence. }
      rewrite dfa_loop_char by assumption. cbv zeta.
      set (st := cell t s (lookup_sym (symbol_map t) (l_ch l))).
      pose proof (wf_sym W (l_ch l)) as Hy. pose proof (wf_inv W) as Hinv. pose proof (action_start_neg t) as Has.
      assert (Hst : st < nstates t) by (apply cell_range; lia).
      assert (Hstart : l_off l = l_tokoff l -> 0 <= st \/ st = action_start t - inv_act lx).
      { intros E. destruct (H0 E) as (_ & S0 & _). apply start_cell; assumption. }
      destruct (advance_ok lx l Hl Hlt) as (Hl' & Hsame & Hoff' & Hsc).
      pose proof (remaining_advance l Hl Hlt) as Hrem. pose proof Hsame as (_ & Ht & _).
      destruct (Z.gtb_spec st (action_start t)) as [Egt|Egt].
      + destruct (IH (if st <? 0 then snd (bt_entry t st) else st) (advance lx l) (wrap32u (h * 31 + l_ch l))
                    (if st <? 0 then Some (fst (bt_entry t st), l_off l, h) else bk)) as (st2 & l2 & h2 & b2 & E & P).
        * lia.
        * exact Hl'.
        * destruct (st <? 0); [apply bt_range|exact Hst].
        * lia.
        * destruct (Z.ltb_spec st 0); [cbn [bk_ok]; lia|].
          destruct bk as [[[a o] hh]|]; [|exact I]. cbn [bk_ok] in *. lia.
        * lia.
        * exists st2, l2, h2, b2. split; [exact E|]. apply (loop_post_step l (advance lx l)); try assumption; lia.
      + destruct f as [|f']; [lia|]. rewrite dfa_loop_neg by lia.
        exists st, l, h, bk. split; [reflexivity|]. apply loop_post_here; try assumption; [lia|].
        intros E. destruct (Hstart E); lia.
  Qed.

  (* the start state says "no match" on the first character: one character is skipped *)
  Lemma finish_stuck l h :
    l_off l = l_tokoff l ->
    exists tok, finish lx (action_start t - inv_act lx) l h None = (tok, false, rewind lx l (l_scan l)).
  Proof.
    intros He. rewrite finish_shape. cbv beta zeta.
    replace (action_start t - (action_start t - inv_act lx)) with (inv_act lx) by lia.
    rewrite (kw_none lx _ _ _ (wf_kw wf_parts)), He, !Z.eqb_refl. destruct (has_bt lx); eexists; reflexivity.
  Qed.

End Main.

Section Next.
  Variable lx : lexer.
  Hypothesis Hwf : wf_lexer_tables lx = true.
  Variable sc : Z.
  Notation t := (lx_tables lx).
  Hypothesis Hsc : In (nthZ (state_map t) sc) (state_map t).
  Notation start := (nthZ (state_map t) sc).

  Definition tok_start (l : lstate) : lstate :=
    mkL (l_src l) (l_off l) (l_scan l) (l_ch l) (l_rest l) (l_off l) (l_line l) (l_line l) (l_lineoff l) (l_off l - l_lineoff l + 1).
  Definition inner (l : lstate) : nat := S (S (Z.to_nat (slen l - l_off l) + Z.to_nat (nstates t))).

  Lemma next_tok_unfold f l :
    next_tok (S f) lx sc l =
    match dfa_loop (inner l) lx start (tok_start l) 0 None with
    | None => None
    | Some (state, l2, hash, backup) =>
        let '(tok, space, l3) := finish lx state l2 hash backup in
        if space then next_tok f lx sc l3 else Some (tok, l3)
    end.
  Proof. reflexivity. Qed.

  Lemma attempt_ok l : linv lx l ->
    exists st l2 h2 b2, dfa_loop (inner l) lx start (tok_start l) 0 None = Some (st, l2, h2, b2) /\
      st < 0 /\ linv lx l2 /\ same (tok_start l) l2 /\ l_off l <= l_off l2 /\
      forall tok sp l3, finish lx st l2 h2 b2 = (tok, sp, l3) ->
        linv lx l3 /\ same (tok_start l) l3 /\
        (l_off l < l_off l3 \/ (l_off l = slen l /\ l_off l3 = l_off l /\ tok = 0 /\ sp = false)).
  Proof.
    intros Hl. pose proof (linv_tokfields lx l (l_off l) (l_line l) (l_off l - l_lineoff l + 1) Hl) as Hl1.
    fold (tok_start l) in Hl1. set (l1 := tok_start l) in *.
    pose proof (wf_parts lx Hwf) as W. destruct (wf_entry lx W _ Hsc) as (Hstart & Heoi).
    pose proof (wf_start lx W _ Hsc) as Hs0. pose proof (li_off lx l Hl) as Hoff.
    destruct (Z.eq_dec (l_off l) (slen l)) as [He|Hne].
    - (* at the end of the input: the run and the decision are those of eoi_ok *)
      destruct (dfa_at_end lx Hwf (inner l) start l1 0 None Hl1 He Hs0 ltac:(unfold inner, eoi_fuel; lia)) as (c & b & Er & Hc & E).
      exists c, l1, 0, (lift_backup b (l_off l1) 0 None). split; [exact E|]. split; [exact Hc|].
      split; [assumption|]. split; [apply same_refl|]. split; [apply Z.le_refl|]. intros tok sp l3 Ef.
      destruct (finish_at_end lx c b l1 Hl1 He eq_refl) as (l3' & E3 & R1 & R2 & R3).
      unfold eoi_ok in Heoi. rewrite Er in Heoi.
      destruct (finish lx c end_state 0 (lift_backup b 0 0 None)) as [[tk0 sp0] le]. cbn [fst] in E3.
      rewrite E3 in Ef. inversion Ef; subst tok sp l3.
      apply andb_prop in Heoi as [Ht Hsp]. apply Z.eqb_eq in Ht. apply negb_true_iff in Hsp.
      split; [assumption|]. split; [assumption|]. right. split; [assumption|]. split; [exact R3|]. split; assumption.
    - 
      assert (Hlt : l_off l1 < slen l1) by (change (l_off l < slen l); lia).
      destruct (dfa_loop_ok lx Hwf (inner l) start l1 0 None) as (st & l2 & h2 & b2 & E & P1 & P2 & P3 & P4 & P5 & P6).
      { unfold inner, remaining. change (slen l1) with (slen l). change (l_off l1) with (l_off l). lia. }
      { exact Hl1. }
      { lia. }
      { apply Z.le_refl. }
      { exact I. }
      { intros _. split; [lia|]. split; assumption. }
      exists st, l2, h2, b2. split; [exact E|]. split; [exact P1|]. split; [assumption|]. split; [assumption|]. split; [exact P4|].
      intros tok sp l3 Ef. pose proof P3 as (_ & T2 & _). change (l_tokoff l1) with (l_off l) in T2, P6.
      destruct (Z.eq_dec (l_off l2) (l_off l)) as [Eq|Nq].
      + destruct (P6 Eq) as (-> & ->). destruct b2 as [[[a o] hh]|]; [cbn [bk_ok] in P5; lia|].
        destruct (finish_stuck lx Hwf l1 h2 eq_refl) as (tok' & Es). rewrite Es in Ef. inversion Ef; subst tok sp l3.
        destruct (proj2 (linv_char lx l1 Hl1) Hlt) as (_ & Hscan & _).
        destruct (rewind_ok lx l1 (l_scan l1) Hl1 ltac:(unfold slen in *; lia)) as (R1 & R2 & R3).
        split; [assumption|]. split; [assumption|]. left. change (l_scan l) with (l_scan l1). rewrite R3. exact (proj1 Hscan).
      + change (l_off l1) with (l_off l) in P4.
        destruct (finish_progress lx st l2 h2 b2 tok sp l3 P2 ltac:(lia) ltac:(lia) P5 Ef) as (F1 & F2 & F3).
        split; [assumption|]. split; [eapply same_trans; eauto|].
        left. destruct F2 as (_ & T3 & _). lia.
  Qed.

  Definition tok_facts (l0 : lstate) (tok : Z) (l' : lstate) : Prop :=
    linv lx l' /\ l_src l' = l_src l0 /\ l_off l0 <= l_tokoff l' /\ l_tokoff l' <= l_off l' /\
    (l_tokoff l' < l_off l' \/ (tok = 0 /\ l_off l' = slen l' /\ l_tokoff l' = l_off l')) /\
    (lx_token_line lx = true -> l_tokline l' = 1 + count_nl (firstn (Z.to_nat (l_tokoff l')) (l_src l'))) /\
    (lx_token_line lx && lx_token_column lx = true ->
       l_tokcol l' = l_tokoff l' - after_last_nl (firstn (Z.to_nat (l_tokoff l')) (l_src l')) 0 0 + 1).

  Lemma next_tok_ok fuel : forall l, (remaining l < fuel)%nat -> linv lx l ->
    exists tok l', next_tok fuel lx sc l = Some (tok, l') /\ tok_facts l tok l'.
  Proof.
    induction fuel as [|f IH]; intros l Hf Hl; [lia|].
    rewrite (next_tok_unfold f l).
    destruct (attempt_ok l Hl) as (st & l2 & h2 & b2 & E & _ & _ & _ & _ & Hfin).
    rewrite E. destruct (finish lx st l2 h2 b2) as [[tok sp] l3] eqn:Ef.
    destruct (Hfin tok sp l3 eq_refl) as (Hl3 & (S1 & S2 & S3 & S4) & Hprog).
    cbn [tok_start l_src l_tokoff l_tokline l_tokcol] in S1, S2, S3, S4.
    pose proof (li_off lx l Hl) as Hoff. pose proof (li_off lx l3 Hl3) as Hoff3.
    assert (Hslen : slen l3 = slen l) by (unfold slen; rewrite S1; reflexivity).
    destruct sp.
    - destruct Hprog as [Hp|(_ & _ & _ & Hsp)]; [|discriminate].
      destruct (IH l3) as (tok' & l' & En & F1 & F2 & F3 & F4 & F5 & F6 & F7); [unfold remaining in *; lia|assumption|].
      exists tok', l'. split; [exact En|].
      split; [assumption|]. split; [congruence|]. split; [lia|]. split; [assumption|].
      split; [assumption|split; assumption].
    - exists tok, l3. split; [reflexivity|].
      split; [assumption|]. split; [assumption|]. split; [lia|]. split; [lia|]. split; [lia|].
      split.
      + intros Htl. rewrite S3, S2, S1. exact (li_line lx l Hl Htl).
      + intros Htc. rewrite S4, S2, S1, (li_lineoff lx l Hl Htc). reflexivity.
  Qed.

  (* (a) next_terminates: the fuel 1 + remaining bytes is always enough *)
  Theorem next_terminates l : linv lx l -> exists tok l', next_tok (next_fuel l) lx sc l = Some (tok, l') /\ tok_facts l tok l'.
  Proof. intros Hl. apply next_tok_ok; [unfold next_fuel; lia|assumption]. Qed.

  Theorem eoi_repeats l : linv lx l -> l_off l = slen l ->
    exists l', next_tok (next_fuel l) lx sc l = Some (0, l') /\ linv lx l' /\ l_src l' = l_src l /\
               l_off l' = slen l' /\ l_tokoff l' = slen l'.
  Proof.
    intros Hl He. destruct (next_terminates l Hl) as (tok & l' & E & F1 & F2 & F3 & F4 & F5 & _).
    pose proof (li_off lx l' F1) as Ho'. assert (Hs : slen l' = slen l) by (unfold slen; rewrite F2; reflexivity).
    destruct F5 as [F5|(A & B & C)]; [lia|]. subst tok.
    exists l'. split; [exact E|]. split; [assumption|]. split; [assumption|]. split; [assumption|]. lia.
  Qed.

  (* the observable stream: tokens in order, non-empty, the last one end-of-input; lines and columns of first bytes *)
  Inductive stream_ok (src : list Z) : Z -> list (list Z) -> Prop :=
  | SO_eoi lo s e ln col : lo <= s <= e -> pos_ok src s ln col -> stream_ok src lo [[0; s; e; ln; col]]
  | SO_tok lo tok s e ln col rest : tok <> 0 -> lo <= s -> s < e -> pos_ok src s ln col ->
      stream_ok src e rest -> stream_ok src lo ([tok; s; e; ln; col] :: rest)
  with pos_ok (src : list Z) : Z -> Z -> Z -> Prop :=
  | PO s ln col :
      (lx_token_line lx = true -> ln = 1 + count_nl (firstn (Z.to_nat s) src)) ->
      (lx_token_line lx && lx_token_column lx = true -> col = s - after_last_nl (firstn (Z.to_nat s) src) 0 0 + 1) ->
      pos_ok src s ln col.

  (* (c) tokens_finite_and_end_in_eoi: at most 1 + remaining bytes calls of Next *)
  Theorem tokens_finite_and_end_in_eoi n : forall l, (remaining l < n)%nat -> linv lx l ->
    exists toks, lex_all n lx sc l = Some toks /\ stream_ok (l_src l) (l_off l) toks.
  Proof.
    induction n as [|n IH]; intros l Hn Hl; [lia|]. cbn [lex_all].
    destruct (next_terminates l Hl) as (tok & l' & E & F1 & F2 & F3 & F4 & F5 & F6 & F7). rewrite E.
    assert (Hpos : pos_ok (l_src l) (l_tokoff l') (l_tokline l') (l_tokcol l')) by (constructor; rewrite <- F2; assumption).
    destruct (Z.eqb_spec tok 0) as [->|Hne].
    - eexists. split; [reflexivity|]. unfold obs. apply SO_eoi; [lia|assumption].
    - destruct F5 as [F5|(A & _)]; [|congruence].
      pose proof (li_off lx l' F1) as Ho'. assert (Hs : slen l' = slen l) by (unfold slen; rewrite F2; reflexivity).
      destruct (IH l') as (rest & Er & Hr); [unfold remaining in *; lia|assumption|].
      rewrite Er. eexists. split; [reflexivity|]. unfold obs. apply SO_tok; try assumption. rewrite <- F2. assumption.
  Qed.

  Lemma stream_from_init src : bytes_ok src ->
    exists toks, lex_all (S (length src)) lx sc (init lx src) = Some toks /\ stream_ok src 0 toks.
  Proof.
    intros Hsrc. destruct (init_ok lx src Hsrc) as (Hi & Hs & Ho).
    destruct (tokens_finite_and_end_in_eoi (S (length src)) (init lx src)) as (toks & E & Hok);
      [unfold remaining, slen; rewrite Hs, Ho; lia|exact Hi|].
    rewrite Hs, Ho in Hok. eauto.
  Qed.
End Next.

Section Run.
  Variable lx : lexer.
  Hypothesis Hwf : wf_lexer_tables lx = true.
  Variable sc : Z.
  Hypothesis Hsc : In (nthZ (state_map (lx_tables lx)) sc) (state_map (lx_tables lx)).

  Lemma next_any_fuel l : linv lx l ->
    exists tok l', next_tok (S (S (length (l_src l)))) lx sc l = Some (tok, l') /\ linv lx l' /\ l_src l' = l_src l.
  Proof.
    intros Hl. destruct (next_tok_ok lx Hwf sc Hsc (S (S (length (l_src l)))) l) as (tok & l' & E & F1 & F2 & _).
    - pose proof (li_off lx l Hl). unfold remaining, slen in *. lia.
    - assumption.
    - exists tok, l'. auto.
  Qed.

  Lemma stream_no_timeout cap : forall l, linv lx l -> ~ In [-3] (stream cap lx sc l).
  Proof.
    induction cap as [|c IH]; intros l Hl; cbn [stream].
    - intros [H|[]]; discriminate.
    - destruct (next_any_fuel l Hl) as (tok & l1 & E1 & H1 & S1). rewrite E1.
      destruct (tok =? 0).
      + destruct (next_any_fuel l1 H1) as (tok2 & l2 & E2 & H2 & S2). rewrite S1 in E2. rewrite E2.
        destruct (next_any_fuel l2 H2) as (tok3 & l3 & E3 & H3 & S3). rewrite S2, S1 in E3. rewrite E3.
        unfold obs. intros [H|[H|[H|[]]]]; discriminate.
      + intros [H|H]; [unfold obs in H; discriminate|]. exact (IH l1 H1 H).
  Qed.

  Theorem run_lexer_never_out_of_fuel src bom : bytes_ok src -> ~ In [-3] (run_lexer lx sc src bom).
  Proof.
    intros Hsrc. destruct (init_ok lx src Hsrc) as (Hi & Hs & Ho). unfold run_lexer.
    destruct src as [|b0 [|b1 [|b2 r]]]; try (apply stream_no_timeout; assumption).
    destruct (bom && (b0 =? 239) && (b1 =? 187) && (b2 =? 191)); [|apply stream_no_timeout; assumption].
    apply stream_no_timeout. apply rewind_ok; [assumption|unfold slen; rewrite Hs; cbn [length]; lia].
  Qed.
End Run.
