(* C11 next_spec / C12 gaps_are_space_matches: Next of the generated lexer returns the token the rules define.
   (a) one run of the DFA loop, read through handleInvalidToken's use of the backup (outcome), is the reference run
   Scan.longest_accept of C09 on the rest of the source; (b) keyword switch; (c) restart loop; (d) the stream.
   thash, outcome, obs3, certified are the vocabulary of the C11/C12 statements. *)
From Coq Require Import List ZArith Bool Lia.
From TM Require Import Lib.ListX Lex.Tables Lex.Tables_proofs Lex.Scan Lex.Scan_proofs Lex.LexerRT Lex.LexerRT_proofs Lex.LexerWf
  Lex.LexerWf_proofs Lex.Deriv Lex.DerivSem Lex.Deriv_scan_proofs Lex.LexerSpec.
Import ListNotations.
Local Open Scope Z_scope.

Lemma eoi_run_S f t state backup : eoi_run (S f) t state backup =
  if state <? 0 then Some (state, backup)
  else let st := cell t state 0 in
       if (st >? action_start t) && (st <? 0) then let '(a, ns) := bt_entry t st in eoi_run f t ns (Some a)
       else eoi_run f t st backup.
Proof. reflexivity. Qed.

Lemma decode_is_decode_b t s : decode t s = decode_b (scan_bytes t) s.
Proof. reflexivity. Qed.

Lemma symbols_nil bytes : symbols bytes [] = [].
Proof. reflexivity. Qed.

Lemma hash_syms_0 l size h : size <= 0 -> hash_syms l size h = h.
Proof. intros H. destruct l as [|[c w] r]; [reflexivity|]. cbn [hash_syms]. rewrite (proj2 (Z.leb_le size 0) H). reflexivity. Qed.

(* the hash of the first `size` bytes of the token starting at tk *)
Definition thash (bytes : bool) (src : list Z) (tk size : Z) : Z :=
  hash_syms (symbols bytes (skipn (Z.to_nat tk) src)) size 0.

(* what the lexer's backup remembers, in the terms of the reference run: (offset in the token, action) *)
Definition bk_view (tk : Z) (bk : option (Z * Z * Z)) : option (Z * Z) :=
  match bk with Some (a, o, _) => Some (o - tk, a) | None => None end.

Section Bridge.
  Variable lx : lexer.
  Notation t := (lx_tables lx).
  Notation bytes := (scan_bytes (lx_tables lx)).
  Hypothesis Hwf : wf_lexer_tables lx = true.
  Hypothesis Hchk : check_tables t = true.

  Definition bk_wf (src : list Z) (tk off : Z) (bk : option (Z * Z * Z)) : Prop :=
    match bk with
    | Some (a, o, hh) => tk <= o <= off /\ hh = thash bytes src tk (o - tk) /\ a <> 0
    | None => True
    end /\ (has_bt lx = false -> bk = None).

  Definition hash_inv (src : list Z) (tk off h : Z) : Prop :=
    forall size, off - tk <= size ->
      thash bytes src tk size = hash_syms (symbols bytes (skipn (Z.to_nat off) src)) (size - (off - tk)) h.

  (* what the final cell, the offset reached and the backup stand for *)
  Definition outcome (tk st off2 : Z) (b2 : option (Z * Z * Z)) : Z * Z :=
    let a0 := action_start t - st in
    if a0 =? 0 then match b2 with Some (a, o, _) => (o - tk, a) | None => (off2 - tk, 0) end
    else (off2 - tk, a0).

  Lemma outcome_stop tk st off bk : outcome tk st off bk = stop_value (action_start t - st) (bk_view tk bk) (off - tk).
  Proof. unfold outcome, stop_value. destruct (_ =? 0); [destruct bk as [[[a o] h]|]|]; reflexivity. Qed.

  Lemma no_bt_no_checkpoint c : has_bt lx = false -> action_start t < c < 0 -> False.
  Proof.
    unfold has_bt, action_start. intros H Hc. apply negb_false_iff in H. apply Nat.eqb_eq in H. rewrite H in Hc. cbn in Hc. lia.
  Qed.

  Lemma eoi_run_nobt k : forall s eb c b', has_bt lx = false -> eoi_run k t s eb = Some (c, b') -> b' = eb.
  Proof.
    induction k as [|k IH]; intros s eb c b' Hb E; [discriminate|]. rewrite eoi_run_S in E.
    destruct (s <? 0); [inversion E; reflexivity|]. cbv zeta in E.
    destruct ((cell t s 0 >? action_start t) && (cell t s 0 <? 0)) eqn:Ec.
    - exfalso. apply andb_true_iff in Ec. destruct Ec as [E1 E2]. rewrite Z.gtb_ltb in E1. apply Z.ltb_lt in E1, E2.
      apply (no_bt_no_checkpoint (cell t s 0) Hb). lia.
    - eapply IH; eauto.
  Qed.

  Lemma eoi_bridge tk off h inc : forall k s eb last k' c b',
    (k <= k')%nat -> 0 <= s < nstates t ->
    eoi_run (S k) t s eb = Some (c, b') ->
    keeps t s (bk_view tk (lift_backup eb off h inc)) last ->
    ref_eoi k' t s (off - tk) last = outcome tk c off (lift_backup b' off h inc) /\
    (forall a, b' = Some a -> eb = Some a \/ a <> 0).
  Proof.
    destruct (chk_parts t Hchk) as (Hns & _). pose proof (action_start_neg t) as Has.
    induction k as [|k IH]; intros s eb last k' c b' Hk Hs E HB;
      rewrite eoi_run_S, (proj2 (Z.ltb_ge s 0)) in E by lia; cbv zeta in E.
    - exfalso. destruct (_ && _); [destruct (bt_entry t (cell t s 0))|]; discriminate.
    - destruct k' as [|k']; [lia|]. cbn [ref_eoi].
      destruct (ref_step t Hchk s 0 (off - tk) _ last Hs ltac:(lia) HB) as [(C & -> & K')|[(C & -> & Hn & Ha & Hl & K')|(C & -> & ->)]].
      + rewrite (proj2 (Z.ltb_ge (cell t s 0) 0)), andb_false_r in E by lia.
        apply (IH _ eb _ k' c b' ltac:(lia) C E K').
      + rewrite (proj2 (Z.gtb_lt _ _)), (proj2 (Z.ltb_lt _ 0)) in E by lia. cbn [andb] in E.
        destruct (bt_entry t (cell t s 0)) as [a ns]. cbn [fst snd] in *. subst a.
        destruct (IH ns (Some (label t s)) (upd t s (off - tk) last) k' c b' ltac:(lia) Hn E K') as (R1 & R2).
        split; [exact R1|]. intros a0 Ha0. right. destruct (R2 a0 Ha0) as [R|R]; [congruence|exact R].
      + rewrite Z.gtb_ltb, (proj2 (Z.ltb_ge _ _)) in E by lia. cbn [andb] in E.
        rewrite eoi_run_S, (proj2 (Z.ltb_lt (cell t s 0) 0)) in E by lia. inversion E; subst c b'.
        split; [|auto]. rewrite outcome_stop. reflexivity.
  Qed.

  Lemma hash_here src tk off h : tk <= off -> hash_inv src tk off h -> h = thash bytes src tk (off - tk).
  Proof. intros Ht Hh. rewrite (Hh (off - tk)) by lia. rewrite hash_syms_0 by lia. reflexivity. Qed.

  (* the lexer's cursor in the terms of the symbol sequence: the character read is the next symbol *)
  Lemma cursor l : linv lx l -> l_off l < slen l ->
    let text := skipn (Z.to_nat (l_off l)) (l_src l) in
    exists w, decode_b bytes text = (l_ch l, w) /\ l_scan l = l_off l + Z.of_nat w /\ text <> [] /\
      symbols bytes text = (l_ch l, w) :: symbols bytes (skipn (Z.to_nat (l_scan l)) (l_src l)).
  Proof.
    intros Hl Hlt text. pose proof (li_off lx l Hl) as Hoff.
    assert (Hne : text <> []).
    { intro E0. apply (f_equal (@length Z)) in E0. unfold text in E0. rewrite skipn_length in E0. unfold slen in *. cbn [length] in E0. lia. }
    pose proof (li_read lx l Hl) as Hr. fold text in Hr. rewrite (read_char_decode _ _ _ Hne) in Hr.
    rewrite (symbols_cons bytes text Hne). destruct (decode_b bytes text) as [c w]. cbn [fst snd] in *.
    inversion Hr; subst. exists w. split; [reflexivity|]. split; [reflexivity|]. split; [exact Hne|].
    unfold text. rewrite skipn_skipn'. do 3 f_equal. lia.
  Qed.

  Lemma dfa_bridge fuel : forall s l h bk last st l2 h2 b2,
    dfa_loop fuel lx s l h bk = Some (st, l2, h2, b2) ->
    (remaining l + Z.to_nat (nstates t) + 2 <= fuel)%nat ->
    linv lx l -> 0 <= s < nstates t -> l_tokoff l <= l_off l ->
    keeps t s (bk_view (l_tokoff l) bk) last ->
    bk_wf (l_src l) (l_tokoff l) (l_off l) bk -> hash_inv (l_src l) (l_tokoff l) (l_off l) h ->
    ref_run t s (l_off l - l_tokoff l) last (symbols bytes (skipn (Z.to_nat (l_off l)) (l_src l))) =
      outcome (l_tokoff l) st (l_off l2) b2 /\
    bk_wf (l_src l) (l_tokoff l) (l_off l2) b2 /\ h2 = thash bytes (l_src l) (l_tokoff l) (l_off l2 - l_tokoff l).
  Proof.
    induction fuel as [|f IH]; intros s l h bk last st l2 h2 b2 E Hf Hl Hs Htk HB Hbk Hh; [discriminate|].
    pose proof (li_off lx l Hl) as Hoff. pose proof (action_start_neg t) as Has.
    destruct (l_ch l <? 0) eqn:Ech.
    - 
      assert (He : l_off l = slen l) by (apply (linv_ch lx l Hl); assumption).
      destruct (dfa_at_end lx Hwf (S f) s l h bk Hl He Hs ltac:(unfold eoi_fuel; lia)) as (c & b & Er & _ & E').
      rewrite E' in E. inversion E; subst st l2 h2 b2. clear E E'.
      destruct (eoi_bridge (l_tokoff l) (l_off l) h bk _ s None last _ c b (le_n _) Hs Er HB) as (R1 & R2).
      rewrite skipn_all2 by (unfold slen in He; lia). split; [exact R1|]. split; [|apply hash_here; assumption].
      destruct b as [a|]; cbn [lift_backup]; [|exact Hbk]. split.
      + split; [lia|]. split; [apply hash_here; assumption|]. destruct (R2 a eq_refl) as [R|R]; [discriminate|exact R].
      + intros Hb. pose proof (eoi_run_nobt _ _ _ _ _ Hb Er). discriminate.
    - 
      assert (Hlt : l_off l < slen l).
      { destruct (Z.eq_dec (l_off l) (slen l)) as [E0|]; [|lia]. apply (linv_ch lx l Hl) in E0. congruence. }
      destruct (cursor l Hl Hlt) as (w & _ & Hsc & _ & Hsym). rewrite Hsym. cbn [ref_run].
      rewrite dfa_loop_char in E by (assumption || lia). cbv zeta in E.
      destruct (advance_ok lx l Hl Hlt) as (Hl' & (Hs1 & Hs2 & _) & Hoff' & Hscr).
      pose proof (remaining_advance lx l Hl Hlt) as Hrem.
      assert (Hh' : hash_inv (l_src l) (l_tokoff l) (l_scan l) (wrap32u (h * 31 + l_ch l))).
      { intros size Hsz. rewrite (Hh size), Hsym by lia. cbn [hash_syms].
        rewrite (proj2 (Z.leb_gt (size - (l_off l - l_tokoff l)) 0)) by lia. f_equal. lia. }
      destruct (chk_parts t Hchk) as (_ & _ & _ & _ & Hy).
      set (c := cell t s (lookup_sym (symbol_map t) (l_ch l))) in *.
      destruct (ref_step t Hchk s _ (l_off l - l_tokoff l) _ last Hs (Hy (l_ch l)) HB)
        as [(C & -> & K')|[(C & -> & Hn & Ha & Hl0 & K')|(C & -> & V)]]; fold c in C.
      + (* plain move *)
        rewrite (proj2 (Z.gtb_lt c _)), (proj2 (Z.ltb_ge c 0)) in E by lia.
        destruct (IH _ _ _ _ (upd t s (l_off l - l_tokoff l) last) _ _ _ _ E) as (R1 & R2 & R3);
          rewrite ?Hs1, ?Hs2, ?Hoff'; try assumption; try lia.
        { destruct Hbk as (B1 & B2). split; [|assumption]. destruct bk as [[[a o] hh]|]; [|exact I].
          destruct B1 as (? & ? & ?). repeat split; try assumption; lia. }
        rewrite Hs1, Hs2 in R1, R2, R3. rewrite Hoff' in R1. replace (l_off l - l_tokoff l + Z.of_nat w) with (l_scan l - l_tokoff l) by lia.
        split; [exact R1|]. split; assumption.
      + (* checkpoint *)
        fold c in Hn, Ha, K'. rewrite (proj2 (Z.gtb_lt c _)), (proj2 (Z.ltb_lt c 0)) in E by lia.
        destruct (IH _ _ _ _ (upd t s (l_off l - l_tokoff l) last) _ _ _ _ E) as (R1 & R2 & R3);
          rewrite ?Hs1, ?Hs2, ?Hoff'; try assumption; try lia.
        { cbn [bk_view]. rewrite Ha. exact K'. }
        { split.
          - split; [lia|]. split; [apply hash_here; assumption|congruence].
          - intros Hb. exfalso. apply (no_bt_no_checkpoint c Hb). lia. }
        rewrite Hs1, Hs2 in R1, R2, R3. rewrite Hoff' in R1. replace (l_off l - l_tokoff l + Z.of_nat w) with (l_scan l - l_tokoff l) by lia.
        split; [exact R1|]. split; assumption.
      + (* stop cell *)
        rewrite Z.gtb_ltb, (proj2 (Z.ltb_ge _ _)) in E by lia. destruct f as [|f0]; [discriminate|].
        rewrite dfa_loop_neg in E by lia. inversion E; subst st l2 h2 b2.
        rewrite V, outcome_stop. split; [reflexivity|]. split; [assumption|apply hash_here; assumption].
  Qed.
End Bridge.

Section Attempt.
  Variable lx : lexer.
  Notation t := (lx_tables lx).
  Notation bytes := (scan_bytes (lx_tables lx)).
  Hypothesis Hwf : wf_lexer_tables lx = true.
  Hypothesis Hchk : check_tables t = true.
  Variable sc : Z.
  Hypothesis Hsc : In (nthZ (state_map t) sc) (state_map t).

  Lemma attempt_bridge l st l2 h2 b2 : linv lx l ->
    dfa_loop (inner lx l) lx (nthZ (state_map t) sc) (tok_start l) 0 None = Some (st, l2, h2, b2) ->
    longest_accept t sc (skipn (Z.to_nat (l_off l)) (l_src l)) = outcome lx (l_off l) st (l_off l2) b2 /\
    bk_wf lx (l_src l) (l_off l) (l_off l2) b2 /\ h2 = thash bytes (l_src l) (l_off l) (l_off l2 - l_off l) /\
    st < 0 /\ linv lx l2 /\ same (tok_start l) l2 /\ l_off l <= l_off l2.
  Proof.
    intros Hl E. destruct (attempt_ok lx Hwf sc Hsc l Hl) as (st' & l2' & h2' & b2' & E' & P1 & P2 & P3 & P4 & _).
    rewrite E in E'. inversion E'; subst st' l2' h2' b2'. clear E'.
    enough (longest_accept t sc (skipn (Z.to_nat (l_off l)) (l_src l)) = outcome lx (l_off l) st (l_off l2) b2 /\
            bk_wf lx (l_src l) (l_off l) (l_off l2) b2 /\ h2 = thash bytes (l_src l) (l_off l) (l_off l2 - l_off l)) by tauto.
    pose proof (linv_tokfields lx l (l_off l) (l_line l) (l_off l - l_lineoff l + 1) Hl) as Hl1. fold (tok_start l) in Hl1.
    unfold longest_accept. rewrite ref_text_run by lia.
    pose proof (dfa_bridge lx Hwf Hchk _ _ (tok_start l) 0 None None st l2 h2 b2 E) as B.
    cbn [tok_start l_src l_off l_tokoff] in B. rewrite Z.sub_diag in B. apply B; clear B.
    - unfold inner, remaining. change (slen (tok_start l)) with (slen l). cbn [tok_start l_off]. lia.
    - exact Hl1.
    - apply (wf_start lx (wf_parts lx Hwf)). exact Hsc.
    - apply Z.le_refl.
    - intros _. reflexivity.
    - split; [exact I|reflexivity].
    - intros size Hsz. unfold thash. rewrite Z.sub_diag, Z.sub_0_r. reflexivity.
  Qed.
End Attempt.

Lemma assocZ_in {A} k (m : list (Z * A)) v : assocZ k m = Some v -> In (k, v) m.
Proof.
  unfold assocZ. destruct (find (fun e => fst e =? k) m) as [[k' v']|] eqn:F; [|discriminate].
  intros E. inversion E; subst v'. apply find_some in F. destruct F as [Hin Hk]. cbn [fst] in Hk. apply Z.eqb_eq in Hk. subst k'. exact Hin.
Qed.

Lemma kw_switch_ne lx a h txt : kw_targets_ok lx = true -> a <> inv_act lx -> kw_switch lx a h txt <> inv_act lx.
Proof.
  intros Hk Ha. unfold kw_switch. destruct (assocZ a (lx_kw lx)) as [subc|] eqn:E1; [|assumption].
  destruct (assocZ a (lx_mask lx)); [|assumption].
  match goal with |- context [find ?p subc] => destruct (find p subc) as [[[[b hh] key] a']|] eqn:F; [|assumption] end.
  apply find_some in F. destruct F as [Hin _]. apply assocZ_in in E1.
  unfold kw_targets_ok in Hk. rewrite forallb_forall in Hk. specialize (Hk _ E1). cbn [snd] in Hk.
  rewrite forallb_forall in Hk. specialize (Hk _ Hin). cbv beta iota in Hk. apply negb_true_iff in Hk. apply Z.eqb_neq in Hk. exact Hk.
Qed.

Lemma attempt_space_gap lx kwf act_of rules src pos tok e b :
  spec_attempt lx kwf act_of rules src pos = (tok, true, e) ->
  space_gap lx kwf act_of rules src e b -> space_gap lx kwf act_of rules src pos b.
Proof.
  unfold spec_attempt. intros Ha Hg.
  pose proof (spec_scan_correct (scan_bytes (lx_tables lx)) rules (skipn (Z.to_nat pos) src)) as Hc.
  destruct (spec_scan (scan_bytes (lx_tables lx)) rules (skipn (Z.to_nat pos) src)) as [size a].
  destruct (Z.eqb_spec a 0) as [E0|E0].
  - exfalso. destruct (size =? 0); [destruct (skipn (Z.to_nat pos) src)|]; discriminate.
  - inversion Ha as [[Ht Hm He]]. clear Ha.
    destruct Hc as [(i & k & a0 & Hcand & Hres & Hw & _)|(_ & m & _ & Hres & _)].
    + inversion Hres; subst size a0. clear Hres.
      destruct (winner_matches _ _ _ Hw) as (r & p & Hn & Hr).
      subst e. eapply SG_cons; [exact Hn|exact Hcand|exact Hr|exact Hm|exact Hg].
    + cbn [sverdict] in Hres. inversion Hres. congruence.
Qed.

Section NextSpec.
  Variable lx : lexer.
  Notation t := (lx_tables lx).
  Notation bytes := (scan_bytes (lx_tables lx)).
  Hypothesis Hwf : wf_lexer_tables lx = true.
  Hypothesis Hchk : check_tables t = true.
  Hypothesis Hkw : kw_targets_ok lx = true.
  Hypothesis Hrt : lx_rule_token lx <> [].
  Variable sc : Z.
  Hypothesis Hsc : In (nthZ (state_map t) sc) (state_map t).
  Variable rules : list srule.
  Hypothesis Hcert : forall text, bytes_ok text -> longest_accept t sc text = spec_scan bytes rules text.
  Notation start := (nthZ (state_map t) sc).
  Notation idact := (fun a : Z => a).

  Lemma attempt_spec l st l2 h2 b2 tok sp l3 : linv lx l ->
    dfa_loop (inner lx l) lx start (tok_start l) 0 None = Some (st, l2, h2, b2) ->
    finish lx st l2 h2 b2 = (tok, sp, l3) ->
    spec_attempt lx (kwf_switch lx) idact rules (l_src l) (l_off l) = (tok, sp, l_off l3).
  Proof.
    intros Hl E Ef. pose proof (wf_kw lx (wf_parts lx Hwf)) as Hkwnone. pose proof (li_off lx l Hl) as Hoff.
    destruct (attempt_bridge lx Hwf Hchk sc Hsc l st l2 h2 b2 Hl E) as (R1 & R6 & R7 & _ & R3 & (S1 & S2 & _) & R5).
    cbn [tok_start l_src l_tokoff] in S1, S2.
    rewrite Hcert in R1 by (apply Forall_skipn'; exact (li_src lx l Hl)).
    assert (Hinv : inv_act lx = 0) by (unfold inv_act; destruct (lx_rule_token lx); [congruence|reflexivity]).
    pose proof (li_off lx l2 R3) as Hoff2. assert (Hslen : slen l2 = slen l) by (unfold slen; rewrite S1; reflexivity).
    assert (Hbt : (if has_bt lx then b2 else None) = b2).
    { destruct (has_bt lx) eqn:Eb; [reflexivity|]. destruct R6 as (_ & R6). symmetry. apply R6. exact Eb. }
    unfold spec_attempt. rewrite R1. unfold outcome, kwf_switch. cbv zeta.
    rewrite finish_shape in Ef. cbv beta zeta in Ef. rewrite Hbt, S1, S2, Hinv in Ef. rewrite Hinv in Hkwnone.
    destruct (Z.eqb_spec (action_start t - st) 0) as [E0|E0].
    - rewrite E0, (kw_none lx 0 _ _ Hkwnone), Z.eqb_refl in Ef.
      destruct b2 as [[[a o] hh]|].
      + (* handleInvalidToken returns to the backup *)
        destruct R6 as ((B1 & B2 & B3) & _).
        destruct (rewind_ok lx l2 o R3 ltac:(lia)) as (A & (C1 & C2 & _) & C3).
        rewrite (proj2 (Z.eqb_neq a 0) B3). inversion Ef; subst tok sp l3. clear Ef.
        rewrite C1, C2, C3, S1, S2. replace (l_off l + (o - l_off l)) with o by lia. rewrite B2. reflexivity.
      + rewrite Z.eqb_refl, Hinv. destruct (Z.eqb_spec (l_off l2) (l_off l)) as [Ee|Ee].
        * rewrite Ee, Z.sub_diag, Z.eqb_refl in *.
          destruct (Z.eq_dec (l_off l) (slen l)) as [Hend|Hmid].
          -- (* end of input *)
             rewrite skipn_all2 by (unfold slen in Hend; lia).
             destruct (proj1 (linv_char lx l2 R3) ltac:(unfold slen in *; lia)) as (Hc & Hs & _). rewrite Hc, Z.eqb_refl, Hs in Ef.
             destruct (rewind_ok lx l2 (l_off l2) R3 ltac:(lia)) as (_ & _ & C3).
             inversion Ef; subst tok sp l3. rewrite C3, Ee. reflexivity.
          -- (* nothing viable: one character is skipped *)
             destruct (cursor lx l2 R3 ltac:(lia)) as (w & Hd & Hs & Hne & _). rewrite S1, Ee in Hd, Hne.
             destruct (proj2 (linv_char lx l2 R3) ltac:(unfold slen in *; lia)) as (Hch & Hscr & _).
             rewrite (proj2 (Z.eqb_neq (l_ch l2) (-1))) in Ef by lia.
             destruct (rewind_ok lx l2 (l_scan l2) R3 ltac:(unfold slen in *; lia)) as (_ & _ & C3).
             inversion Ef; subst tok sp l3. rewrite C3, Hs, Ee, Hd.
             destruct (skipn (Z.to_nat (l_off l)) (l_src l)); [congruence|reflexivity].
        * rewrite (proj2 (Z.eqb_neq (l_off l2 - l_off l) 0)) by lia.
          inversion Ef; subst tok sp l3. f_equal. lia.
    - rewrite (proj2 (Z.eqb_neq _ _) E0). rewrite R7 in Ef. unfold thash in Ef.
      replace (l_off l + (l_off l2 - l_off l)) with (l_off l2) by lia.
      pose proof (kw_switch_ne lx (action_start t - st)) as Hne. rewrite Hinv in Hne.
      rewrite (proj2 (Z.eqb_neq _ _) (Hne _ _ Hkw E0)) in Ef.
      inversion Ef; subst tok sp l3. reflexivity.
  Qed.

  (* (c) the restart loop: Next = spec_next, and what was skipped is a sequence of matches of space rules *)
  Lemma next_spec fuel : forall l tok l', (remaining l < fuel)%nat -> linv lx l ->
    next_tok fuel lx sc l = Some (tok, l') ->
    spec_next fuel lx (kwf_switch lx) idact rules (l_src l) (l_off l) = Some (tok, l_tokoff l', l_off l') /\
    space_gap lx (kwf_switch lx) idact rules (l_src l) (l_off l) (l_tokoff l').
  Proof.
    induction fuel as [|f IH]; intros l tok l' Hf Hl En; [lia|].
    rewrite (next_tok_unfold lx sc f l) in En.
    destruct (attempt_ok lx Hwf sc Hsc l Hl) as (st & l2 & h2 & b2 & E & _ & _ & _ & _ & Hfin).
    rewrite E in En. destruct (finish lx st l2 h2 b2) as [[tok0 sp] l3] eqn:Ef.
    destruct (Hfin tok0 sp l3 eq_refl) as (Hl3 & (S1 & S2 & _) & Hprog).
    cbn [tok_start l_src l_tokoff] in S1, S2.
    pose proof (attempt_spec l st l2 h2 b2 tok0 sp l3 Hl E Ef) as Ha.
    cbn [spec_next]. rewrite Ha.
    pose proof (li_off lx l Hl) as Hoff. pose proof (li_off lx l3 Hl3) as Hoff3.
    assert (Hslen : slen l3 = slen l) by (unfold slen; rewrite S1; reflexivity).
    destruct sp.
    - destruct Hprog as [Hp|(_ & _ & _ & Hsp)]; [|discriminate].
      destruct (IH l3 tok l') as (I1 & I2); [unfold remaining in *; lia|assumption|assumption|].
      rewrite S1 in I1, I2. split; [exact I1|].
      eapply attempt_space_gap; eauto.
    - inversion En; subst tok0 l3. split; [rewrite S2; reflexivity|]. rewrite S2. apply SG_nil.
  Qed.

  Definition obs3 (o : list Z) : Z * Z * Z := (nth 0 o 0, nth 1 o 0, nth 2 o 0).

  Lemma lex_all_spec n : forall l toks, linv lx l -> lex_all n lx sc l = Some toks ->
    spec_all n lx (kwf_switch lx) idact rules (l_src l) (l_off l) = Some (map obs3 toks) /\
    stream_gaps lx (kwf_switch lx) idact rules (l_src l) (l_off l) toks.
  Proof.
    induction n as [|n IH]; intros l toks Hl Ea; [discriminate|].
    cbn [lex_all] in Ea. cbn [spec_all].
    destruct (next_terminates lx Hwf sc Hsc l Hl) as (tok & l' & En & F1 & F2 & _).
    rewrite En in Ea.
    destruct (next_spec (next_fuel l) l tok l' ltac:(unfold next_fuel; lia) Hl En) as (Hs & Hg).
    unfold next_fuel, remaining, slen in Hs. rewrite Hs.
    destruct (tok =? 0).
    - inversion Ea; subst toks. split; [reflexivity|]. apply SGS_cons; [exact Hg|apply SGS_nil].
    - destruct (lex_all n lx sc l') as [r|] eqn:Er; [|discriminate]. inversion Ea; subst toks.
      destruct (IH l' r F1 Er) as (Hr & Hgr). rewrite F2 in Hr, Hgr. rewrite Hr.
      split; [reflexivity|]. apply SGS_cons; assumption.
  Qed.

  Theorem next_is_specified_token l : linv lx l ->
    exists tok l', next_tok (next_fuel l) lx sc l = Some (tok, l') /\
      spec_next (next_fuel l) lx (kwf_switch lx) idact rules (l_src l) (l_off l) = Some (tok, l_tokoff l', l_off l') /\
      space_gap lx (kwf_switch lx) idact rules (l_src l) (l_off l) (l_tokoff l').
  Proof.
    intros Hl. destruct (next_terminates lx Hwf sc Hsc l Hl) as (tok & l' & En & _).
    exists tok, l'. split; [exact En|]. apply next_spec; [unfold next_fuel; lia|exact Hl|exact En].
  Qed.

  Theorem stream_spec src : bytes_ok src ->
    exists toks, lex_all (S (length src)) lx sc (LexerRT.init lx src) = Some toks /\
      spec_all (S (length src)) lx (kwf_switch lx) idact rules src 0 = Some (map obs3 toks) /\
      stream_gaps lx (kwf_switch lx) idact rules src 0 toks.
  Proof.
    intros Hsrc. destruct (init_ok lx src Hsrc) as (Hi & Hs & Ho).
    destruct (stream_from_init lx Hwf sc Hsc src Hsrc) as (toks & E & _). exists toks. split; [exact E|].
    pose proof (lex_all_spec _ _ toks Hi E) as H. rewrite Hs, Ho in H. exact H.
  Qed.
End NextSpec.

Definition certified (t : tables) (sc : Z) (rules : list srule) : Prop :=
  forall text, bytes_ok text -> longest_accept t sc text = spec_scan (scan_bytes t) rules text.

Theorem gaps_are_space_matches lx sc rules src :
  wf_lexer_tables lx = true -> check_tables (lx_tables lx) = true -> kw_targets_ok lx = true -> lx_rule_token lx <> [] ->
  In (nthZ (state_map (lx_tables lx)) sc) (state_map (lx_tables lx)) -> certified (lx_tables lx) sc rules -> bytes_ok src ->
  exists toks, lex_all (S (length src)) lx sc (LexerRT.init lx src) = Some toks /\
    stream_gaps lx (kwf_switch lx) (fun a => a) rules src 0 toks.
Proof.
  intros H1 H2 H3 H4 H5 H6 H7. destruct (stream_spec lx H1 H2 H3 H4 sc H5 rules H6 src H7) as (toks & E & _ & G). eauto.
Qed.
