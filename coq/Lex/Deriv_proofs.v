(* C09: the derivative-based specification matcher (Deriv.v) is correct with respect to the declarative semantics
   (DerivSem.v): nullable, deriv, nonvoid, and spec_scan. *)
From Coq Require Import List ZArith Bool Lia.
From TM Require Import Lex.Charset Lex.RegexParse Lex.Deriv Lex.DerivSem.
Import ListNotations.
Local Open Scope Z_scope.

Lemma lang_matches r : forall w, lang r w -> matches r w.
Proof.
  induction r as [| |cs|a IHa b IHb|a IHa b IHb|mn mx s IHs]; intros w H; cbn [lang] in H.
  - contradiction.
  - subst. constructor.
  - destruct H as (c & -> & Hc). constructor. exact Hc.
  - destruct H as (u & v & -> & Hu & Hv). constructor; auto.
  - destruct H as [H|H]; [apply MAltL|apply MAltR]; auto.
  - destruct H as (ws & -> & HF & Hc). constructor; [|exact Hc].
    eapply Forall_impl; [|exact HF]. exact IHs.
Qed.

(* by a fixpoint on the derivation: MRep holds its premises under Forall, which `induction` gives no hypothesis for *)
Fixpoint matches_lang r w (H : matches r w) {struct H} : lang r w.
Proof.
  destruct H as [|cs c Hc|a b u v Ha Hb|a b w Ha|a b w Hb|mn mx s ws HF Hc]; cbn [lang].
  - reflexivity.
  - exists c. split; [reflexivity|exact Hc].
  - exists u, v. split; [reflexivity|]. split; apply matches_lang; assumption.
  - left. apply matches_lang; assumption.
  - right. apply matches_lang; assumption.
  - exists ws. split; [reflexivity|]. split; [|exact Hc].
    clear Hc. revert ws HF. fix go 2. intros ws HF. destruct HF as [|x l Hx Hl].
    + constructor.
    + constructor; [apply matches_lang; exact Hx|apply go; exact Hl].
Qed.

Lemma matches_iff_lang r w : matches r w <-> lang r w.
Proof. split; [apply matches_lang|apply lang_matches]. Qed.

Lemma concat_repeat_nil {A} n : concat (repeat (@nil A) n) = [].
Proof. induction n; [reflexivity|]. cbn [repeat concat]. exact IHn. Qed.

Lemma Forall_repeat {A} (P : A -> Prop) x n : P x -> Forall P (repeat x n).
Proof. intros H. induction n; cbn [repeat]; constructor; auto. Qed.

Lemma rep_count_exists mn mx : exists k : nat, rep_count mn mx (Z.of_nat k).
Proof.
  destruct (Z.ltb_spec mx 0).
  - exists (Z.to_nat (Z.max 0 mn)). unfold rep_count. lia.
  - exists (Z.to_nat mx). unfold rep_count. lia.
Qed.

Lemma nullable_lang r : nullable r = true <-> lang r [].
Proof.
  induction r as [| |cs|a IHa b IHb|a IHa b IHb|mn mx s IHs]; cbn [nullable lang].
  - split; [discriminate|contradiction].
  - split; auto.
  - split; [discriminate|]. intros (c & H & _). discriminate.
  - rewrite andb_true_iff, IHa, IHb. split.
    + intros [Ha Hb]. exists [], []. auto.
    + intros (u & v & E & Ha & Hb). symmetry in E. apply app_eq_nil in E. destruct E; subst. auto.
  - rewrite orb_true_iff, IHa, IHb. reflexivity.
  - rewrite !orb_true_iff, IHs, Z.leb_le, Z.eqb_eq. split.
    + intros [[H|H]|H].
      * exists []. split; [reflexivity|]. split; [constructor|]. unfold rep_count. cbn [length]. lia.
      * exists []. split; [reflexivity|]. split; [constructor|]. unfold rep_count. cbn [length]. lia.
      * destruct (rep_count_exists mn mx) as [k Hk]. exists (repeat [] k).
        rewrite concat_repeat_nil, repeat_length. split; [reflexivity|]. split; [|exact Hk]. apply Forall_repeat. exact H.
    + intros (ws & E & HF & Hc). destruct ws as [|w ws].
      * unfold rep_count in Hc. cbn [length] in Hc. lia.
      * right. symmetry in E. apply concat_nil_Forall in E. inversion E; subst. inversion HF; subst. assumption.
Qed.

Theorem nullable_correct r : nullable r = true <-> matches r [].
Proof. rewrite matches_iff_lang. apply nullable_lang. Qed.

Lemma lang_cat a b w : lang (cat a b) w <-> lang (Cat a b) w.
Proof.
  assert (Hv : forall x, lang (Cat x Void) w <-> False).
  { intros x. cbn [lang]. split; [|contradiction]. intros (u & v & _ & _ & H). exact H. }
  assert (He : forall x, lang (Cat x Eps) w <-> lang x w).
  { intros x. cbn [lang]. split.
    - intros (u & v & -> & Hu & ->). rewrite app_nil_r. exact Hu.
    - intros H. exists w, []. rewrite app_nil_r. auto. }
  assert (Hl : forall x, lang (Cat Eps x) w <-> lang x w).
  { intros x. cbn [lang]. split.
    - intros (u & v & -> & -> & Hv'). exact Hv'.
    - intros H. exists [], w. auto. }
  assert (Hvl : forall x, lang (Cat Void x) w <-> False).
  { intros x. cbn [lang]. split; [|contradiction]. intros (u & v & _ & H & _). exact H. }
  (* cat a b is Void if either is, the other if one is Eps, else Cat a b *)
  destruct a; [cbn [cat]; rewrite Hvl; reflexivity|destruct b; cbn [cat]; [rewrite Hv|rewrite Hl..]; reflexivity|..];
    (destruct b; cbn [cat]; [rewrite Hv|rewrite He|..]; reflexivity).
Qed.

Lemma lang_alt a b w : lang (alt a b) w <-> lang (Alt a b) w.
Proof.
  (* alt drops a Void side, else it is Alt a b *)
  destruct a; [cbn [alt lang]; tauto|..]; (destruct b; [cbn [alt lang]; tauto|reflexivity..]).
Qed.

(* a repetition matching a non-empty word can be arranged so that its first copy is non-empty *)
Lemma rep_first_nonempty (P : list Z -> Prop) c : forall ws w, Forall P ws -> c :: w = concat ws ->
  exists u ws', P (c :: u) /\ Forall P ws' /\ w = u ++ concat ws' /\ length ws = S (length ws').
Proof.
  induction ws as [|x ws IH]; intros w HF E; [discriminate|].
  inversion HF as [|? ? Hx HF']; subst. destruct x as [|c' u].
  - cbn [concat app] in E. destruct (IH w HF' E) as (u & ws' & Hu & Hws' & Ew & El).
    exists u, (ws' ++ [[]]). split; [exact Hu|]. split; [apply Forall_app; split; [exact Hws'|constructor; [exact Hx|constructor]]|].
    split.
    + rewrite concat_app. cbn [concat]. rewrite !app_nil_r. exact Ew.
    + rewrite app_length. cbn [length]. lia.
  - cbn [concat] in E. inversion E; subst. exists u, ws. auto.
Qed.

Lemma deriv_lang r : forall c w, lang (deriv c r) w <-> lang r (c :: w).
Proof.
  induction r as [| |cs|a IHa b IHb|a IHa b IHb|mn mx s IHs]; intros c w; cbn [deriv].
  - cbn [lang]. tauto.
  - cbn [lang]. split; [contradiction|discriminate].
  - destruct (mem c cs) eqn:Em; cbn [lang].
    + split; [intros ->; exists c; auto|]. intros (c' & E & _). inversion E; reflexivity.
    + split; [contradiction|]. intros (c' & E & Hm). inversion E; subst. congruence.
  - rewrite lang_alt. cbn [lang]. rewrite lang_cat. cbn [lang]. split.
    + intros [(u & v & -> & Hu & Hv)|H].
      * exists (c :: u), v. rewrite <- IHa. auto.
      * destruct (nullable a) eqn:En; [|contradiction]. exists [], (c :: w). rewrite <- IHb, <- nullable_lang. auto.
    + intros (u & v & E & Hu & Hv). destruct u as [|c' u].
      * right. cbn [app] in E. subst v. apply nullable_lang in Hu. rewrite Hu. apply IHb. exact Hv.
      * left. cbn [app] in E. inversion E; subst. exists u, v. rewrite IHa. auto.
  - rewrite lang_alt. cbn [lang]. rewrite IHa, IHb. reflexivity.
  - destruct (Z.eqb_spec mx 0) as [E0|N0].
    + cbn [lang]. split; [contradiction|]. intros (ws & E & HF & Hc). destruct ws as [|x ws]; [discriminate|].
      unfold rep_count in Hc. cbn [length] in Hc. lia.
    + rewrite lang_cat. cbn [lang]. split.
      * intros (u & v & -> & Hu & ws & -> & HF & Hc). exists ((c :: u) :: ws). split; [reflexivity|].
        split; [constructor; [apply IHs; exact Hu|exact HF]|].
        unfold rep_count in *. cbn [length]. destruct (Z.ltb_spec mx 0); lia.
      * intros (ws & E & HF & Hc). destruct (rep_first_nonempty (lang s) c ws w HF E) as (u & ws' & Hu & Hws' & Ew & El).
        exists u, (concat ws'). split; [exact Ew|]. split; [apply IHs; exact Hu|].
        exists ws'. split; [reflexivity|]. split; [exact Hws'|].
        unfold rep_count in *. rewrite El in Hc. destruct (Z.ltb_spec mx 0); lia.
Qed.

Theorem deriv_correct r c w : matches (deriv c r) w <-> matches r (c :: w).
Proof. rewrite !matches_iff_lang. apply deriv_lang. Qed.

Lemma derivs_correct u : forall r w, matches (derivs u r) w <-> matches r (u ++ w).
Proof.
  induction u as [|c u IH]; intros r w; [reflexivity|].
  unfold derivs in *. cbn [fold_left app]. rewrite IH. apply deriv_correct.
Qed.

Corollary derivs_nullable r w : nullable (derivs w r) = true <-> matches r w.
Proof. rewrite nullable_correct, derivs_correct, app_nil_r. reflexivity. Qed.

Lemma concat_repeat_lang (P : list Z -> Prop) w k : P w -> Forall P (repeat w k).
Proof. apply Forall_repeat. Qed.

Lemma nonvoid_lang r : nonvoid r = true <-> exists w, lang r w.
Proof.
  induction r as [| |cs|a IHa b IHb|a IHa b IHb|mn mx s IHs]; cbn [nonvoid lang].
  - split; [discriminate|]. intros (w & H). destruct H.
  - split; eauto.
  - rewrite existsb_exists. split.
    + intros ((lo, hi) & Hin & Hle). cbn [fst snd] in Hle. exists [lo], lo. split; [reflexivity|].
      unfold mem. apply existsb_exists. exists (lo, hi). split; [exact Hin|]. unfold in_range. cbn [fst snd].
      apply Z.leb_le in Hle. apply andb_true_iff. split; apply Z.leb_le; lia.
    + intros (w & c & _ & Hm). unfold mem in Hm. apply existsb_exists in Hm. destruct Hm as (p & Hin & Hr).
      exists p. split; [exact Hin|]. unfold in_range in Hr. apply andb_true_iff in Hr. destruct Hr as [H1 H2].
      apply Z.leb_le in H1, H2. apply Z.leb_le. lia.
  - rewrite andb_true_iff, IHa, IHb. split.
    + intros [(u & Hu) (v & Hv)]. exists (u ++ v), u, v. auto.
    + intros (w & u & v & _ & Hu & Hv). eauto.
  - rewrite orb_true_iff, IHa, IHb. split.
    + intros [(w & H)|(w & H)]; exists w; auto.
    + intros (w & [H|H]); eauto.
  - rewrite !orb_true_iff, IHs, Z.leb_le, Z.eqb_eq. split.
    + intros [[H|H]|(w & H)].
      * exists [], []. split; [reflexivity|]. split; [constructor|]. unfold rep_count. cbn [length]. lia.
      * exists [], []. split; [reflexivity|]. split; [constructor|]. unfold rep_count. cbn [length]. lia.
      * destruct (rep_count_exists mn mx) as [k Hk]. exists (concat (repeat w k)), (repeat w k).
        rewrite repeat_length. split; [reflexivity|]. split; [apply Forall_repeat; exact H|exact Hk].
    + intros (w & ws & _ & HF & Hc). destruct ws as [|x ws].
      * unfold rep_count in Hc. cbn [length] in Hc. lia.
      * right. inversion HF; subst. eauto.
Qed.

Theorem nonvoid_correct r : nonvoid r = true <-> exists w, matches r w.
Proof.
  rewrite nonvoid_lang. split; intros (w & H); exists w; apply matches_iff_lang; exact H.
Qed.

Lemma re_ind' (P : re -> Prop) :
  (forall b text off, P (RLit b text off)) -> (forall cs off, P (RCC cs off)) ->
  (forall mn mx s, P s -> P (RRep mn mx s)) ->
  (forall l, Forall P l -> P (RCat l)) -> (forall l, Forall P l -> P (RAlt l)) ->
  (forall name off, P (RExt name off)) -> forall r, P r.
Proof.
  intros H1 H2 H3 H4 H5 H6. fix go 1. intros r. destruct r as [b text off|cs off|mn mx s|l|l|name off].
  - apply H1.
  - apply H2.
  - apply H3. apply go.
  - apply H4. induction l as [|x l IH]; constructor; [apply go|exact IH].
  - apply H5. induction l as [|x l IH]; constructor; [apply go|exact IH].
  - apply H6.
Qed.

Lemma mem_single c x : mem c [(x, x)] = true <-> c = x.
Proof.
  unfold mem, in_range. cbn [existsb fst snd]. rewrite orb_false_r, andb_true_iff, !Z.leb_le. lia.
Qed.

Lemma lang_lit syms : forall w, lang (fold_right (fun c acc => cat (Sym [(c, c)]) acc) Eps syms) w <-> w = syms.
Proof.
  induction syms as [|c syms IH]; intros w; cbn [fold_right].
  - cbn [lang]. reflexivity.
  - rewrite lang_cat. cbn [lang]. split.
    + intros (u & v & -> & (c' & -> & Hm) & Hv). apply mem_single in Hm. apply IH in Hv. subst. reflexivity.
    + intros ->. exists [c], syms. split; [reflexivity|]. split; [exists c; split; [reflexivity|apply mem_single; reflexivity]|apply IH; reflexivity].
Qed.

Theorem rx_of_correct r : forall w, lang (rx_of r) w <-> re_lang r w.
Proof.
  induction r as [b text off|cs off|mn mx s IH|l IH|l IH|name off] using re_ind'; intros w.
  - cbn [rx_of re_lang]. apply lang_lit.
  - reflexivity.
  - cbn [rx_of re_lang lang]. split; intros (ws & E & HF & Hc); exists ws; (split; [exact E|]); (split; [|exact Hc]);
      (eapply Forall_impl; [|exact HF]); intros x Hx; apply IH; exact Hx.
  - cbn [rx_of re_lang]. revert w. induction IH as [|x l Hx _ IHl]; intros w.
    + reflexivity.
    + rewrite lang_cat. cbn [lang]. split; intros (u & v & E & Hu & Hv); exists u, v; (split; [exact E|]);
        (split; [apply Hx; exact Hu|apply IHl; exact Hv]).
  - cbn [rx_of re_lang]. induction IH as [|x l Hx _ IHl].
    + reflexivity.
    + rewrite lang_alt. cbn [lang]. rewrite Hx, IHl. reflexivity.
  - cbn [rx_of re_lang]. destruct (list_eq_dec Z.eq_dec name [101; 111; 105]) as [E|N]; cbn [lang].
    + split.
      * intros (c & -> & Hm). apply mem_single in Hm. subst. auto.
      * intros (_ & ->). exists eoi_sym. split; [reflexivity|apply mem_single; reflexivity].
    + split; [contradiction|]. intros (E & _). contradiction.
Qed.

Corollary rx_of_matches r w : matches (rx_of r) w <-> re_lang r w.
Proof. rewrite matches_iff_lang. apply rx_of_correct. Qed.
