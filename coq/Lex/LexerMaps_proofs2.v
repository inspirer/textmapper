(* C11 rune_class_lookup, second half: the CompressedMap builder stores the class of every rune it covers and leaves
   uncovered only runes of the default class; hence mapRune over the emitted ranges is the symbol-map lookup from 256 on. *)
From Coq Require Import List ZArith Bool Lia.
From TM Require Import Lex.Tables Lex.LexerMaps Lex.LexerMaps_proofs.
Import ListNotations.
Local Open Scope Z_scope.

Definition drop_d (d : Z) : list Z -> list Z :=
  fix drop (l : list Z) : list Z := match l with x :: t => if x =? d then drop t else l | [] => [] end.

Lemma trim_trailing_eq d vals : trim_trailing d vals = rev (drop_d d (rev vals)).
Proof. unfold trim_trailing, drop_d. rewrite !rev_append_rev, !app_nil_r. reflexivity. Qed.

Lemma drop_d_spec d l : exists k, l = repeat d k ++ drop_d d l.
Proof.
  induction l as [|x t IH]; [exists 0%nat; reflexivity|]. cbn [drop_d]. destruct (Z.eqb_spec x d) as [->|N].
  - destruct IH as (k & E). exists (S k). cbn [repeat app]. f_equal. exact E.
  - exists 0%nat. reflexivity.
Qed.

Lemma rev_repeat {A} (x : A) k : rev (repeat x k) = repeat x k.
Proof. induction k as [|k IH]; [reflexivity|]. cbn [repeat rev]. rewrite IH. symmetry. apply repeat_cons. Qed.

Lemma trim_spec d vals i : (i < length vals)%nat ->
  (if Z.of_nat i <? Z.of_nat (length (trim_trailing d vals)) then nth i (trim_trailing d vals) 0 else d) = nth i vals 0.
Proof.
  intros Hi. rewrite trim_trailing_eq. destruct (drop_d_spec d (rev vals)) as (k & E).
  assert (Ev : vals = rev (drop_d d (rev vals)) ++ repeat d k).
  { rewrite <- (rev_involutive vals) at 1. rewrite E at 1. rewrite rev_app_distr, rev_repeat. reflexivity. }
  set (t := rev (drop_d d (rev vals))) in *. clearbody t. rewrite Ev. rewrite Ev, app_length, repeat_length in Hi.
  destruct (Z.ltb_spec (Z.of_nat i) (Z.of_nat (length t))) as [Hlt|Hge].
  - rewrite app_nth1 by lia. reflexivity.
  - rewrite app_nth2 by lia. symmetry. apply nth_repeat'. lia.
Qed.

Fixpoint final_target (target : Z) (rest : list (Z * Z)) : Z :=
  match rest with [] => target | (_, tg) :: r => final_target tg r end.
Fixpoint final_index (index : Z) (rest : list (Z * Z)) : Z :=
  match rest with [] => index | (st, _) :: r => final_index st r end.

Lemma last_final rest : forall s0 tg d, last ((s0, tg) :: rest) d = (final_index s0 rest, final_target tg rest).
Proof.
  induction rest as [|[s1 t1] rest IH]; intros s0 tg d; [reflexivity|].
  change (last ((s0, tg) :: (s1, t1) :: rest) d) with (last ((s1, t1) :: rest) d). rewrite IH. reflexivity.
Qed.

Lemma seek_spec m start : forall p, sorted_from p m -> m <> [] ->
  exists s0 tg rest, seek m start = (s0, tg) :: rest /\ sorted_from start rest /\ sorted_from s0 rest /\
    (forall r, start <= r -> lookup_sym m r = lookup_sym ((s0, tg) :: rest) r) /\
    last m (0, 0) = last ((s0, tg) :: rest) (0, 0).
Proof.
  induction m as [|[s0 t0] m' IH]; intros p Hs Hne; [congruence|].
  cbn [seek]. destruct m' as [|[s1 t1] m''].
  - exists s0, t0, []. repeat split; auto.
  - rewrite Z.gtb_ltb. destruct (Z.ltb_spec start s1) as [Hlt|Hge].
    + exists s0, t0, ((s1, t1) :: m''). cbn in Hs. destruct Hs as (H1 & H2 & H3).
      split; [reflexivity|]. split; [cbn; split; assumption|]. split; [cbn; split; assumption|]. split; [reflexivity|reflexivity].
    + cbn in Hs. destruct Hs as (H1 & H2 & H3).
      destruct (IH s0 (conj H2 H3) ltac:(congruence)) as (s & tg & rest & E & S1 & S2 & L & La).
      exists s, tg, rest. split; [exact E|]. split; [exact S1|]. split; [exact S2|]. split.
      * intros r Hr. rewrite <- (L r Hr). cbn [lookup_sym]. rewrite Z.gtb_ltb. destruct (Z.ltb_spec r s1); [lia|reflexivity].
      * rewrite <- La. reflexivity.
Qed.

Section Builder.
  Variable v : Z -> Z.          (* the class of every rune >= start *)
  Variable start dv : Z.

  Definition covers (e : centry) (r : Z) : Prop := ce_lo e <= r < ce_hi e.
  Definition good_entry (e : centry) : Prop := ce_lo e <= ce_hi e /\ forall r, covers e r -> ce_val e r = v r.

  (* ret is kept reversed: the head is the last range *)
  Fixpoint sorted_rev (ret : list centry) (bound : Z) : Prop :=
    match ret with
    | [] => True
    | e :: t => ce_hi e <= bound /\ sorted_rev t (ce_lo e)
    end.

  Definition curr_ok (curr : option (Z * Z * list Z)) (index : Z) : Prop :=
    match curr with
    | None => True
    | Some (clo, chi, vals) =>
        chi = index /\ clo <= chi /\ Z.of_nat (length vals) = chi - clo /\
        forall i, 0 <= i < chi - clo -> nth (Z.to_nat i) vals 0 = v (clo + i)
    end.
  Definition curr_covers (curr : option (Z * Z * list Z)) (r : Z) : Prop :=
    match curr with None => False | Some (clo, chi, _) => clo <= r < chi end.
  Definition bound_of (curr : option (Z * Z * list Z)) (index : Z) : Z :=
    match curr with None => index | Some (clo, _, _) => clo end.

  Definition inv (s : cstate) (index : Z) : Prop :=
    sorted_rev (snd s) (bound_of (fst s) index) /\ Forall good_entry (snd s) /\ curr_ok (fst s) index /\
    forall r, start <= r < index -> (forall e, In e (snd s) -> ~ covers e r) -> ~ curr_covers (fst s) r -> v r = dv.

  Lemma sorted_rev_mono ret : forall b b', sorted_rev ret b -> b <= b' -> sorted_rev ret b'.
  Proof. destruct ret as [|e t]; intros b b' H Hb; [exact I|]. cbn in *. destruct H. split; [lia|assumption]. Qed.

  Lemma emit_inv s index : inv s index -> inv (emit s) index /\ fst (emit s) = None.
  Proof.
    destruct s as [[((clo, chi), vals)|] ret]; unfold emit; cbn [fst snd]; [|intros H; split; [exact H|reflexivity]].
    intros (Hs & Hg & (Hchi & Hle & Hlen & Hv) & Hu). cbn [bound_of] in Hs. split; [|reflexivity].
    unfold inv. cbn [fst snd bound_of]. split; [|split; [|split; [exact I|]]].
    - cbn [sorted_rev ce_hi ce_lo]. split; [lia|exact Hs].
    - constructor; [|exact Hg]. split; [cbn; exact Hle|]. intros r (H1 & H2). cbn [ce_lo ce_hi] in H1, H2.
      unfold ce_val. cbn [ce_lo ce_vals ce_default].
      pose proof (trim_spec (last vals 0) vals (Z.to_nat (r - clo)) ltac:(lia)) as T.
      rewrite Z2Nat.id in T by lia. rewrite T. rewrite Hv by lia. f_equal. lia.
    - intros r Hr Hnc _. apply Hu; [exact Hr|intros e He; apply Hnc; right; exact He|].
      cbn [curr_covers]. intros Hc. apply (Hnc _ (or_introl eq_refl)). unfold covers. cbn [ce_lo ce_hi]. exact Hc.
  Qed.

  Lemma consume_inv s lo hi target strike : inv s lo -> start <= lo -> lo <= hi -> (forall r, lo <= r < hi -> v r = target) ->
    inv (consume dv s lo hi target strike) hi.
  Proof.
    intros Hinv Hst Hlh Hseg.
    assert (Hskip : forall s0, inv s0 lo -> fst s0 = None -> target = dv -> inv s0 hi).
    { intros [c0 ret0] (Hs & Hg & _ & Hu) E Ht. cbn [fst] in E. subst c0. unfold inv. cbn [fst snd bound_of curr_ok] in *.
      split; [eapply sorted_rev_mono; [exact Hs|lia]|]. split; [exact Hg|]. split; [exact I|].
      intros r Hr Hnc Hcc. destruct (Z.lt_ge_cases r lo) as [Hlt|Hge]; [apply Hu; [lia|exact Hnc|exact Hcc]|].
      rewrite Hseg by lia. exact Ht. }
    assert (Hfin : forall s', inv s' hi -> inv (if hi - lo >? 8 then emit s' else s') hi).
    { intros s' H'. destruct (hi - lo >? 8); [apply emit_inv; exact H'|exact H']. }
    unfold consume. destruct s as [[((clo, chi), vals)|] ret]; cbn [fst snd].
    - destruct Hinv as (Hs & Hg & (Hchi & Hle & Hlen & Hv) & Hu). cbn [fst snd bound_of] in *. subst chi.
      destruct ((target =? dv) && (strike + (hi - lo) >? 8)) eqn:E.
      + apply andb_true_iff in E. destruct E as [E _]. apply Z.eqb_eq in E.
        destruct (emit_inv (Some (clo, lo, vals), ret) lo) as (He & Hn).
        { unfold inv. cbn [fst snd bound_of curr_ok]. repeat split; assumption. }
        apply Hskip; assumption.
      + apply Hfin. unfold inv. cbn [fst snd bound_of curr_ok]. split; [exact Hs|]. split; [exact Hg|]. split.
        * split; [reflexivity|]. split; [lia|]. split; [rewrite app_length, repeat_length; lia|].
          intros i Hi. destruct (Z.lt_ge_cases i (lo - clo)) as [Hlt|Hge].
          -- rewrite app_nth1 by lia. apply Hv. lia.
          -- rewrite app_nth2 by lia. rewrite nth_repeat' by lia. symmetry. apply Hseg. lia.
        * intros r Hr Hnc Hcc. cbn [curr_covers] in Hcc. apply Hu; [lia|exact Hnc|cbn [curr_covers]; lia].
    - destruct (Z.eqb_spec target dv) as [E|N].
      + apply Hskip; [exact Hinv|reflexivity|exact E].
      + destruct Hinv as (Hs & Hg & _ & Hu). cbn [fst snd bound_of] in *.
        apply Hfin. unfold inv. cbn [fst snd bound_of curr_ok]. split; [exact Hs|]. split; [exact Hg|]. split.
        * split; [reflexivity|]. split; [lia|]. split; [rewrite repeat_length; lia|].
          intros i Hi. rewrite nth_repeat' by lia. symmetry. apply Hseg. lia.
        * intros r Hr Hnc Hcc. cbn [curr_covers] in Hcc. apply Hu; [lia|exact Hnc|cbn [curr_covers]; tauto].
  Qed.

  Lemma cm_loop_inv rest : forall index target strike s, sorted_from index rest -> start <= index ->
    (forall r, index <= r -> v r = val target rest r) -> inv s index ->
    inv (cm_loop dv rest index target strike s) (final_index index rest) /\
    forall r, final_index index rest <= r -> v r = final_target target rest.
  Proof.
    induction rest as [|[st tg] rest IH]; intros index target strike s Hs Hst Hv Hinv; cbn [cm_loop final_index final_target].
    - split; [exact Hinv|]. intros r Hr. apply Hv. exact Hr.
    - cbn in Hs. destruct Hs as [H1 H2].
      apply (IH st tg (st - index) (consume dv s index st target strike) H2 ltac:(lia)).
      + intros r Hr. rewrite Hv by lia. cbn [val]. destruct (Z.ltb_spec r st); [lia|reflexivity].
      + apply consume_inv; [exact Hinv|exact Hst|lia|]. intros r Hr. rewrite Hv by lia. cbn [val].
        destruct (Z.ltb_spec r st); [reflexivity|lia].
  Qed.
End Builder.

Lemma sortedb_mono ranges : forall lb lb', ranges_sortedb lb ranges = true -> lb' <= lb -> ranges_sortedb lb' ranges = true.
Proof.
  destruct ranges as [|e t]; intros lb lb' H Hl; [reflexivity|]. cbn [ranges_sortedb] in *.
  apply andb_true_iff in H. destruct H as [H H3]. apply andb_true_iff in H. destruct H as [H1 H2]. apply Z.leb_le in H1.
  rewrite H2, H3. replace (lb' <=? ce_lo e) with true by (symmetry; apply Z.leb_le; lia). reflexivity.
Qed.

Lemma rev_sorted v ret : forall b tail, sorted_rev ret b -> Forall (good_entry v) ret -> ranges_sortedb b tail = true ->
  exists lb, ranges_sortedb lb (rev ret ++ tail) = true.
Proof.
  induction ret as [|e t IH]; intros b tail Hs Hg Ht; [exists b; exact Ht|].
  cbn [rev]. rewrite <- app_assoc. cbn [app]. cbn in Hs. destruct Hs as [H1 H2]. inversion Hg as [|? ? (Hle & _) Hg']; subst.
  apply (IH (ce_lo e) (e :: tail) H2 Hg'). cbn [ranges_sortedb].
  rewrite (sortedb_mono tail b (ce_hi e) Ht H1). rewrite andb_true_r. apply andb_true_iff. split; apply Z.leb_le; lia.
Qed.

Lemma covers_dec (l : list centry) r : (exists e, In e l /\ covers e r) \/ (forall e, In e l -> ~ covers e r).
Proof.
  induction l as [|e t IH]; [right; intros e []|].
  destruct IH as [(e' & Hin & Hc)|Hno]; [left; exists e'; split; [right; exact Hin|exact Hc]|].
  unfold covers. destruct (Z_le_dec (ce_lo e) r) as [H1|H1]; [destruct (Z_lt_dec r (ce_hi e)) as [H2|H2]|].
  - left. exists e. split; [left; reflexivity|split; assumption].
  - right. intros e0 [<-|Hin]; [lia|apply Hno; exact Hin].
  - right. intros e0 [<-|Hin]; [lia|apply Hno; exact Hin].
Qed.

Lemma In_rng ranges e : In e ranges -> exists k, 0 <= k < Z.of_nat (length ranges) /\ rng ranges k = e.
Proof.
  intros H. destruct (In_nth ranges e dce H) as (n & Hn & E). exists (Z.of_nat n). split; [lia|].
  unfold rng. rewrite Nat2Z.id. exact E.
Qed.

Lemma rng_In ranges k : 0 <= k < Z.of_nat (length ranges) -> In (rng ranges k) ranges.
Proof. intros H. unfold rng. apply nth_In. lia. Qed.

Theorem compressed_map_lookup m start ch : sorted_map m -> 0 <= start <= ch ->
  map_rune (compressed_map m start) (last_target m) ch = lookup_sym m ch.
Proof.
  intros Hsm Hch. destruct m as [|[s00 t00] m0]; [destruct Hsm|]. destruct Hsm as [-> Hsm].
  set (m := (0, t00) :: m0) in *.
  destruct (seek_spec m start (-1)) as (s0 & tg & rest & Es & S1 & S2 & L & La);
    [cbn; split; [lia|exact Hsm]|unfold m; congruence|].
  unfold compressed_map. rewrite Es.
  set (dv := last_target m). set (v := fun r => val tg rest r).
  assert (Hdv : dv = final_target tg rest).
  { unfold dv, last_target. rewrite La, last_final. reflexivity. }
  destruct (cm_loop_inv v start dv rest start tg 0 (None, [])) as (I1 & I3); try assumption; try lia.
  { intros r _. reflexivity. }
  { unfold inv. cbn [fst snd bound_of curr_ok sorted_rev]. repeat split; auto. intros r Hr. lia. }
  destruct (emit_inv v start dv _ _ I1) as ((Hs & Hg & _ & Hu) & Hn). rewrite Hn in Hs, Hu. cbn [bound_of curr_covers] in Hs, Hu.
  set (ret := snd (emit (cm_loop dv rest start tg 0 (None, [])))) in *.
  assert (Hlook : lookup_sym m ch = v ch).
  { rewrite (L ch ltac:(lia)). unfold v. apply lookup_val. exact S2. }
  destruct (rev_sorted v ret _ [] Hs Hg eq_refl) as (lb & Hsorted). rewrite app_nil_r in Hsorted.
  destruct (map_rune_spec (rev ret) dv ch (sortedb_sorted _ _ Hsorted)) as (M1 & M2).
  rewrite Hlook. destruct (covers_dec ret ch) as [(e & Hin & Hc)|Hno].
  - apply in_rev in Hin. destruct (In_rng _ _ Hin) as (k & Hk & Ek). rewrite (M1 k Hk); [|unfold holds; rewrite Ek; exact Hc].
    rewrite Ek. apply in_rev in Hin. rewrite Forall_forall in Hg. apply (Hg e Hin). exact Hc.
  - rewrite M2.
    + destruct (Z.lt_ge_cases ch (final_index start rest)) as [Hlt|Hge].
      * symmetry. apply Hu; [lia|exact Hno|tauto].
      * rewrite (I3 ch Hge). exact Hdv.
    + intros k Hk Hh. apply (Hno (rng (rev ret) k)); [apply in_rev; apply rng_In; exact Hk|exact Hh].
Qed.

Theorem rune_class_lookup m ch : sorted_map m -> 0 <= ch -> rune_class (rune_tables_of m) ch = lookup_sym m ch.
Proof.
  intros Hs Hc. unfold rune_tables_of, rune_class. rewrite Z.gtb_ltb.
  destruct (Z.ltb_spec 2048 (last_start m)) as [Hbig|Hsmall]; cbn [rt_class rt_use_map rt_last rt_ranges].
  - 
    destruct (symbol_arr_spec m 256 Hs ltac:(lia)) as (L & N). cbn zeta in L, N.
    rewrite (proj2 (Z.ltb_lt 256 (last_start m))) in L, N by lia. cbn [Z.eqb negb andb] in L, N.
    rewrite L. destruct (Z.ltb_spec ch 256); [apply N; lia|apply compressed_map_lookup; [exact Hs|lia]].
  - 
    destruct (symbol_arr_spec m 0 Hs ltac:(lia)) as (L & N). cbn zeta in L, N. cbn [Z.eqb negb andb] in L, N.
    rewrite L. destruct (Z.ltb_spec ch (last_start m)); [apply N; lia|symmetry; apply lookup_last; assumption].
Qed.
