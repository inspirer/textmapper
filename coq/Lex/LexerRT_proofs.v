(* Proofs about the pieces of the model of the generated lexer: keyword switch, line bookkeeping helpers, reading a
   character, and the two modes of `finish` as one. *)
From Coq Require Import List ZArith Bool Lia.
From TM Require Import Lib.ListX Lex.Tables Lex.Tables_proofs Lex.LexerRT Lex.LexerWf Lex.Deriv Lex.LexerSpec.
Import ListNotations.
Local Open Scope Z_scope.

Definition kw_pred (mask hash : Z) (text : list Z) (c : Z * Z * list Z * Z) : bool :=
  let '(bucket, h, key, _) := c in
  (bucket =? Z.land hash mask) && (hash =? h) && (if list_eq_dec Z.eq_dec key text then true else false).

Lemma kw_pred_true mask hash text b h k a :
  kw_pred mask hash text (b, h, k, a) = true <-> b = Z.land hash mask /\ h = hash /\ k = text.
Proof.
  cbn [kw_pred]. rewrite !andb_true_iff, !Z.eqb_eq. destruct (list_eq_dec Z.eq_dec k text); intuition congruence.
Qed.

Lemma kw_switch_unfold lx act hash text subcases mask :
  assocZ act (lx_kw lx) = Some subcases -> assocZ act (lx_mask lx) = Some mask ->
  kw_switch lx act hash text =
    match find (kw_pred mask hash text) subcases with Some (_, _, _, a') => a' | None => act end.
Proof.
  intros H1 H2. unfold kw_switch. rewrite H1, H2.
  assert (E : forall l, find (fun '(bucket, h, key, _) => (bucket =? Z.land hash mask) && (hash =? h)
             && (if list_eq_dec Z.eq_dec key text then true else false)) l = find (kw_pred mask hash text) l).
  { induction l as [|[[[b h] k] a] l IH]; [reflexivity|]. cbn [find kw_pred]. rewrite IH. reflexivity. }
  rewrite E. reflexivity.
Qed.

Lemma kw_none lx a h txt : assocZ a (lx_kw lx) = None -> kw_switch lx a h txt = a.
Proof. intros E. unfold kw_switch. rewrite E. reflexivity. Qed.

Theorem kw_switch_sound lx act hash text subcases mask a' :
  assocZ act (lx_kw lx) = Some subcases -> assocZ act (lx_mask lx) = Some mask ->
  kw_switch lx act hash text = a' -> a' <> act ->
  exists b h, In (b, h, text, a') subcases /\ h = hash.
Proof.
  intros H1 H2 E Hne. rewrite (kw_switch_unfold _ _ _ _ _ _ H1 H2) in E.
  destruct (find (kw_pred mask hash text) subcases) as [[[[b h] k] a]|] eqn:F; [|congruence].
  apply find_some in F as [Hin Hp]. apply kw_pred_true in Hp as (_ & -> & ->). subst a. eauto.
Qed.

(* the recorded hash must be the scanned one and the bucket hash & mask, which is what asStringSwitch emits *)
Theorem kw_switch_complete lx act hash text subcases mask b a' :
  assocZ act (lx_kw lx) = Some subcases -> assocZ act (lx_mask lx) = Some mask ->
  In (b, hash, text, a') subcases -> b = Z.land hash mask ->
  (forall b1 h1 a1, In (b1, h1, text, a1) subcases -> a1 = a') ->
  kw_switch lx act hash text = a'.
Proof.
  intros H1 H2 Hin Hb Huniq. rewrite (kw_switch_unfold _ _ _ _ _ _ H1 H2).
  destruct (find (kw_pred mask hash text) subcases) as [[[[b1 h1] k1] a1]|] eqn:F.
  - apply find_some in F as [Hin1 Hp]. apply kw_pred_true in Hp as (_ & _ & ->). eauto.
  - pose proof (find_none _ _ F _ Hin) as Hp. rewrite (proj2 (kw_pred_true _ _ _ _ _ _ _)) in Hp by auto. discriminate.
Qed.

Theorem kw_switch_other lx act hash text subcases mask :
  assocZ act (lx_kw lx) = Some subcases -> assocZ act (lx_mask lx) = Some mask ->
  (forall b h a, ~ In (b, h, text, a) subcases) ->
  kw_switch lx act hash text = act.
Proof.
  intros H1 H2 Hno. rewrite (kw_switch_unfold _ _ _ _ _ _ H1 H2).
  destruct (find (kw_pred mask hash text) subcases) as [[[[b h] k] a]|] eqn:F; [|reflexivity].
  apply find_some in F as [Hin Hp]. apply kw_pred_true in Hp as (_ & _ & ->). exfalso. eapply Hno; eauto.
Qed.

Lemma count_nl_app a b : count_nl (a ++ b) = count_nl a + count_nl b.
Proof. unfold count_nl. rewrite filter_app, app_length. lia. Qed.

Lemma count_nl_cons b s : count_nl (b :: s) = (if b =? 10 then 1 else 0) + count_nl s.
Proof. unfold count_nl. cbn [filter]. destruct (b =? 10); cbn [length]; lia. Qed.

Lemma count_nl_hi s : Forall (fun b => 128 <= b) s -> count_nl s = 0.
Proof.
  induction 1 as [|b s Hb _ IH]; [reflexivity|]. rewrite count_nl_cons, IH.
  destruct (Z.eqb_spec b 10); lia.
Qed.

Lemma after_last_nl_app a : forall b i acc,
  after_last_nl (a ++ b) i acc = after_last_nl b (i + Z.of_nat (length a)) (after_last_nl a i acc).
Proof.
  induction a as [|x a IH]; intros b i acc; cbn [app after_last_nl length].
  - f_equal. lia.
  - rewrite IH. f_equal. lia.
Qed.

Lemma after_last_nl_spec s : forall i acc, 0 <= acc <= i ->
  let r := after_last_nl s i acc in
  acc <= r <= i + Z.of_nat (length s) /\
  (count_nl s = 0 -> r = acc) /\
  (count_nl s > 0 -> i < r).
Proof.
  induction s as [|b t IH]; intros i acc H; cbn [after_last_nl length].
  - cbn. repeat split; try lia.
  - unfold count_nl in *. cbn [filter]. destruct (b =? 10); cbn [length].
    + destruct (IH (i + 1) (i + 1)) as (I1 & I2 & I3); lia.
    + destruct (IH (i + 1) acc) as (I1 & I2 & I3); lia.
Qed.

Lemma sub_same s a : sub s a a = [].
Proof. unfold sub. rewrite Z.sub_diag. reflexivity. Qed.

Lemma firstn_sub src a b : 0 <= a <= b -> firstn (Z.to_nat b) src = firstn (Z.to_nat a) src ++ sub src a b.
Proof.
  intros H. unfold sub. replace (Z.to_nat b) with (Z.to_nat a + Z.to_nat (b - a))%nat by lia. apply firstn_add'.
Qed.

Lemma sub_nil a b : sub [] a b = [].
Proof. unfold sub. rewrite skipn_nil, firstn_nil. reflexivity. Qed.

Lemma read_char_decode bytes scan rest : rest <> [] ->
  read_char bytes scan rest =
  (fst (decode_b bytes rest), scan + Z.of_nat (snd (decode_b bytes rest)), skipn (snd (decode_b bytes rest)) rest).
Proof.
  intros Hne. destruct rest as [|b r]; [congruence|]. unfold read_char, decode_b. destruct bytes; cbn [orb]; [reflexivity|].
  destruct (Z.ltb_spec b 128) as [H|H]; [rewrite (decode_rune_ascii b r H); reflexivity|].
  destruct (decode_rune (b :: r)) as [c w]. reflexivity.
Qed.

(* the forced-progress step of handleInvalidToken *)
Lemma read_char_progress bytes scan rest :
  let '(ch, scan', rest') := read_char bytes scan rest in
  (rest = [] -> ch = -1 /\ scan' = scan) /\
  (rest <> [] -> scan < scan' /\ scan' + Z.of_nat (length rest') = scan + Z.of_nat (length rest)).
Proof.
  destruct rest as [|b t]; [cbn; split; [auto|congruence]|].
  rewrite read_char_decode by discriminate. pose proof (decode_b_width bytes (b :: t) ltac:(discriminate)) as W.
  split; [discriminate|]. intros _. rewrite skipn_length. lia.
Qed.

(* the character read is a newline standing for itself, or neither it nor any byte it spans is one *)
Lemma decode_b_nl bytes b t : 0 <= b -> let d := decode_b bytes (b :: t) in
  0 <= fst d /\
  (fst d = 10 /\ firstn (snd d) (b :: t) = [10] \/ fst d <> 10 /\ count_nl (firstn (snd d) (b :: t)) = 0).
Proof.
  intros Hb. destruct (decode_b_cases bytes b t) as [->|(_ & _ & _ & Hc & Hall)]; cbn [fst snd firstn].
  - split; [exact Hb|]. rewrite count_nl_cons. destruct (Z.eqb_spec b 10) as [->|N]; [left|right]; auto.
  - split; [lia|]. right. split; [lia|]. apply count_nl_hi. exact Hall.
Qed.

(* what follows the DFA loop: rule-token mode and token mode differ only in tok_of and inv_act *)
Lemma finish_shape lx st l h bk :
  finish lx st l h bk =
  let text (l : lstate) := sub (l_src l) (l_tokoff l) (l_off l) in
  let a := kw_switch lx (action_start (lx_tables lx) - st) h (text l) in
  if a =? inv_act lx then
    match (if has_bt lx then bk else None) with
    | Some (b, o, hh) =>
        let l' := rewind lx l o in
        let a' := kw_switch lx b hh (text l') in (tok_of lx a', memZ a' (lx_space lx), l')
    | None =>
        if l_off l =? l_tokoff l then ((if l_ch l =? -1 then 0 else tok_of lx a), false, rewind lx l (l_scan l))
        else (tok_of lx a, false, l)
    end
  else (tok_of lx a, memZ a (lx_space lx), l).
Proof. unfold finish, tok_of, inv_act. destruct (lx_rule_token lx); reflexivity. Qed.
