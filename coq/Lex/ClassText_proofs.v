(* C10, class_spec from the concrete syntax: parseClass on a printed bracket expression collects exactly the written
   ranges and subtracted sets. *)
From Coq Require Import List ZArith Bool Lia.
From TM Require Import Lex.Charset Lex.Charset_proofs Lex.RegexParse Lex.RegexParse_proofs2 Lex.ClassText.
Import ListNotations.
Local Open Scope Z_scope.

(* the parser positioned at byte offset k of an ASCII pattern, `rem` being the bytes from k on *)
Definition stt (src : list Z) (k : Z) (rem : list Z) : pstate :=
  match rem with [] => mkP src k k (-1) [] | c :: r => mkP src k (k + 1) c r end.
Definition ascii (l : list Z) : Prop := Forall (fun b => 0 <= b < 128) l.

Lemma next_stt src k c r : ascii r -> next (stt src k (c :: r)) = Ok (stt src (k + 1) r).
Proof.
  intros Ha. unfold next, stt. cbn [p_rest p_src p_scan]. destruct r as [|b t]; [reflexivity|].
  inversion Ha as [|? ? Hb _]. subst. rewrite (proj2 (Z.ltb_lt b 128)) by lia. reflexivity.
Qed.

Section Loop.
  Variable sf : Z -> Z.
  Variable named : list Z -> option (Z * table * table).

  (* the scanning loop of parse_class as a function of its own (the same term) *)
  Section TheLoop.
  Variable rec : pstate -> popts -> res (pstate * charset).
  Variable fuel' : nat.
  Variable o : popts.
  Variables start mx : Z.
  (* after the switch: a low bound lo has been read, the parser stands after it; loop is the rest of the scanning loop *)
  Definition range_part (loop : pstate -> charset -> res (pstate * charset * list charset)) (lo_start : Z)
      (p : pstate) (lo : Z) (r : charset) : res (pstate * charset * list charset) :=
    if negb (p_ch p =? 45) || (p_scan p =? src_len p) || (match p_rest p with b :: _ => b =? 93 | [] => false end)
    then loop p (append_range_rev r lo lo)
    else
      do p1 <- next p;
      do '(p2, hi) <-
        (if p_ch p1 =? 92 then
           do '(p2, cs) <- parse_escape sf named fuel' p1 o false;
           if negb (one_rune cs) then Err E_class_range lo_start (p_off p2)
           else Ok (p2, match cs with (x, _) :: _ => x | [] => 0 end)
         else
           if p_ch p1 >? mx then Err E_invalid_char (p_off p1) (p_scan p1)
           else do p2 <- next p1; Ok (p2, p_ch p1));
      if hi <? lo then Err E_class_range lo_start (p_off p2)
      else loop p2 (append_range_rev r lo hi).

  Fixpoint class_loop (n : nat) (p : pstate) (r : charset) (subs : list charset) {struct n} : res (pstate * charset * list charset) :=
        match n with
        | O => Err E_fuel 0 0
        | S n' =>
          let c := p_ch p in
          if c =? 93 then Ok (p, r, subs)
          else
            let range_part := range_part (fun p r => class_loop n' p r subs) (p_off p) in
            if c =? 46 then
              do p' <- next p; class_loop n' p' ((11, mx) :: (0, 9) :: r) subs
            else if c =? 45 then
              do p1 <- next p;
              if p_ch p1 =? 91 then
                do '(p2, cs) <- rec p1 o;
                class_loop n' p2 r (subs ++ [cs])
              else if p_ch p1 =? 92 then
                do '(p2, cs) <- parse_escape sf named fuel' p1 o false;
                if negb (one_rune cs) then class_loop n' p2 r (subs ++ [cs])
                else range_part p2 (match cs with (x, _) :: _ => x | [] => 0 end) ((45, 45) :: r)
              else class_loop n' p1 ((45, 45) :: r) subs
            else if c =? -1 then Err E_missing_bracket start (p_off p)
            else if c =? 92 then
              do '(p2, cs) <- parse_escape sf named fuel' p o false;
              if negb (one_rune cs) then class_loop n' p2 (rev cs ++ r) subs
              else range_part p2 (match cs with (x, _) :: _ => x | [] => 0 end) r
            else
              if c >? mx then Err E_invalid_char (p_off p) (p_scan p)
              else do p' <- next p; range_part p' c r
        end.
  End TheLoop.

  Lemma parse_class_unfold fuel' p0 o : parse_class sf named (S fuel') p0 o =
      let start := p_off p0 in
      let mx := opt_max o in
      do p <- next p0;
      do '(p, negated) <- (if p_ch p =? 94 then (do p' <- next p; Ok (p', true)) else Ok (p, false));
      do '(p, r) <- (if p_ch p =? 93 then (do p' <- next p; Ok (p', [(93, 93)])) else Ok (p, []));
      let fold := o_fold o in
      let o' := mkOpts false (o_bytes o) in
      do '(p, r, subs) <- class_loop (parse_class sf named fuel') fuel' o' start mx fuel' p r [];
      let cs := new_charset (rev r) in
      let cs := fold_left subtract subs cs in
      let cs := if fold then cs_fold sf cs (o_bytes o') else cs in
      let cs := if negated then invert cs mx else cs in
      do p' <- next p;
      Ok (p', cs).
  Proof. reflexivity. Qed.
End Loop.

Lemma plain_tests c bytes : plainb c = true ->
  0 <= c < 128 /\ (c =? 93) = false /\ (c =? 46) = false /\ (c =? 45) = false /\ (c =? -1) = false /\ (c =? 92) = false /\
  (c =? 94) = false /\ (c >? opt_max (mkOpts false bytes)) = false.
Proof. unfold plainb, opt_max, max_rune_u. intros H. destruct bytes; cbn [o_bytes]; repeat split; lia. Qed.

Definition hd_not_dash (tl : list Z) : Prop := match tl with c :: _ => (c =? 45) = false | [] => True end.

Lemma ch_stt_not_dash src k tl : hd_not_dash tl -> (p_ch (stt src k tl) =? 45) = false.
Proof. destruct tl as [|b t]; [reflexivity|]. exact (fun H => H). Qed.

Lemma ascii_tail c l : ascii (c :: l) -> ascii l.
Proof. apply Forall_inv_tail. Qed.

Lemma ascii_app a b : ascii (a ++ b) -> ascii a /\ ascii b.
Proof. unfold ascii. intros H. apply Forall_app in H. exact H. Qed.

Lemma print_sitem_head s tl : wf_sitem s = true ->
  exists c t, print_sitem s ++ tl = c :: t /\ (c =? 45) = false /\ (c =? 94) = false /\ (c =? 93) = false.
Proof.
  destruct s as [c|lo hi|e]; cbn [print_sitem app wf_sitem]; intros Hw.
  - destruct (plain_tests c true Hw) as (_ & ? & _ & ? & _ & _ & ? & _). eauto 6.
  - apply andb_true_iff in Hw. destruct Hw as [Hw _]. apply andb_true_iff in Hw. destruct Hw as [Hw _].
    destruct (plain_tests lo true Hw) as (_ & ? & _ & ? & _ & _ & ? & _). eauto 6.
  - eexists _, _. split; [reflexivity|]. repeat split.
Qed.

Lemma srange_valid s : wf_sitem s = true -> valid (srange s).
Proof.
  destruct s as [c|lo hi|e]; unfold valid; cbn [srange fst snd wf_sitem]; lia.
Qed.

Lemma print_body_cons it rest tl : print_body (it :: rest) ++ tl = print_item it ++ (print_body rest ++ tl).
Proof. unfold print_body. cbn [map concat]. rewrite app_assoc. reflexivity. Qed.

Lemma print_sbody_cons s rest tl : print_sbody (s :: rest) ++ tl = print_sitem s ++ (print_sbody rest ++ tl).
Proof. unfold print_sbody. cbn [map concat]. rewrite app_assoc. reflexivity. Qed.

Lemma len_split (x k : Z) (a b : list Z) :
  x = k + Z.of_nat (length (a ++ b)) -> x = k + Z.of_nat (length a) + Z.of_nat (length b).
Proof. rewrite app_length. lia. Qed.

Section Items.
  Variable sf : Z -> Z.
  Variable named : list Z -> option (Z * table * table).

  Definition sub_rel (bytes : bool) (s : charset) (nb : bool * list sitem) : Prop :=
    exists coll, s = class_den sf false (fst nb) bytes coll [] /\
      (forall x, mem x coll = mem x (map srange (snd nb))) /\ (forall p, In p coll -> valid p).

  Variable rec : pstate -> popts -> res (pstate * charset).
  Variable fuel' : nat.
  Variable bytes : bool.
  Variable start : Z.
  Notation o' := (mkOpts false bytes).
  Notation mx := (opt_max (mkOpts false bytes)).
  Notation L := (class_loop sf named rec fuel' o' start mx).

  Notation RP := (range_part sf named fuel' o' mx).

  Lemma off_stt src k tl : p_off (stt src k tl) = k.
  Proof. destruct tl; reflexivity. Qed.

  Lemma loop_plain n c tl r subs src k : plainb c = true -> ascii tl ->
    L (S n) (stt src k (c :: tl)) r subs = RP (fun p r => L n p r subs) k (stt src (k + 1) tl) c r.
  Proof.
    intros Hc Ha. destruct (plain_tests c bytes Hc) as (_ & E1 & E2 & E3 & E4 & E5 & _ & E6).
    cbn [class_loop]. cbn [stt p_ch p_off p_scan]. rewrite E1, E2, E3, E4, E5, E6.
    change (mkP src k (k + 1) c tl) with (stt src k (c :: tl)). rewrite (next_stt src k c tl Ha). reflexivity.
  Qed.

  Lemma range_single loop ls src k tl lo r : hd_not_dash tl ->
    RP loop ls (stt src k tl) lo r = loop (stt src k tl) (append_range_rev r lo lo).
  Proof. intros Hd. unfold range_part. rewrite (ch_stt_not_dash src k tl Hd). reflexivity. Qed.

  Lemma range_span loop ls src k hi tl lo r : plainb hi = true -> ascii tl ->
    Z.of_nat (length src) = k + Z.of_nat (length (45 :: hi :: tl)) ->
    RP loop ls (stt src k (45 :: hi :: tl)) lo r =
      if hi <? lo then Err E_class_range ls (k + 1 + 1) else loop (stt src (k + 1 + 1) tl) (append_range_rev r lo hi).
  Proof.
    intros Hhi Ha Hlen. destruct (plain_tests hi bytes Hhi) as (G0 & G1 & _ & _ & _ & G5 & _ & G6).
    assert (A1 : ascii (hi :: tl)) by (constructor; [exact G0|exact Ha]).
    assert (Hend : (k + 1 =? Z.of_nat (length src)) = false) by (clear - Hlen; cbn [length] in Hlen; lia).
    unfold range_part. cbn [stt p_ch p_scan p_rest]. cbn [Z.eqb Pos.eqb negb orb]. unfold src_len. cbn [p_src]. rewrite Hend, G1. cbn [orb].
    change (mkP src k (k + 1) 45 (hi :: tl)) with (stt src k (45 :: hi :: tl)). rewrite (next_stt src k 45 _ A1). cbn [bind].
    cbn [stt p_ch p_scan]. rewrite G5, G6.
    change (mkP src (k + 1) (k + 1 + 1) hi tl) with (stt src (k + 1) (hi :: tl)). rewrite (next_stt src (k + 1) hi _ Ha). cbn [bind].
    rewrite off_stt. reflexivity.
  Qed.

  Lemma simple_letter_cases e : simple_letter e = true -> e = 97 \/ e = 102 \/ e = 110 \/ e = 114 \/ e = 116 \/ e = 118.
  Proof. unfold simple_letter. lia. Qed.

  Lemma parse_escape_simple f e tl src k : simple_letter e = true -> ascii tl ->
    parse_escape sf named f (stt src k (92 :: e :: tl)) o' false = Ok (stt src (k + 1 + 1) tl, [(esc_val e, esc_val e)]).
  Proof.
    intros He Ha. assert (A1 : ascii (e :: tl)).
    { constructor; [|exact Ha]. destruct (simple_letter_cases e He) as [->|[->|[->|[->|[->| ->]]]]]; lia. }
    unfold parse_escape. rewrite (next_stt src k 92 _ A1). cbn [bind]. cbn [stt p_ch].
    destruct (simple_letter_cases e He) as [->|[->|[->|[->|[->| ->]]]]];
      cbn -[next]; (change (mkP src (k + 1) (k + 1 + 1) ?x tl) with (stt src (k + 1) (?x :: tl)) || idtac);
      match goal with |- context [next (mkP src (k + 1) (k + 1 + 1) ?x tl)] =>
        change (mkP src (k + 1) (k + 1 + 1) x tl) with (stt src (k + 1) (x :: tl)); rewrite (next_stt src (k + 1) x tl Ha) end;
      reflexivity.
  Qed.

  Lemma step_esc n e tl r subs src k : simple_letter e = true -> ascii tl -> hd_not_dash tl ->
    L (S n) (stt src k (92 :: e :: tl)) r subs = L n (stt src (k + 1 + 1) tl) (append_range_rev r (esc_val e) (esc_val e)) subs.
  Proof.
    intros He Ha Hd. cbn [class_loop].
    replace (p_ch (stt src k (92 :: e :: tl))) with 92 by reflexivity. cbn [Z.eqb Pos.eqb].
    rewrite (parse_escape_simple fuel' e tl src k He Ha). cbn [bind one_rune]. rewrite Z.eqb_refl. cbn [negb].
    apply range_single. exact Hd.
  Qed.

  Lemma step_sub n rest r subs src k : ascii (91 :: rest) ->
    L (S n) (stt src k (45 :: 91 :: rest)) r subs =
      do '(p2, cs) <- rec (stt src (k + 1) (91 :: rest)) o'; L n p2 r (subs ++ [cs]).
  Proof.
    intros Ha. cbn [class_loop].
    replace (p_ch (stt src k (45 :: 91 :: rest))) with 45 by reflexivity. cbn [Z.eqb Pos.eqb].
    rewrite (next_stt src k 45 _ Ha). cbn [bind].
    replace (p_ch (stt src (k + 1) (91 :: rest))) with 91 by reflexivity. cbn [Z.eqb Pos.eqb]. reflexivity.
  Qed.

  Lemma step_sitem n s tl r subs src k : wf_sitem s = true -> ascii (print_sitem s ++ tl) ->
    ends_range (CS s) = true \/ hd_not_dash tl ->
    Z.of_nat (length src) = k + Z.of_nat (length (print_sitem s ++ tl)) -> (forall p, In p r -> valid p) ->
    exists r1, L (S n) (stt src k (print_sitem s ++ tl)) r subs = L n (stt src (k + Z.of_nat (length (print_sitem s))) tl) r1 subs /\
      (forall x, mem x r1 = mem x r || in_range x (srange s)) /\ (forall p, In p r1 -> valid p).
  Proof.
    intros Hw Ha Hd Hlen Hv. pose proof (srange_valid s Hw) as Hs. unfold valid in Hs.
    exists (append_range_rev r (fst (srange s)) (snd (srange s))).
    split; [|split; [intros x; rewrite append_range_rev_mem by assumption; destruct (srange s); reflexivity
                    |apply append_range_rev_valid; assumption]].
    destruct s as [c|lo hi|e]; cbn [print_sitem app srange fst snd wf_sitem ends_range length Z.of_nat Pos.of_succ_nat Pos.succ] in *.
    - destruct Hd as [Hd|Hd]; [discriminate|]. inversion Ha; subst. rewrite loop_plain, range_single by assumption. reflexivity.
    - apply andb_true_iff in Hw. destruct Hw as [Hw _]. apply andb_true_iff in Hw. destruct Hw as [Hlo Hhi].
      inversion Ha as [|? ? _ Ha1]; subst. inversion Ha1 as [|? ? _ Ha2]; subst. inversion Ha2; subst.
      rewrite loop_plain, range_span, (proj2 (Z.ltb_ge hi lo)) by (assumption || (cbn [length] in *; lia)). f_equal. f_equal. lia.
    - destruct Hd as [Hd|Hd]; [discriminate|]. inversion Ha as [|? ? _ Ha1]; subst. inversion Ha1; subst.
      rewrite step_esc by assumption. f_equal. f_equal. lia.
  Qed.
  Variable src : list Z.

  Lemma loop_sitems : forall body n tl r subs k k', (length body < n)%nat ->
    forallb wf_sitem body = true -> ascii (print_sbody body ++ 93 :: tl) ->
    Z.of_nat (length src) = k + Z.of_nat (length (print_sbody body ++ 93 :: tl)) ->
    k' = k + Z.of_nat (length (print_sbody body)) -> (forall p, In p r -> valid p) ->
    exists r', L n (stt src k (print_sbody body ++ 93 :: tl)) r subs = Ok (stt src k' (93 :: tl), r', subs) /\
      (forall x, mem x r' = mem x r || mem x (map srange body)) /\ (forall p, In p r' -> valid p).
  Proof.
    induction body as [|s rest IH]; intros [|n] tl r subs k k' Hn Hw Ha Hlen Hk Hv; [destruct (Nat.nlt_0_r _ Hn)| |destruct (Nat.nlt_0_r _ Hn)|].
    - exists r. cbn in Hk |- *. subst k'. rewrite Z.add_0_r.
      split; [reflexivity|]. split; [intros x; rewrite orb_false_r; reflexivity|exact Hv].
    - cbn [forallb] in Hw. apply andb_true_iff in Hw. destruct Hw as [Hs Hr].
      rewrite print_sbody_cons in Ha, Hlen |- *.
      assert (Hd : hd_not_dash (print_sbody rest ++ 93 :: tl)).
      { destruct rest as [|s' rest']; [reflexivity|]. cbn [forallb] in Hr. apply andb_true_iff in Hr.
        rewrite print_sbody_cons. destruct (print_sitem_head s' (print_sbody rest' ++ 93 :: tl) (proj1 Hr)) as (c & t & -> & Hc & _). exact Hc. }
      destruct (step_sitem n s _ r subs src k Hs Ha (or_intror Hd) Hlen Hv) as (r1 & E1 & M1 & V1).
      destruct (IH n tl r1 subs (k + Z.of_nat (length (print_sitem s))) k') as (r' & E & M & V); try assumption.
      { apply Nat.succ_lt_mono, Hn. }
      { apply ascii_app in Ha. exact (proj2 Ha). }
      { apply len_split, Hlen. }
      { apply len_split, Hk. }
      exists r'. rewrite E1, E. split; [reflexivity|]. split; [|exact V].
      intros x. rewrite M, M1. cbn [map]. rewrite mem_cons, orb_assoc. reflexivity.
  Qed.

  Definition rec_ok : Prop := forall neg body k rest,
    negb (Nat.eqb (length body) 0) && forallb wf_sitem body = true -> (S (length body) < fuel')%nat ->
    ascii (91 :: print_neg neg ++ print_sbody body ++ 93 :: rest) ->
    Z.of_nat (length src) = k + Z.of_nat (length (91 :: print_neg neg ++ print_sbody body ++ 93 :: rest)) ->
    exists cs, rec (stt src k (91 :: print_neg neg ++ print_sbody body ++ 93 :: rest)) o' =
        Ok (stt src (k + Z.of_nat (length (91 :: print_neg neg ++ print_sbody body ++ [93]))) rest, cs) /\
      sub_rel bytes cs (neg, body).

  Lemma hd_ok rest tl : forallb wf_item rest = true -> sub_placed false rest = true -> hd_not_dash (print_body rest ++ 93 :: tl).
  Proof.
    intros Hw Hp. destruct rest as [|[s|neg body] rest]; [reflexivity| |discriminate Hp]. rewrite print_body_cons. cbn [print_item].
    cbn [forallb] in Hw. apply andb_true_iff in Hw.
    destruct (print_sitem_head s (print_body rest ++ 93 :: tl) (proj1 Hw)) as (c & t & -> & Hc & _). exact Hc.
  Qed.

  Lemma loop_items : rec_ok -> forall items prev_ok n tl r subs k k', (length items < n)%nat ->
    forallb wf_item items = true -> sub_placed prev_ok items = true ->
    (forall neg body, In (CSub neg body) items -> (S (length body) < fuel')%nat) ->
    ascii (print_body items ++ 93 :: tl) ->
    Z.of_nat (length src) = k + Z.of_nat (length (print_body items ++ 93 :: tl)) ->
    k' = k + Z.of_nat (length (print_body items)) ->
    (forall p, In p r -> valid p) ->
    exists r' subs', L n (stt src k (print_body items ++ 93 :: tl)) r subs = Ok (stt src k' (93 :: tl), r', subs ++ subs') /\
      (forall x, mem x r' = mem x r || mem x (ranges_of items)) /\ (forall p, In p r' -> valid p) /\
      Forall2 (sub_rel bytes) subs' (subs_of items).
  Proof.
    intros Hrec. induction items as [|it rest IH]; intros prev_ok [|n] tl r subs k k' Hn Hw Hp Hsz Ha Hlen Hk Hv; [destruct (Nat.nlt_0_r _ Hn)| |destruct (Nat.nlt_0_r _ Hn)|].
    - exists r, []. cbn in Hk |- *. subst k'. rewrite app_nil_r, Z.add_0_r.
      split; [reflexivity|]. split; [intros x; rewrite orb_false_r; reflexivity|]. split; [exact Hv|constructor].
    - cbn [forallb] in Hw. apply andb_true_iff in Hw. destruct Hw as [Hwi Hwr].
      cbn [sub_placed] in Hp. apply andb_true_iff in Hp. destruct Hp as [Hpi Hpr].
      rewrite print_body_cons in Ha, Hlen |- *. cbn [length] in Hn. apply Nat.succ_lt_mono in Hn.
      assert (Hk' : k' = k + Z.of_nat (length (print_item it)) + Z.of_nat (length (print_body rest))) by apply len_split, Hk.
      assert (Hsz' : forall neg body, In (CSub neg body) rest -> (S (length body) < fuel')%nat).
      { intros neg0 body0 Hin. apply (Hsz neg0 body0). right. exact Hin. }
      assert (HaT : ascii (print_body rest ++ 93 :: tl)) by (apply ascii_app in Ha; exact (proj2 Ha)).
      pose proof (len_split _ _ _ _ Hlen) as HlenT.
      destruct it as [s|neg body]; cbn [print_item wf_item] in *.
      + (* a '-[..]' may follow only an item that ends a range (sub_placed): after any other item no '-' comes next *)
        assert (Hd : ends_range (CS s) = true \/ hd_not_dash (print_body rest ++ 93 :: tl)).
        { destruct (ends_range (CS s)) eqn:Er; [left; reflexivity|right; apply hd_ok; assumption]. }
        destruct (step_sitem n s _ r subs src k Hwi Ha Hd Hlen Hv) as (r1 & E1 & M1 & V1).
        destruct (IH (ends_range (CS s)) n tl r1 subs _ k' Hn Hwr Hpr Hsz' HaT HlenT Hk' V1) as (r' & subs' & E & M & V & F).
        exists r', subs'. rewrite E1, E. split; [reflexivity|]. split; [|split; [exact V|exact F]].
        intros x. rewrite M, M1. cbn [ranges_of flat_map app]. rewrite mem_cons, orb_assoc. reflexivity.
      + assert (Etext : (45 :: 91 :: print_neg neg ++ print_sbody body ++ [93]) ++ (print_body rest ++ 93 :: tl) =
                        45 :: 91 :: print_neg neg ++ print_sbody body ++ 93 :: (print_body rest ++ 93 :: tl)).
        { cbn [app]. rewrite <- !app_assoc. reflexivity. }
        rewrite Etext in Ha, Hlen |- *. pose proof (ascii_tail _ _ Ha) as Ha1.
        rewrite (step_sub _ _ r subs src k Ha1).
        destruct (Hrec neg body (k + 1) _ Hwi (Hsz neg body (or_introl eq_refl)) Ha1) as (cs & Er & Hcs).
        { clear - Hlen. cbn [length] in *. lia. }
        rewrite Er. cbn [bind].
        destruct (IH true n tl r (subs ++ [cs]) (k + 1 + Z.of_nat (length (91 :: print_neg neg ++ print_sbody body ++ [93]))) k')
          as (r' & subs' & E & M & V & F); try assumption.
        { clear - HlenT. cbn [length] in *. lia. }
        { clear - Hk'. cbn [length] in *. lia. }
        exists r', (cs :: subs'). rewrite <- app_assoc in E. cbn [app] in E.
        split; [exact E|]. split; [exact M|]. split; [exact V|]. cbn [subs_of flat_map app]. constructor; [exact Hcs|exact F].
  Qed.
End Items.

Section ClassThm.
  Variable sf : Z -> Z.
  Variable named : list Z -> option (Z * table * table).

  Lemma class_wrapper fuel' o src neg body k tl r subs :
    ascii (91 :: print_neg neg ++ body ++ 93 :: tl) ->
    (exists c0 t0, body ++ 93 :: tl = c0 :: t0 /\ (c0 =? 94) = false /\ (c0 =? 93) = false) ->
    class_loop sf named (parse_class sf named fuel') fuel' (mkOpts false (o_bytes o))
        (p_off (stt src k (91 :: print_neg neg ++ body ++ 93 :: tl))) (opt_max (mkOpts false (o_bytes o))) fuel'
        (stt src (k + 1 + Z.of_nat (length (print_neg neg))) (body ++ 93 :: tl)) [] [] =
      Ok (stt src (k + 1 + Z.of_nat (length (print_neg neg)) + Z.of_nat (length body)) (93 :: tl), r, subs) ->
    parse_class sf named (S fuel') (stt src k (91 :: print_neg neg ++ body ++ 93 :: tl)) o =
      Ok (stt src (k + Z.of_nat (length (91 :: print_neg neg ++ body ++ [93]))) tl,
          class_den sf (o_fold o) neg (o_bytes o) (rev r) subs).
  Proof.
    intros Ha (c0 & t0 & Ec & Hc94 & Hc93) E. pose proof (ascii_tail _ _ Ha) as Ha1.
    assert (Hab : ascii (body ++ 93 :: tl)) by (apply ascii_app in Ha1; exact (proj2 Ha1)).
    assert (Hatl : ascii tl) by (apply ascii_app in Hab; exact (ascii_tail _ _ (proj2 Hab))).
    rewrite parse_class_unfold. cbv zeta. rewrite (next_stt src k 91 _ Ha1). cbn [bind].
    assert (Hneg : (if p_ch (stt src (k + 1) (print_neg neg ++ (body ++ 93 :: tl))) =? 94
                    then do p' <- next (stt src (k + 1) (print_neg neg ++ (body ++ 93 :: tl))); Ok (p', true)
                    else Ok (stt src (k + 1) (print_neg neg ++ (body ++ 93 :: tl)), false)) =
                   Ok (stt src (k + 1 + Z.of_nat (length (print_neg neg))) (body ++ 93 :: tl), neg)).
    { destruct neg; cbn [print_neg app length].
      - replace (p_ch (stt src (k + 1) (94 :: body ++ 93 :: tl))) with 94 by reflexivity. rewrite Z.eqb_refl.
        rewrite (next_stt src (k + 1) 94 _ Hab). reflexivity.
      - rewrite Ec. cbn [stt p_ch]. rewrite Hc94, Z.add_0_r. reflexivity. }
    rewrite Hneg. cbn [bind].
    replace (p_ch (stt src (k + 1 + Z.of_nat (length (print_neg neg))) (body ++ 93 :: tl)) =? 93) with false
      by (rewrite Ec; symmetry; exact Hc93).
    cbn [bind]. change (opt_max o) with (opt_max (mkOpts false (o_bytes o))).
    rewrite E. cbn [bind]. rewrite (next_stt src _ 93 tl Hatl). cbn [bind].
    do 3 f_equal. cbn [length]. rewrite !app_length. cbn [length]. lia.
  Qed.

  Lemma level1 f bytes src : rec_ok sf (parse_class sf named f) f bytes src.
  Proof.
    intros neg body k rest Hw Hsz Ha Hlen. destruct f as [|f0]; [lia|].
    apply andb_true_iff in Hw. destruct Hw as [Hne Hwb].
    destruct (loop_sitems sf named (parse_class sf named f0) f0 bytes
                (p_off (stt src k (91 :: print_neg neg ++ print_sbody body ++ 93 :: rest))) src body f0 rest [] []
                (k + 1 + Z.of_nat (length (print_neg neg))) (k + 1 + Z.of_nat (length (print_neg neg)) + Z.of_nat (length (print_sbody body)))
                ltac:(lia) Hwb) as (r' & E & M & V).
    { apply ascii_tail, ascii_app in Ha. exact (proj2 Ha). }
    { clear - Hlen. cbn [length] in Hlen. rewrite app_length in Hlen. lia. }
    { reflexivity. }
    { intros p []. }
    eexists. split.
    - apply (class_wrapper f0 (mkOpts false bytes) src neg (print_sbody body) k rest r' [] Ha); [|exact E].
      destruct body as [|s b]; [discriminate Hne|]. cbn [forallb] in Hwb. apply andb_true_iff in Hwb.
      rewrite print_sbody_cons. destruct (print_sitem_head s (print_sbody b ++ 93 :: rest) (proj1 Hwb)) as (c & t & Ec & _ & Hc). eauto.
    - exists (rev r'). cbn [fst snd]. split; [reflexivity|]. split.
      + intros x. rewrite mem_rev. apply M.
      + intros p Hp. apply V, in_rev, Hp.
  Qed.

  Theorem parse_class_of_print fuel' o src neg items k tl :
    wf_items items = true -> (length items < fuel')%nat ->
    (forall neg body, In (CSub neg body) items -> (S (length body) < fuel')%nat) ->
    ascii (print_class neg items ++ tl) ->
    Z.of_nat (length src) = k + Z.of_nat (length (print_class neg items ++ tl)) ->
    exists coll subs,
      parse_class sf named (S fuel') (stt src k (print_class neg items ++ tl)) o =
        Ok (stt src (k + Z.of_nat (length (print_class neg items))) tl, class_den sf (o_fold o) neg (o_bytes o) coll subs) /\
      (forall x, mem x coll = mem x (ranges_of items)) /\ (forall p, In p coll -> valid p) /\
      Forall2 (sub_rel sf (o_bytes o)) subs (subs_of items).
  Proof.
    intros Hwf Hf Hsz Ha Hlen.
    unfold wf_items in Hwf. apply andb_true_iff in Hwf. destruct Hwf as [Hwf Hpl]. apply andb_true_iff in Hwf. destruct Hwf as [Hne Hw].
    assert (Etext : print_class neg items ++ tl = 91 :: print_neg neg ++ print_body items ++ 93 :: tl).
    { unfold print_class. cbn [app]. rewrite <- !app_assoc. reflexivity. }
    rewrite Etext in Ha, Hlen |- *.
    destruct (loop_items sf named (parse_class sf named fuel') fuel' (o_bytes o)
                (p_off (stt src k (91 :: print_neg neg ++ print_body items ++ 93 :: tl))) src (level1 fuel' (o_bytes o) src)
                items true fuel' tl [] [] (k + 1 + Z.of_nat (length (print_neg neg)))
                (k + 1 + Z.of_nat (length (print_neg neg)) + Z.of_nat (length (print_body items))) Hf Hw Hpl Hsz)
      as (r' & subs' & E & M & V & F).
    { apply ascii_tail, ascii_app in Ha. exact (proj2 Ha). }
    { clear - Hlen. cbn [length] in Hlen. rewrite app_length in Hlen. lia. }
    { reflexivity. }
    { intros p []. }
    cbn [app] in E. exists (rev r'), subs'. split; [|split; [|split]].
    - apply (class_wrapper fuel' o src neg (print_body items) k tl r' subs' Ha); [|exact E].
      destruct items as [|[s|n b] rest]; [discriminate Hne| |]; rewrite print_body_cons.
      + cbn [forallb] in Hw. apply andb_true_iff in Hw.
        destruct (print_sitem_head s (print_body rest ++ 93 :: tl) (proj1 Hw)) as (c & t & Ec & _ & Hc). eauto.
      + eexists _, _. split; [reflexivity|]. split; reflexivity.
    - intros x. rewrite mem_rev, M. reflexivity.
    - intros p Hp. apply V, in_rev, Hp.
    - exact F.
  Qed.
End ClassThm.

Section Reject.
  Variable sf : Z -> Z.
  Variable named : list Z -> option (Z * table * table).

  Theorem parse_class_rejects_descending fuel' o src lo hi k tl :
    plainb lo = true -> plainb hi = true -> hi < lo -> ascii tl ->
    Z.of_nat (length src) = k + Z.of_nat (length (91 :: lo :: 45 :: hi :: tl)) ->
    parse_class sf named (S (S fuel')) (stt src k (91 :: lo :: 45 :: hi :: tl)) o = Err E_class_range (k + 1) (k + 1 + 1 + 1 + 1).
  Proof.
    intros Hlo Hhi Hlt Ha Hlen. destruct (plain_tests lo true Hlo) as (H0 & E93 & _ & _ & _ & _ & E94 & _).
    destruct (plain_tests hi true Hhi) as (G0 & _).
    assert (A1 : ascii (lo :: 45 :: hi :: tl)) by (repeat (constructor; [lia|]); exact Ha).
    rewrite parse_class_unfold. cbv zeta. rewrite (next_stt src k 91 _ A1). cbn [bind].
    cbn [stt p_ch]. rewrite E94. cbn [bind]. cbn [p_ch]. rewrite E93. cbn [bind].
    change (mkP src (k + 1) (k + 1 + 1) lo (45 :: hi :: tl)) with (stt src (k + 1) (lo :: 45 :: hi :: tl)).
    change (opt_max o) with (opt_max (mkOpts false (o_bytes o))).
    rewrite (loop_plain sf named _ _ (o_bytes o) _ fuel' lo _ [] [] src (k + 1) Hlo), range_span;
      [|assumption|assumption|clear - Hlen; cbn [length] in *; lia|constructor; [lia|constructor; [lia|exact Ha]]].
    rewrite (proj2 (Z.ltb_lt hi lo) Hlt). reflexivity.
  Qed.

  Lemma init_stt src : src <> [] -> ascii src -> init src = Ok (stt src 0 src).
  Proof.
    intros Hne Ha. destruct src as [|b t]; [congruence|]. inversion Ha as [|? ? Hb _]; subst.
    unfold init, next. cbn [p_rest]. rewrite (proj2 (Z.ltb_lt b 128)) by lia. reflexivity.
  Qed.
End Reject.
