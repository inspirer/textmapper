(* C09: Tables.Scan (with checkpoints) = "run the automaton and remember the last accepting position",
   for every table set accepted by the validator and every text. *)
From Coq Require Import List ZArith Bool Lia.
From TM Require Import Lib.ListX Lex.Tables Lex.Tables_proofs Lex.Scan Lex.Deriv Lex.DerivSem.
Import ListNotations.
Local Open Scope Z_scope.

Lemma zrange_in n x : In x (zrange n) <-> 0 <= x < n.
Proof. apply in_map_of_nat_seq. Qed.

(* what a stop cell with action a0 answers when v is what is remembered of earlier accepting positions *)
Definition stop_value (a0 : Z) (v : option (Z * Z)) (pos : Z) : Z * Z :=
  if a0 =? 0 then verdict v pos else (pos, a0).

Section WithTables.
  Variable t : tables.
  Hypothesis Hchk : check_tables t = true.

  Lemma chk_parts :
    0 < num_symbols t /\ 0 < nstates t /\
    (forall s y, 0 <= s < nstates t -> 0 <= y < num_symbols t -> cell_ok t s y = true) /\
    (forall s, In s (state_map t) -> 0 <= s < nstates t /\ label t s = 0) /\
    (forall r, 0 <= lookup_sym (symbol_map t) r < num_symbols t).
  Proof.
    pose proof Hchk as H. unfold check_tables in H.
    apply andb_prop in H as [H A6]. apply andb_prop in H as [H A5]. apply andb_prop in H as [H A4].
    apply andb_prop in H as [H A3]. apply andb_prop in H as [A1 A2]. apply Z.ltb_lt in A1, A2.
    rewrite forallb_forall in A3, A4, A5.
    split; [assumption|]. split; [assumption|]. split; [|split].
    - intros s y Hs Hy. specialize (A3 s (proj2 (zrange_in _ _) Hs)). cbv beta in A3.
      rewrite forallb_forall in A3. exact (A3 y (proj2 (zrange_in _ _) Hy)).
    - intros s Hs. specialize (A4 s Hs). apply andb_prop in A4 as [A4 L]. split; [exact (between_ltb _ _ _ A4)|]. apply Z.eqb_eq, L.
    - intros r. apply lookup_sym_range.
      + intro E. rewrite E in A6. discriminate A6.
      + intros e He. exact (between_ltb _ _ _ (A5 e He)).
  Qed.

  (* A loop that scans with checkpoints remembers the last accepting position only while it sits in non-accepting
     states: there its memory v is that of the reference run.  (In an accepting state the reference run has just
     recorded the position; the loop will only if it leaves through a checkpoint.) *)
  Definition keeps (s : Z) (v last : option (Z * Z)) : Prop := label t s = 0 -> v = last.

  (* the three kinds of cell the validator admits: a plain move never leaves an accepting state for a non-accepting
     one; a checkpoint leaves an accepting state and carries its label; a stop cell names the label of its state *)
  Lemma ref_step s y pos v last : 0 <= s < nstates t -> 0 <= y < num_symbols t -> keeps s v last ->
    let c := cell t s y in
    let last' := upd t s pos last in
    (0 <= c < nstates t /\ move t s y = Some c /\ keeps c v last') \/
    (action_start t < c < 0 /\ move t s y = Some (snd (bt_entry t c)) /\ 0 <= snd (bt_entry t c) < nstates t /\
       fst (bt_entry t c) = label t s /\ label t s <> 0 /\ keeps (snd (bt_entry t c)) (Some (pos, label t s)) last') \/
    (c <= action_start t /\ move t s y = None /\ verdict last' pos = stop_value (action_start t - c) v pos).
  Proof.
    intros Hs Hy K c last'. destruct chk_parts as (_ & _ & Hcell & _). specialize (Hcell s y Hs Hy).
    unfold cell_ok in Hcell. fold c in Hcell. unfold move. fold c. subst last'. unfold upd, keeps.
    clearbody c. pose proof (action_start_neg t) as Has.
    destruct (Z.leb_spec 0 c) as [E0|E0]; [|destruct (Z.gtb_spec c (action_start t)) as [E1|E1]].
    - apply andb_prop in Hcell as [C1 C2]. apply Z.ltb_lt in C1.
      left. split; [lia|]. split; [reflexivity|]. intros Hc.
      rewrite Hc, orb_false_r in C2. apply Z.eqb_eq in C2. rewrite C2. exact (K C2).
    - destruct (bt_entry t c) as [ba ns]. cbn [fst snd].
      apply andb_prop in Hcell as [Hcell _]. apply andb_prop in Hcell as [Hcell C4]. apply andb_prop in Hcell as [Hcell C3].
      apply andb_prop in Hcell as [C1 C2]. apply Z.eqb_eq in C1. apply negb_true_iff in C2. apply Z.leb_le in C3. apply Z.ltb_lt in C4.
      right. left. split; [lia|]. split; [reflexivity|]. split; [lia|]. split; [exact C1|].
      split; [apply Z.eqb_neq; exact C2|]. intros _. rewrite C2. reflexivity.
    - apply andb_prop in Hcell as [C1 _]. apply Z.eqb_eq in C1.
      right. right. split; [lia|]. split; [reflexivity|]. rewrite C1. unfold stop_value.
      destruct (Z.eqb_spec (label t s) 0) as [L|L]; [rewrite (K L)|]; reflexivity.
  Qed.

  (* Scan keeps (size, action) with size = 0 for "nothing yet"; a checkpoint at position 0 would be lost, hence
     pos > 0 in accepting states *)
  Definition regs (size action : Z) : option (Z * Z) := if size >? 0 then Some (size, action) else None.

  Definition Inv (s pos size action : Z) (last : option (Z * Z)) : Prop :=
    keeps s (regs size action) last /\ (label t s <> 0 -> pos > 0).

  (* one step of either loop on symbol y at position pos, whatever follows (Ks, Kr) at the next position pos' *)
  Lemma step_agree (Ks : Z -> Z -> Z -> Z * Z) (Kr : Z -> option (Z * Z) -> Z * Z) s y pos pos' size action last :
    0 <= s < nstates t -> 0 <= y < num_symbols t -> Inv s pos size action last -> pos' > 0 ->
    (forall s' size' action' last', 0 <= s' < nstates t -> Inv s' pos' size' action' last' ->
       Ks s' size' action' = Kr s' last') ->
    (let st := cell t s y in
     if st <? 0 then
       if st >? action_start t then let '(a, ns) := bt_entry t st in Ks ns pos a
       else if (action_start t =? st) && (size >? 0) then (size, action) else (pos, action_start t - st)
     else Ks st size action) =
    match move t s y with Some s' => Kr s' (upd t s pos last) | None => verdict (upd t s pos last) pos end.
  Proof.
    intros Hs Hy (K & P) Hp' HK. cbv zeta.
    destruct (ref_step s y pos _ last Hs Hy K) as [(C & -> & K')|[(C & -> & Hns & Ha & Hl & K')|(C & -> & ->)]].
    - rewrite (proj2 (Z.ltb_ge _ 0)) by lia. apply HK; [exact C|]. split; [exact K'|lia].
    - rewrite (proj2 (Z.ltb_lt _ 0)), (proj2 (Z.gtb_lt _ _)) by lia.
      destruct (bt_entry t (cell t s y)) as [a ns]. cbn [fst snd] in *. subst a. apply HK; [exact Hns|].
      split; [|lia]. unfold regs. rewrite (proj2 (Z.gtb_lt pos 0)) by (specialize (P Hl); lia). exact K'.
    - pose proof (action_start_neg t) as Has.
      rewrite (proj2 (Z.ltb_lt _ 0)), Z.gtb_ltb, (proj2 (Z.ltb_ge _ _)) by lia.
      unfold stop_value, regs. destruct (Z.eqb_spec (action_start t) (cell t s y)) as [<-|N].
      + rewrite Z.sub_diag. destruct (size >? 0); reflexivity.
      + rewrite (proj2 (Z.eqb_neq _ 0)) by lia. reflexivity.
  Qed.

  Lemma eoi_agree fuel : forall s len size action last,
    0 <= s < nstates t -> len > 0 -> Inv s len size action last ->
    scan_eoi fuel t s len size action = ref_eoi fuel t s len last.
  Proof.
    induction fuel as [|f IH]; intros s len size action last Hs Hlen HI; [reflexivity|].
    destruct chk_parts as (Hns & _). cbn [scan_eoi ref_eoi].
    apply (step_agree (fun s' sz a => scan_eoi f t s' len sz a) (fun s' l => ref_eoi f t s' len l) s 0 len len);
      try assumption; [lia|]. intros; apply IH; assumption.
  Qed.

  Lemma text_agree fuel : forall text s pos size action last,
    0 <= s < nstates t -> 0 <= pos -> (text = [] -> pos > 0) -> Inv s pos size action last ->
    scan_text t fuel s pos size action text = ref_text t fuel s pos last text.
  Proof.
    induction fuel as [|f IH]; intros text s pos size action last Hs Hpos Hne HI; [reflexivity|].
    destruct chk_parts as (_ & _ & _ & _ & Hsym).
    cbn [scan_text ref_text]. destruct text as [|b rest]; [apply eoi_agree; auto|].
    pose proof (decode_width t (b :: rest) ltac:(discriminate)) as W.
    destruct (decode t (b :: rest)) as [r w]. cbn [snd] in W.
    apply (step_agree (fun s' sz a => scan_text t f s' (pos + Z.of_nat w) sz a (skipn w (b :: rest)))
                      (fun s' l => ref_text t f s' (pos + Z.of_nat w) l (skipn w (b :: rest))) s _ pos (pos + Z.of_nat w));
      try assumption; [apply Hsym|lia|]. intros; apply IH; try assumption; lia.
  Qed.

  Theorem scan_is_longest : forall sc text, In (nthZ (state_map t) sc) (state_map t) -> text <> [] ->
    scanF t sc text = longest_accept t sc text.
  Proof.
    intros sc text Hsc Hne. unfold scanF, longest_accept.
    destruct chk_parts as (_ & _ & _ & Hst & _). destruct (Hst _ Hsc) as (Hs & Hl).
    apply text_agree; try assumption; try lia.
    - intros E; congruence.
    - split; [intros _; reflexivity|intros H; congruence].
  Qed.
End WithTables.

Fixpoint ref_run (t : tables) (s pos : Z) (last : option (Z * Z)) (l : list (Z * nat)) : Z * Z :=
  match l with
  | [] => ref_eoi (S (Z.to_nat (nstates t))) t s pos last
  | (c, w) :: tl =>
      match move t s (lookup_sym (symbol_map t) c) with
      | Some s' => ref_run t s' (pos + Z.of_nat w) (upd t s pos last) tl
      | None => verdict (upd t s pos last) pos
      end
  end.

Lemma ref_text_run t text : forall f s pos last, (length text < f)%nat ->
  ref_text t f s pos last text = ref_run t s pos last (symbols (scan_bytes t) text).
Proof.
  pattern text, (symbols (scan_bytes t) text). apply symbols_ind; clear text.
  - intros f s pos last Hf. destruct f; [lia|]. reflexivity.
  - intros text c w Hne Hd Hlt IH f s pos last Hf. destruct f; [lia|]. destruct text as [|b r]; [congruence|].
    cbn [ref_text ref_run]. change (decode t (b :: r)) with (decode_b (scan_bytes t) (b :: r)). rewrite Hd.
    destruct (move t s (lookup_sym (symbol_map t) c)); [|reflexivity]. apply IH. lia.
Qed.
