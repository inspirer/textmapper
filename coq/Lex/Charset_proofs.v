(* The model of lex/charset.go: membership and normal form (wf_cs) for invert, subtract, intersect, merge; newCharset as
   sort + merge; appendRange.  Boolean set equations are closed by the tactic zb. *)
From Coq Require Import List ZArith Bool Lia ZifyBool.
From TM Require Import Lex.Charset.
Import ListNotations.
Local Open Scope Z_scope.

(* An equation between boolean set expressions over ranges is linear arithmetic once in_range is unfolded: lia
   (through ZifyBool) reads <=?, &&, ||, negb, and takes mem x t of an unknown list t as an atom.  What the
   normal form says about such a t is handed to it as a hypothesis (wf_mem_lt). *)
Ltac zb := unfold in_range in *; cbn [fst snd] in *; lia.

Ltac splits := repeat match goal with |- _ /\ _ => split end.

Lemma mem_cons x p t : mem x (p :: t) = in_range x p || mem x t.
Proof. reflexivity. Qed.

Lemma mem_app x a b : mem x (a ++ b) = mem x a || mem x b.
Proof. unfold mem. apply existsb_app. Qed.

Lemma mem_rev x a : mem x (rev a) = mem x a.
Proof.
  induction a as [|p a IH]; [reflexivity|].
  cbn [rev]. rewrite mem_app, IH, mem_cons. cbn [mem existsb]. rewrite orb_false_r. apply orb_comm.
Qed.

Lemma mem_if (c : bool) p x : mem x (if c then [p] else []) = c && in_range x p.
Proof. destruct c; [apply orb_false_r|reflexivity]. Qed.

Lemma if_gtb a b : (if a >? b then a else b) = Z.max a b.
Proof. destruct (a >? b) eqn:E; lia. Qed.

Lemma if_ltb a b : (if a <? b then a else b) = Z.min a b.
Proof. destruct (a <? b) eqn:E; lia. Qed.

Lemma wf_mono lb lb' cs : wf_cs lb cs -> lb' <= lb -> wf_cs lb' cs.
Proof. destruct cs as [|[lo hi] t]; cbn; [trivial|]. intros (H1 & H2 & H3) H. splits; try lia; assumption. Qed.

Lemma wf_mem_lt cs : forall lb x, wf_cs lb cs -> x < lb -> mem x cs = false.
Proof.
  induction cs as [|[lo hi] t IH]; intros lb x Hwf Hx; [reflexivity|]. destruct Hwf as (H1 & H2 & H3).
  rewrite mem_cons, (IH (hi + 2) x H3) by lia. zb.
Qed.

Lemma wf_if (c : bool) lb lb' a b t : wf_cs lb' t -> b + 2 <= lb' -> lb <= lb' -> (c = true -> lb <= a <= b) ->
  wf_cs lb ((if c then [(a, b)] else []) ++ t).
Proof.
  intros Ht Hb Hlb Hc. destruct c; cbn [app]; [|eapply wf_mono; eauto].
  cbn. splits; try lia. eapply wf_mono; eauto.
Qed.

Lemma wf_upper cs : forall lb mx, wf_cs lb cs -> (forall x, mem x cs = true -> x <= mx) -> Forall (fun p => snd p <= mx) cs.
Proof.
  induction cs as [|[lo hi] t IH]; intros lb mx Hwf Hub; [constructor|].
  destruct Hwf as (H1 & H2 & H3). constructor.
  - apply Hub. rewrite mem_cons. zb.
  - apply (IH (hi + 2) mx H3). intros x Hx. apply Hub. rewrite mem_cons, Hx. apply orb_true_r.
Qed.

Lemma wf_valid cs : forall lb, wf_cs lb cs -> forall p, In p cs -> lb <= fst p <= snd p.
Proof.
  induction cs as [|[lo hi] t IH]; intros lb W p Hp; [destruct Hp|].
  destruct W as (H1 & H2 & H3). destruct Hp as [<-|Hp]; [cbn [fst snd]; lia|].
  specialize (IH (hi + 2) H3 p Hp). lia.
Qed.

Lemma wf_raise cs lb lb' : wf_cs lb cs -> (forall x, mem x cs = true -> lb' <= x) -> wf_cs lb' cs.
Proof.
  destruct cs as [|[lo hi] t]; [trivial|]. intros (H1 & H2 & H3) Hm.
  split; [|split; assumption]. apply Hm. rewrite mem_cons. zb.
Qed.

Lemma wf_app a : forall lb h b, wf_cs lb a -> (forall x, mem x a = true -> x <= h) -> lb <= h + 2 -> wf_cs (h + 2) b ->
  wf_cs lb (a ++ b).
Proof.
  induction a as [|[lo hi] a IH]; intros lb h b Ha Hh Hlb Hb; cbn [app].
  - eapply wf_mono; eauto.
  - destruct Ha as (H1 & H2 & H3). cbn. splits; try assumption.
    apply IH with (h := h); try assumption.
    + intros x Hx. apply Hh. rewrite mem_cons, Hx. apply orb_true_r.
    + specialize (Hh hi). rewrite mem_cons in Hh. zb.
Qed.

Lemma wf_csb_ok cs : forall lb, wf_csb lb cs = true <-> wf_cs lb cs.
Proof.
  induction cs as [|[lo hi] t IH]; intros lb; cbn; [tauto|].
  rewrite !andb_true_iff, IH, !Z.leb_le. tauto.
Qed.

Lemma invert_loop_mem r : forall next max, wf_cs next r -> Forall (fun p => snd p <= max) r ->
  forall x, mem x (invert_loop next r max) = (next <=? x) && (x <=? max) && negb (mem x r).
Proof.
  induction r as [|[lo hi] t IH]; intros next max Hwf Hmax x; cbn [invert_loop].
  - rewrite mem_if. cbn [mem existsb]. zb.
  - destruct Hwf as (H1 & H2 & H3). inversion Hmax as [|? ? Hm1 Hm2]; subst.
    rewrite mem_app, mem_if, (IH (hi + 1) max), mem_cons by (try assumption; eapply wf_mono; eauto; lia).
    pose proof (wf_mem_lt t (hi + 2) x H3). zb.
Qed.

Lemma invert_loop_wf r : forall next max, wf_cs next r -> wf_cs next (invert_loop next r max).
Proof.
  induction r as [|[lo hi] t IH]; intros next max Hwf; cbn [invert_loop].
  - destruct (next <=? max) eqn:E; cbn; [lia|exact I].
  - destruct Hwf as (H1 & H2 & H3).
    apply wf_if with (lb' := hi + 1); [apply IH; eapply wf_mono; eauto; lia|lia..].
Qed.

Theorem invert_spec : forall cs max, wf_cs 0 cs -> Forall (fun p => snd p <= max) cs ->
  wf_cs 0 (invert cs max) /\
  forall x, mem x (invert cs max) = (0 <=? x) && (x <=? max) && negb (mem x cs).
Proof.
  intros cs max Hwf Hmax. split.
  - apply invert_loop_wf. assumption.
  - intros x. apply invert_loop_mem; assumption.
Qed.

(* sub_one emits the part o of [lo,hi] outside oth, and hands on a rest r of oth that still holds all of oth above hi *)
Lemma sub_one_spec oth : forall lo hi lbo o r, wf_cs lbo oth -> lo <= hi -> sub_one lo hi oth = (o, r) ->
  (forall x, mem x o = in_range x (lo, hi) && negb (mem x oth)) /\
  wf_cs lo o /\ (exists lbr, wf_cs lbr r) /\ (forall x, hi < x -> mem x r = mem x oth).
Proof.
  induction oth as [|[ol oh] t IH]; intros lo hi lbo o r Hwf Hlh Heq; cbn [sub_one] in Heq.
  - inversion Heq; subst. splits; [intros x; cbn [mem existsb]; zb|cbn; lia|exists 0; exact I|reflexivity].
  - pose proof Hwf as (H1 & H2 & H3).
    assert (Ht : forall x, x < oh + 2 -> mem x t = false) by (intros x; apply wf_mem_lt; exact H3).
    destruct (hi <? ol) eqn:E1; [|destruct (oh <? lo) eqn:E2; [|destruct (oh + 1 >? hi) eqn:E3]].
    + inversion Heq; subst. splits; [|cbn; lia|exists lbo; exact Hwf|reflexivity].
      intros x. specialize (Ht x). rewrite !mem_cons. cbn [mem existsb]. zb.
    + destruct (IH lo hi (oh + 2) o r H3 Hlh Heq) as (I1 & I2 & I3 & I4). splits; try assumption.
      * intros x. rewrite I1, mem_cons. zb.
      * intros x Hx. rewrite I4, mem_cons by assumption. zb.
    + inversion Heq; subst. splits; [| |exists lbo; exact Hwf|reflexivity].
      * intros x. specialize (Ht x). rewrite mem_if, mem_cons. zb.
      * rewrite <- app_nil_r. apply wf_if with (lb' := hi + 2); [exact I|lia..].
    + destruct (sub_one (oh + 1) hi t) as [o' r'] eqn:Es. inversion Heq; subst.
      destruct (IH (oh + 1) hi (oh + 2) o' r H3 ltac:(lia) Es) as (I1 & I2 & I3 & I4). splits; try assumption.
      * intros x. specialize (Ht x). rewrite mem_app, mem_if, I1, mem_cons. zb.
      * apply wf_if with (lb' := oh + 1); [exact I2|lia..].
      * intros x Hx. rewrite I4, mem_cons by assumption. zb.
Qed.

Theorem subtract_spec : forall a b lb lbb, wf_cs lb a -> wf_cs lbb b ->
  wf_cs lb (subtract a b) /\ forall x, mem x (subtract a b) = mem x a && negb (mem x b).
Proof.
  induction a as [|[lo hi] t IH]; intros oth lb lbo Hc Ho; cbn [subtract].
  - split; [exact I|reflexivity].
  - destruct Hc as (H1 & H2 & H3).
    destruct (sub_one lo hi oth) as [o r] eqn:Es.
    destruct (sub_one_spec oth lo hi lbo o r Ho H2 Es) as (I1 & I2 & (lbr & I3) & I4).
    destruct (IH r (hi + 2) lbr H3 I3) as (J1 & J2).
    split.
    + eapply wf_mono; [|exact H1]. apply wf_app with (h := hi); try assumption; [|lia].
      intros x. rewrite I1. zb.
    + intros x. rewrite mem_app, I1, J2, mem_cons.
      pose proof (wf_mem_lt t (hi + 2) x H3). pose proof (I4 x). zb.
Qed.

Lemma intersect_loop_spec fuel : forall a b lba lbb, wf_cs lba a -> wf_cs lbb b -> (length a + length b < fuel)%nat ->
  wf_cs (Z.max lba lbb) (intersect_loop fuel a b) /\
  forall x, mem x (intersect_loop fuel a b) = mem x a && mem x b.
Proof.
  induction fuel as [|f IH]; intros a b lba lbb Ha Hb Hf; [lia|].
  cbn [intersect_loop].
  destruct a as [|[alo ahi] ta]; [split; [exact I|reflexivity]|].
  destruct b as [|[blo bhi] tb]; [split; [exact I|intros; rewrite andb_false_r; reflexivity]|].
  pose proof Ha as (A1 & A2 & A3). pose proof Hb as (B1 & B2 & B3). cbn [length] in Hf.
  assert (Ta : forall x, x < ahi + 2 -> mem x ta = false) by (intros x; apply wf_mem_lt; exact A3).
  assert (Tb : forall x, x < bhi + 2 -> mem x tb = false) by (intros x; apply wf_mem_lt; exact B3).
  rewrite if_gtb.
  destruct (ahi <? blo) eqn:E1; [|destruct (bhi <? alo) eqn:E2; [|destruct (bhi <? ahi) eqn:E3]].
  - destruct (IH ta ((blo, bhi) :: tb) (ahi + 2) lbb A3 Hb) as (I1 & I2); [cbn [length]; lia|].
    split; [eapply wf_mono; eauto; lia|].
    intros x. specialize (Tb x). rewrite I2, !mem_cons. zb.
  - destruct (IH ((alo, ahi) :: ta) tb lba (bhi + 2) Ha B3) as (I1 & I2); [cbn [length]; lia|].
    split; [eapply wf_mono; eauto; lia|].
    intros x. specialize (Ta x). rewrite I2, !mem_cons. zb.
  - destruct (IH ((alo, ahi) :: ta) tb lba (bhi + 2) Ha B3) as (I1 & I2); [cbn [length]; lia|].
    split; [apply wf_if with (lb' := Z.max lba (bhi + 2)); [exact I1|lia..]|].
    intros x. specialize (Ta x). specialize (Tb x). rewrite mem_app, mem_if, I2, !mem_cons. zb.
  - destruct (IH ta ((blo, bhi) :: tb) (ahi + 2) lbb A3 Hb) as (I1 & I2); [cbn [length]; lia|].
    split; [apply wf_if with (lb' := Z.max (ahi + 2) lbb); [exact I1|lia..]|].
    intros x. specialize (Ta x). specialize (Tb x). rewrite mem_app, mem_if, I2, !mem_cons. zb.
Qed.

Theorem intersect_spec : forall a b lba lbb, wf_cs lba a -> wf_cs lbb b ->
  wf_cs (Z.max lba lbb) (intersect a b) /\ forall x, mem x (intersect a b) = mem x a && mem x b.
Proof. intros. unfold intersect. apply intersect_loop_spec; auto. Qed.

Definition valid (p : Z * Z) : Prop := fst p <= snd p.

Fixpoint lo_sorted (lb : Z) (l : charset) : Prop :=
  match l with
  | [] => True
  | p :: t => lb <= fst p /\ lo_sorted (fst p) t
  end.

Lemma lo_sorted_mono l : forall lb lb', lo_sorted lb l -> lb' <= lb -> lo_sorted lb' l.
Proof. destruct l as [|p t]; cbn; [trivial|]. intros lb lb' (H1 & H2) H. split; [lia|assumption]. Qed.

Lemma insert_mem x p l : mem x (insert_range p l) = in_range x p || mem x l.
Proof.
  induction l as [|y t IH]; [reflexivity|]. cbn [insert_range].
  destruct (range_lt y p); [|reflexivity].
  rewrite !mem_cons, IH. destruct (in_range x y), (in_range x p); reflexivity.
Qed.

Lemma insert_in q p l : In q (insert_range p l) <-> q = p \/ In q l.
Proof.
  induction l as [|y t IH]; cbn [insert_range].
  - cbn. intuition.
  - destruct (range_lt y p); cbn [In]; [rewrite IH|]; intuition.
Qed.

Lemma insert_sorted p l : forall lb, lo_sorted lb l -> lb <= fst p -> lo_sorted lb (insert_range p l).
Proof.
  induction l as [|y t IH]; intros lb Hs Hp; cbn [insert_range].
  - cbn. auto.
  - cbn in Hs. destruct Hs as (H1 & H2). destruct (range_lt y p) eqn:E; unfold range_lt in E; cbn.
    + split; [assumption|]. apply IH; [assumption|lia].
    + repeat split; try assumption. lia.
Qed.

Lemma sort_mem x l : mem x (sort_ranges l) = mem x l.
Proof. induction l as [|p t IH]; [reflexivity|]. cbn [sort_ranges]. rewrite insert_mem, IH. reflexivity. Qed.

Lemma sort_in q l : In q (sort_ranges l) <-> In q l.
Proof. induction l as [|p t IH]; [tauto|]. cbn [sort_ranges]. rewrite insert_in, IH. cbn. intuition. Qed.

Lemma sort_sorted l : forall lb, (forall p, In p l -> lb <= fst p) -> lo_sorted lb (sort_ranges l).
Proof.
  induction l as [|p t IH]; intros lb H; [exact I|]. cbn [sort_ranges].
  apply insert_sorted; [apply IH; intros q Hq; apply H; right; assumption|apply H; left; reflexivity].
Qed.

Lemma merge_spec rest : forall cur, valid cur -> (forall p, In p rest -> valid p) -> lo_sorted (fst cur) rest ->
  wf_cs (fst cur) (merge_ranges cur rest) /\
  forall x, mem x (merge_ranges cur rest) = in_range x cur || mem x rest.
Proof.
  induction rest as [|[lo hi] t IH]; intros [cl ch] Hc Hv Hs; unfold valid in *; cbn [fst snd] in *.
  - cbn. split; [lia|]. intros x. reflexivity.
  - cbn [merge_ranges fst snd]. cbn in Hs. destruct Hs as (S1 & S2).
    assert (Hlh : lo <= hi) by (apply (Hv (lo, hi)); left; reflexivity).
    assert (Hv' : forall p, In p t -> fst p <= snd p) by (intros p Hp; apply Hv; right; assumption).
    destruct (lo <=? ch + 1) eqn:E.
    + destruct (IH (cl, if hi >=? ch + 1 then hi else ch)) as (I1 & I2); cbn [fst snd]; try assumption.
      * destruct (hi >=? ch + 1); lia.
      * eapply lo_sorted_mono; eauto.
      * split; [assumption|]. intros x. rewrite I2, mem_cons. destruct (hi >=? ch + 1) eqn:E2; zb.
    + destruct (IH (lo, hi)) as (I1 & I2); cbn [fst snd]; try assumption.
      split.
      * cbn. splits; [lia|assumption|]. eapply wf_mono; [exact I1|]. cbn [fst]. lia.
      * intros x. rewrite mem_cons, I2, mem_cons. reflexivity.
Qed.

Theorem new_charset_spec : forall r lb, (forall p, In p r -> lb <= fst p <= snd p) ->
  wf_cs lb (new_charset r) /\ forall x, mem x (new_charset r) = mem x r.
Proof.
  intros r lb H. unfold new_charset.
  pose proof (sort_sorted r lb (fun p Hp => proj1 (H p Hp))) as Hs.
  assert (Hv : forall p, In p (sort_ranges r) -> valid p).
  { intros p Hp. apply (proj1 (sort_in p r)) in Hp. destruct (H p Hp). unfold valid. lia. }
  assert (Hm : forall x, mem x (sort_ranges r) = mem x r) by (intros; apply sort_mem).
  destruct (sort_ranges r) as [|c t]; [split; [exact I|intros x; rewrite <- Hm; reflexivity]|].
  cbn in Hs. destruct Hs as (S1 & S2).
  destruct (merge_spec t c) as (M1 & M2); try assumption.
  - apply Hv. left. reflexivity.
  - intros p Hp. apply Hv. right. assumption.
  - split; [eapply wf_mono; eauto|]. intros x. rewrite M2, <- Hm. reflexivity.
Qed.

Lemma append_range_rev_mem rr lo hi x : lo <= hi -> (forall p, In p rr -> valid p) ->
  mem x (append_range_rev rr lo hi) = mem x rr || in_range x (lo, hi).
Proof.
  intros Hlh Hv. destruct rr as [|[s e] t]; cbn [append_range_rev].
  - cbn [mem existsb]. rewrite orb_false_r. reflexivity.
  - assert (Hse : s <= e) by (apply (Hv (s, e)); left; reflexivity).
    rewrite if_ltb, if_gtb. destruct ((lo <=? e + 1) && (s <=? hi + 1)) eqn:E; rewrite !mem_cons; zb.
Qed.

Lemma append_range_rev_valid rr lo hi : lo <= hi -> (forall p, In p rr -> valid p) ->
  forall p, In p (append_range_rev rr lo hi) -> valid p.
Proof.
  intros Hlh Hv p. destruct rr as [|[s e] t]; cbn [append_range_rev].
  - intros [Hp|[]]; subst; exact Hlh.
  - assert (Hse : s <= e) by (apply (Hv (s, e)); left; reflexivity).
    rewrite if_ltb, if_gtb. destruct ((lo <=? e + 1) && (s <=? hi + 1)).
    + intros [Hp|Hp]; [subst; unfold valid; cbn [fst snd]; lia|apply Hv; right; assumption].
    + intros [Hp|Hp]; [subst; exact Hlh|apply Hv; assumption].
Qed.

Theorem append_range_spec : forall r lo hi x, lo <= hi -> (forall p, In p r -> fst p <= snd p) ->
  mem x (append_range r lo hi) = mem x r || in_range x (lo, hi).
Proof.
  intros r lo hi x Hlh Hv. unfold append_range. rewrite mem_rev, append_range_rev_mem; try assumption.
  - rewrite mem_rev. reflexivity.
  - intros p Hp. apply in_rev in Hp. apply Hv. assumption.
Qed.
