(* Tables.v as every lexer model uses it: lookup_sym returns a listed target; decode_b consumes one byte as itself or a
   non-ASCII sequence; the symbols of a text (DerivSem.symbols) unfold without fuel. *)
From Coq Require Import List ZArith Bool Lia.
From TM Require Import Lex.Tables Lex.Deriv Lex.DerivSem.
Import ListNotations.
Local Open Scope Z_scope.

Lemma lookup_sym_in m r : m <> [] -> exists e, In e m /\ lookup_sym m r = snd e.
Proof.
  induction m as [|[s0 t0] rest IH]; [congruence|]. intros _. cbn [lookup_sym].
  destruct rest as [|[s1 t1] rest'].
  - exists (s0, t0). split; [left; reflexivity|reflexivity].
  - destruct (s1 >? r).
    + exists (s0, t0). split; [left; reflexivity|reflexivity].
    + destruct IH as (e & He & Hl); [congruence|]. exists e. split; [right; assumption|assumption].
Qed.

Lemma lookup_sym_range m lo hi r : m <> [] -> (forall e, In e m -> lo <= snd e < hi) -> lo <= lookup_sym m r < hi.
Proof. intros Hne H. destruct (lookup_sym_in m r Hne) as (e & He & ->). exact (H e He). Qed.

Lemma lookup_sym_last m r d : m <> [] -> (forall e, In e m -> fst e <= r) -> lookup_sym m r = snd (last m d).
Proof.
  induction m as [|[s0 t0] rest IH]; intros Hne Hle; [congruence|].
  cbn [lookup_sym]. destruct rest as [|[s1 t1] rest']; [reflexivity|].
  assert (s1 <= r) by (apply (Hle (s1, t1)); right; left; reflexivity).
  rewrite Z.gtb_ltb, (proj2 (Z.ltb_ge r s1)) by assumption.
  rewrite IH; [reflexivity|discriminate|]. intros e He. apply Hle. right. exact He.
Qed.

Lemma action_start_neg t : action_start t <= -1.
Proof. unfold action_start. lia. Qed.

Lemma decode_rune_ascii b0 r : b0 < 128 -> decode_rune (b0 :: r) = (b0, 1%nat).
Proof. intros H. unfold decode_rune. rewrite (proj2 (Z.ltb_lt b0 128) H). reflexivity. Qed.

Lemma between_ltb lo hi x : (lo <=? x) && (x <? hi) = true -> lo <= x < hi.
Proof. intros H. apply andb_prop in H as [H1 H2]. apply Z.leb_le in H1. apply Z.ltb_lt in H2. lia. Qed.

Lemma cont_spec b : cont b = true -> 128 <= b <= 191.
Proof. unfold cont. intros H. apply andb_prop in H as [H1 H2]. apply Z.leb_le in H1, H2. lia. Qed.

(* a multi-byte or invalid sequence: the rune is not ASCII and at most MaxRune, and no consumed byte is ASCII *)
Lemma decode_rune_multi b0 r : 128 <= b0 -> let d := decode_rune (b0 :: r) in
  (1 <= snd d <= length (b0 :: r))%nat /\ 128 <= fst d <= 1114111 /\ Forall (fun b => 128 <= b) (firstn (snd d) (b0 :: r)).
Proof.
  intros Hb.
  set (P := fun d : Z * nat => (1 <= snd d <= length (b0 :: r))%nat /\ 128 <= fst d <= 1114111 /\
                               Forall (fun b => 128 <= b) (firstn (snd d) (b0 :: r))).
  change (P (decode_rune (b0 :: r))).
  assert (Herr : P (rune_error, 1%nat)).
  { unfold P, rune_error. cbn [fst snd length firstn]. split; [lia|]. split; [lia|]. constructor; [exact Hb|constructor]. }
  unfold decode_rune. cbv zeta.
  destruct (Z.ltb_spec b0 128); [lia|].
  destruct (Z.ltb_spec b0 194); [exact Herr|].
  destruct (Z.ltb_spec b0 224).
  { destruct r as [|b1 r]; [exact Herr|]. destruct (cont b1) eqn:C1; [|exact Herr]. apply cont_spec in C1.
    unfold P. cbn [fst snd length firstn]. split; [lia|]. split; [lia|]. repeat (constructor; [lia|]). constructor. }
  destruct (Z.ltb_spec b0 240).
  { destruct r as [|b1 [|b2 r]]; try exact Herr.
    match goal with |- context [if ?c then _ else _] => destruct c eqn:E end; [|exact Herr].
    apply andb_prop in E as [E C2]. apply andb_prop in E as [L1 L2]. apply cont_spec in C2. apply Z.leb_le in L1, L2.
    (* 0xE0 excludes overlong forms: its next byte is at least 0xA0 *)
    assert (128 <= b1 <= 191 /\ (b0 = 224 -> 160 <= b1)) by (destruct (Z.eqb_spec b0 224), (b0 =? 237); lia). clear L1 L2.
    unfold P. cbn [fst snd length firstn]. split; [lia|]. split; [lia|]. repeat (constructor; [lia|]). constructor. }
  destruct (Z.ltb_spec b0 245); [|exact Herr].
  destruct r as [|b1 [|b2 [|b3 r]]]; try exact Herr.
  match goal with |- context [if ?c then _ else _] => destruct c eqn:E end; [|exact Herr].
  apply andb_prop in E as [E C3]. apply andb_prop in E as [E C2]. apply andb_prop in E as [L1 L2].
  apply cont_spec in C2, C3. apply Z.leb_le in L1, L2.
  (* 0xF0 excludes overlong forms; 0xF4 admits only 0x80..0x8F next, which keeps the rune at most MaxRune *)
  assert (128 <= b1 <= 191 /\ (b0 = 240 -> 144 <= b1) /\ (b0 = 244 -> b1 <= 143))
    by (destruct (Z.eqb_spec b0 240), (Z.eqb_spec b0 244); lia). clear L1 L2.
  unfold P. cbn [fst snd length firstn]. split; [lia|]. split; [lia|]. repeat (constructor; [lia|]). constructor.
Qed.

Lemma decode_b_cases bytes b t : let d := decode_b bytes (b :: t) in
  d = (b, 1%nat) \/
  bytes = false /\ 128 <= b /\ (1 <= snd d <= length (b :: t))%nat /\ 128 <= fst d <= 1114111 /\ Forall (fun x => 128 <= x) (firstn (snd d) (b :: t)).
Proof.
  unfold decode_b. destruct bytes; [left; reflexivity|]. destruct (Z.ltb_spec b 128) as [H|H].
  - left. apply decode_rune_ascii. exact H.
  - right. split; [reflexivity|]. split; [exact H|]. apply decode_rune_multi. exact H.
Qed.

Lemma decode_b_width bytes s : s <> [] -> (1 <= snd (decode_b bytes s) <= length s)%nat.
Proof.
  destruct s as [|b t]; [congruence|]. intros _.
  destruct (decode_b_cases bytes b t) as [->|(_ & _ & W & _)]; [cbn [snd length]; lia|exact W].
Qed.

Lemma decode_rune_width s : s <> [] -> (1 <= snd (decode_rune s) <= length s)%nat.
Proof. exact (decode_b_width false s). Qed.

Lemma decode_width t s : s <> [] -> (1 <= snd (decode t s) <= length s)%nat.
Proof. exact (decode_b_width (scan_bytes t) s). Qed.

Lemma decode_all_fuel bytes : forall f1 f2 text, (length text <= f1)%nat -> (length text <= f2)%nat ->
  decode_all f1 bytes text = decode_all f2 bytes text.
Proof.
  induction f1 as [|f1 IH]; intros f2 text H1 H2.
  - destruct text; [|cbn [length] in H1; lia]. destruct f2; reflexivity.
  - destruct text as [|b r]; [destruct f2; reflexivity|].
    destruct f2 as [|f2]; [cbn [length] in H2; lia|]. cbn [decode_all].
    pose proof (decode_b_width bytes (b :: r) ltac:(discriminate)) as W.
    destruct (decode_b bytes (b :: r)) as [c w]. cbn [snd] in W. f_equal.
    apply IH; rewrite skipn_length; cbn [length] in *; lia.
Qed.

Lemma symbols_cons bytes text : text <> [] ->
  symbols bytes text = decode_b bytes text :: symbols bytes (skipn (snd (decode_b bytes text)) text).
Proof.
  intros Hne. unfold symbols. destruct text as [|b r]; [congruence|]. cbn [length decode_all].
  pose proof (decode_b_width bytes (b :: r) ltac:(discriminate)) as W.
  destruct (decode_b bytes (b :: r)) as [c w]. cbn [snd] in *. f_equal.
  apply decode_all_fuel; rewrite skipn_length; cbn [length] in *; lia.
Qed.

Lemma symbols_ind bytes (P : list Z -> list (Z * nat) -> Prop) :
  P [] [] ->
  (forall text c w, text <> [] -> decode_b bytes text = (c, w) -> (length (skipn w text) < length text)%nat ->
     P (skipn w text) (symbols bytes (skipn w text)) -> P text ((c, w) :: symbols bytes (skipn w text))) ->
  forall text, P text (symbols bytes text).
Proof.
  intros H0 HS text. remember (length text) as n eqn:Hn. revert text Hn.
  induction n as [n IH] using lt_wf_ind. intros text Hn. destruct text as [|b r]; [exact H0|].
  rewrite symbols_cons by discriminate.
  pose proof (decode_b_width bytes (b :: r) ltac:(discriminate)) as W.
  destruct (decode_b bytes (b :: r)) as [c w] eqn:E. cbn [snd] in *.
  assert (Hlt : (length (skipn w (b :: r)) < length (b :: r))%nat) by (rewrite skipn_length; lia).
  apply HS; [discriminate|exact E|exact Hlt|]. apply (IH (length (skipn w (b :: r)))); [lia|reflexivity].
Qed.
