(* C10, clause class_spec, assembly level: every successful parseClass returns class_den of the member ranges and
   subtracted sets it collected, and class_den is the union of the members minus every subtracted set, closed under fold
   orbits when folding, complemented within [0, max] when negated. *)
From Coq Require Import List ZArith Bool Lia.
From TM Require Import Lex.Charset Lex.Charset_proofs Lex.Charset_proofs2 Lex.RegexParse.
Import ListNotations.
Local Open Scope Z_scope.

Section ClassSpec.
  Variable sf : Z -> Z.
  Variable named : list Z -> option (Z * table * table).

  Definition cmax (bytes : bool) : Z := if bytes then 255 else max_rune_u.

  Definition class_base (items : charset) (subs : list charset) : charset :=
    fold_left subtract subs (new_charset items).
  Definition class_den (fold neg bytes : bool) (items : charset) (subs : list charset) : charset :=
    let cs := class_base items subs in
    let cs := if fold then Charset.fold sf 8 cs bytes else cs in
    if neg then invert cs (cmax bytes) else cs.

  Lemma bind_ok {A B} (x : res A) (f : A -> res B) b : bind x f = Ok b -> exists a, x = Ok a /\ f a = Ok b.
  Proof. destruct x as [a|m o e]; cbn [bind]; [eauto|discriminate]. Qed.

  Theorem parse_class_den : forall fuel p0 o p' cs, parse_class sf named fuel p0 o = Ok (p', cs) ->
    exists p1 items subs, next p0 = Ok p1 /\
      cs = class_den (o_fold o) (p_ch p1 =? 94) (o_bytes o) items subs.
  Proof.
    intros fuel p0 o p' cs H. destruct fuel as [|fuel]; [discriminate|].
    cbn [parse_class] in H.
    apply bind_ok in H. destruct H as (p1 & Hn & H). exists p1.
    apply bind_ok in H. destruct H as ((p2 & negated) & Hneg & H).
    apply bind_ok in H. destruct H as ((p3 & r0) & Hr0 & H).
    apply bind_ok in H. destruct H as (((p4 & r) & subs) & Hloop & H).
    apply bind_ok in H. destruct H as (p5 & Hn5 & H). inversion H; subst p' cs. clear H.
    exists (rev r), subs. split; [exact Hn|].
    assert (negated = (p_ch p1 =? 94)) as ->.
    { destruct (p_ch p1 =? 94).
      - apply bind_ok in Hneg. destruct Hneg as (q & _ & E). inversion E; reflexivity.
      - inversion Hneg; reflexivity. }
    unfold class_den, class_base, cs_fold, opt_max, cmax. cbn [o_bytes o_fold]. reflexivity.
  Qed.

  Definition in_base (items : charset) (subs : list charset) (x : Z) : Prop :=
    mem x items = true /\ forall s, In s subs -> mem x s = false.

  Lemma subtract_all_spec subs : forall cs, wf_cs 0 cs -> (forall s, In s subs -> wf_cs 0 s) ->
    wf_cs 0 (fold_left subtract subs cs) /\
    forall x, mem x (fold_left subtract subs cs) = true <-> mem x cs = true /\ forall s, In s subs -> mem x s = false.
  Proof.
    induction subs as [|s subs IH]; intros cs Hwf Hs; cbn [fold_left].
    - split; [exact Hwf|]. intros x. split; [intros H; split; [exact H|intros s []]|intros [H _]; exact H].
    - destruct (subtract_spec cs s 0 0 Hwf (Hs s (or_introl eq_refl))) as (W & M).
      destruct (IH (subtract cs s) W (fun s' Hs' => Hs s' (or_intror Hs'))) as (W' & M').
      split; [exact W'|]. intros x. rewrite M', M, andb_true_iff, negb_true_iff. split.
      + intros ((H1 & H2) & H3). split; [exact H1|]. intros s' [<-|Hin]; [exact H2|exact (H3 s' Hin)].
      + intros (H1 & H2). split; [split; [exact H1|apply H2; left; reflexivity]|]. intros s' Hin. apply H2. right. exact Hin.
  Qed.

  Theorem class_base_spec : forall items subs mx,
    (forall p, In p items -> 0 <= fst p <= snd p /\ snd p <= mx) -> (forall s, In s subs -> wf_cs 0 s) ->
    wf_cs 0 (class_base items subs) /\
    (forall x, mem x (class_base items subs) = true <-> in_base items subs x) /\
    (forall x, mem x (class_base items subs) = true -> 0 <= x <= mx).
  Proof.
    intros items subs mx Hi Hs. unfold class_base, in_base.
    destruct (new_charset_spec items 0 (fun p Hp => proj1 (Hi p Hp))) as (W & M).
    destruct (subtract_all_spec subs _ W Hs) as (W' & M').
    split; [exact W'|]. split; [intros x; rewrite M', M; reflexivity|].
    intros x Hx. split; [pose proof (wf_mem_lt _ 0 x W'); lia|]. apply M' in Hx. destruct Hx as (Hx & _). rewrite M in Hx.
    unfold mem in Hx. apply existsb_exists in Hx. destruct Hx as (p & Hp & Hr). destruct (Hi p Hp) as (_ & Hub). zb.
  Qed.

  Definition in_folded (fold bytes : bool) (items : charset) (subs : list charset) (x : Z) : Prop :=
    in_base items subs x \/
    (fold = true /\ exists c j, in_base items subs c /\ x = Nat.iter j sf c /\ (bytes = false \/ x < 128)).

  (* clause class_spec, assembly: for member ranges within [0, max], subtracted sets in normal form and, when folding,
     fold orbits that close within the bound: the result is in normal form; not negated, x belongs to it iff x is a
     member outside every subtracted set or (folding; in bytes mode below 0x80) on the orbit of one; negated, iff
     0 <= x <= max and not so *)
  Theorem class_den_spec : forall fold neg bytes items subs,
    (forall p, In p items -> 0 <= fst p <= snd p /\ snd p <= cmax bytes) -> (forall s, In s subs -> wf_cs 0 s) ->
    (fold = true -> forall c, in_base items subs c -> closes sf 8 c /\ forall j, 0 <= Nat.iter j sf c /\ (bytes = false -> Nat.iter j sf c <= max_rune_u)) ->
    wf_cs 0 (class_den fold neg bytes items subs) /\
    forall x, mem x (class_den fold neg bytes items subs) = true <->
      if neg then 0 <= x <= cmax bytes /\ ~ in_folded fold bytes items subs x else in_folded fold bytes items subs x.
  Proof.
    intros fold neg bytes items subs Hi Hs Hf.
    destruct (class_base_spec items subs (cmax bytes) Hi Hs) as (W & M & B).
    set (d := if fold then Charset.fold sf 8 (class_base items subs) bytes else class_base items subs).
    assert (Hd : wf_cs 0 d /\ (forall x, mem x d = true <-> in_folded fold bytes items subs x) /\
                 (forall x, mem x d = true -> 0 <= x <= cmax bytes)).
    { subst d. destruct fold.
      - destruct (fold_exact sf 8 (class_base items subs) bytes 0 (wf_valid _ 0 W)) as ((lb' & W') & M').
        { intros c Hc. apply (Hf eq_refl). apply M. exact Hc. }
        assert (Hiff : forall x, mem x (Charset.fold sf 8 (class_base items subs) bytes) = true <-> in_folded true bytes items subs x).
        { intros x. rewrite M'. unfold in_folded. setoid_rewrite M. intuition. }
        assert (Hrange : forall x, mem x (Charset.fold sf 8 (class_base items subs) bytes) = true -> 0 <= x <= cmax bytes).
        { intros x Hx. apply Hiff in Hx. destruct Hx as [Hx|(_ & c & j & Hc & -> & Hb)].
          - apply B. apply M. exact Hx.
          - destruct (Hf eq_refl c Hc) as (_ & Hj). destruct (Hj j) as (H0 & Hmx). split; [exact H0|].
            unfold cmax. destruct bytes; [destruct Hb as [Hb|Hb]; [discriminate|lia]|apply Hmx; reflexivity]. }
        split; [eapply wf_raise; [exact W'|intros x Hx; apply Hrange; exact Hx]|]. split; [exact Hiff|exact Hrange].
      - split; [exact W|]. split; [|exact B]. intros x. rewrite M. unfold in_folded. split; [auto|].
        intros [Hx|(E & _)]; [exact Hx|discriminate]. }
    destruct Hd as (Wd & Md & Bd). unfold class_den. fold d. destruct neg.
    - destruct (invert_spec d (cmax bytes) Wd) as (Wi & Mi).
      { apply (wf_upper d 0 (cmax bytes) Wd). intros x Hx. apply Bd. exact Hx. }
      split; [exact Wi|]. intros x. rewrite Mi, <- Md. lia.
    - split; [exact Wd|exact Md].
  Qed.
End ClassSpec.
