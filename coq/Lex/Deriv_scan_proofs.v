(* C09: spec_scan (Deriv.v) computes the declarative statement scan_spec (DerivSem.v). *)
From Coq Require Import List ZArith Lia.
From TM Require Import Lex.Tables_proofs Lex.Deriv Lex.DerivSem Lex.Deriv_proofs.
Import ListNotations.
Local Open Scope Z_scope.

Lemma in_step_rules c R r' a p : In (r', a, p) (step_rules c R) <-> exists r, In (r, a, p) R /\ r' = deriv c r.
Proof.
  unfold step_rules. rewrite in_map_iff. split.
  - intros (((r, a0), p0) & E & Hin). inversion E; subst. eauto.
  - intros (r & Hin & ->). exists (r, a, p). auto.
Qed.

Lemma nth_step_rules c R idx r' a p : nth_error (step_rules c R) idx = Some (r', a, p) <->
  exists r, nth_error R idx = Some (r, a, p) /\ r' = deriv c r.
Proof.
  unfold step_rules. rewrite nth_error_map. unfold srule in *.
  destruct (nth_error R idx) as [((r, a0), p0)|]; cbn [option_map].
  - split.
    + intros E. inversion E; subst. eexists. split; reflexivity.
    + intros (r0 & E & ->). inversion E; subst. reflexivity.
  - split; [discriminate|]. intros (r0 & E & _). discriminate.
Qed.

Lemma some_rule_step (P Q : rx -> Prop) c R : (forall r, P (deriv c r) <-> Q r) ->
  (some_rule P (step_rules c R) <-> some_rule Q R).
Proof.
  intros H. unfold some_rule. split.
  - intros (r' & a & p & Hin & Hp). apply in_step_rules in Hin. destruct Hin as (r & Hin & ->). exists r, a, p. split; [exact Hin|]. apply H. exact Hp.
  - intros (r & a & p & Hin & Hq). exists (deriv c r), a, p. split; [apply in_step_rules; eauto|]. apply H. exact Hq.
Qed.

Lemma rule_matches_step c R w : rule_matches (step_rules c R) w <-> rule_matches R (c :: w).
Proof. apply some_rule_step. intros r. apply deriv_correct. Qed.

Lemma extendable_step c R w : extendable (step_rules c R) w <-> extendable R (c :: w).
Proof.
  apply some_rule_step. intros r. split; intros (e & H); exists e; [apply deriv_correct in H|apply deriv_correct]; exact H.
Qed.

Lemma winner_step c R w a : winner (step_rules c R) w a -> winner R (c :: w) a.
Proof.
  unfold winner, winner_of. intros (idx & r' & p & Hn & Hm & Hbest).
  apply nth_step_rules in Hn. destruct Hn as (r & Hn & ->). exists idx, r, p. split; [exact Hn|].
  split; [apply deriv_correct; exact Hm|]. intros idx' r1 a1 p1 Hn1 Hm1.
  apply (Hbest idx' (deriv c r1) a1 p1); [apply nth_step_rules; eauto|apply deriv_correct; exact Hm1].
Qed.

Lemma winner_matches R w a : winner R w a -> exists r p, In (r, a, p) R /\ matches r w.
Proof. intros (idx & r & p & Hn & Hr & _). exists r, p. split; [eapply nth_error_In; exact Hn|exact Hr]. Qed.

Lemma viable_extendable R : viable R = true <-> extendable R [].
Proof.
  unfold viable, extendable, some_rule. rewrite existsb_exists. split.
  - intros (((r, a), p) & Hin & Hv). apply nonvoid_correct in Hv. exists r, a, p. auto.
  - intros (r & a & p & Hin & Hv). exists (r, a, p). split; [exact Hin|]. apply nonvoid_correct. exact Hv.
Qed.

Lemma extendable_prefix R u v : extendable R (u ++ v) -> extendable R u.
Proof. intros (r & a & p & Hin & e & H). exists r, a, p. split; [exact Hin|]. exists (v ++ e). rewrite app_assoc. exact H. Qed.

Lemma matches_extendable R u : rule_matches R u -> extendable R u.
Proof. intros (r & a & p & Hin & H). exists r, a, p. split; [exact Hin|]. exists []. rewrite app_nil_r. exact H. Qed.

Lemma not_viable c R w : viable (step_rules c R) = false -> ~ extendable R (c :: w).
Proof.
  intros V H. apply extendable_step, (extendable_prefix _ [] w), viable_extendable in H. congruence.
Qed.

Definition best_inv (pre : list srule) (best : option (Z * Z)) : Prop :=
  match best with
  | None => forall r a p, In (r, a, p) pre -> nullable r = false
  | Some (a, p) => exists idx r, nth_error pre idx = Some (r, a, p) /\ nullable r = true /\
      forall idx' r' a' p', nth_error pre idx' = Some (r', a', p') -> nullable r' = true -> p' < p \/ (p' = p /\ (idx <= idx')%nat)
  end.

Lemma nth_error_snoc {A} (l : list A) x idx y : nth_error (l ++ [x]) idx = Some y ->
  nth_error l idx = Some y \/ (idx = length l /\ y = x).
Proof.
  intros H. destruct (Nat.lt_ge_cases idx (length l)) as [Hlt|Hge].
  - rewrite nth_error_app1 in H by exact Hlt. auto.
  - rewrite nth_error_app2 in H by exact Hge. destruct (idx - length l)%nat as [|n] eqn:E.
    + cbn in H. inversion H. right. split; [lia|reflexivity].
    + cbn in H. destruct n; discriminate.
Qed.

Lemma snoc_nullable (Q : nat -> Z -> Prop) (pre : list srule) r a p :
  (forall idx' r' a' p', nth_error pre idx' = Some (r', a', p') -> nullable r' = true -> Q idx' p') ->
  (nullable r = true -> Q (length pre) p) ->
  forall idx' r' a' p', nth_error (pre ++ [(r, a, p)]) idx' = Some (r', a', p') -> nullable r' = true -> Q idx' p'.
Proof.
  intros H1 H2 idx' r' a' p' Hn Hnl. apply nth_error_snoc in Hn. destruct Hn as [Hn|(-> & E)]; [eapply H1; eassumption|].
  inversion E; subst. exact (H2 Hnl).
Qed.

Lemma best_accept_inv rules : forall pre best, best_inv pre best -> best_inv (pre ++ rules) (best_accept rules best).
Proof.
  induction rules as [|((r, a), p) t IH]; intros pre best H; cbn [best_accept].
  - rewrite app_nil_r. exact H.
  - specialize (IH (pre ++ [(r, a, p)])). rewrite <- app_assoc in IH. cbn [app] in IH. apply IH. clear IH.
    assert (Hnew : nth_error (pre ++ [(r, a, p)]) (length pre) = Some (r, a, p)).
    { rewrite nth_error_app2, Nat.sub_diag by lia. reflexivity. }
    assert (Hold : forall idx y, nth_error pre idx = Some y -> nth_error (pre ++ [(r, a, p)]) idx = Some y /\ (idx < length pre)%nat).
    { intros idx y Hn. assert (idx < length pre)%nat by (apply nth_error_Some; congruence). rewrite nth_error_app1; auto. }
    destruct (nullable r) eqn:En; [destruct best as [(ba, bp)|]|destruct best as [(ba, bp)|]]; cbn [best_inv] in *.
    + destruct H as (idx & r0 & Hn & Hnl & Hbest). destruct (Hold _ _ Hn) as (Hn' & Hlt). destruct (Z.ltb_spec bp p) as [Hp|Hp].
      * exists (length pre), r. split; [exact Hnew|]. split; [exact En|]. apply snoc_nullable; [|lia].
        intros idx' r' a' p' Hn1 Hnl1. destruct (Hbest _ _ _ _ Hn1 Hnl1); lia.
      * exists idx, r0. split; [exact Hn'|]. split; [exact Hnl|]. apply snoc_nullable; [exact Hbest|lia].
    + exists (length pre), r. split; [exact Hnew|]. split; [exact En|]. apply snoc_nullable; [|lia].
      intros idx' r' a' p' Hn1 Hnl1. apply nth_error_In, H in Hn1. congruence.
    + destruct H as (idx & r0 & Hn & Hnl & Hbest). destruct (Hold _ _ Hn) as (Hn' & _).
      exists idx, r0. split; [exact Hn'|]. split; [exact Hnl|]. apply snoc_nullable; [exact Hbest|congruence].
    + intros r' a' p' Hin. apply in_app_or in Hin. destruct Hin as [Hin|[E|[]]]; [eapply H; eassumption|inversion E; subst; exact En].
Qed.

Lemma accept_cases R pos last :
  (exists a, accept_here R pos last = Some (pos, a) /\ winner R [] a) \/
  (accept_here R pos last = last /\ ~ rule_matches R []).
Proof.
  pose proof (best_accept_inv R [] None) as H. cbn [app] in H. unfold accept_here.
  destruct (best_accept R None) as [(a, p)|].
  - left. exists a. split; [reflexivity|]. destruct H as (idx & r & Hn & Hnl & Hbest); [intros ? ? ? []|].
    exists idx, r, p. split; [exact Hn|]. split; [apply nullable_correct; exact Hnl|].
    intros idx' r' a' p' Hn' Hm'. eapply Hbest; [exact Hn'|apply nullable_correct; exact Hm'].
  - right. split; [reflexivity|]. intros (r & a & p & Hin & Hm). apply nullable_correct in Hm.
    rewrite (H ltac:(intros ? ? ? []) r a p Hin) in Hm. discriminate.
Qed.

Lemma word_cons c w t i k : word ((c, w) :: t) (S i) k = c :: word t i k.
Proof. reflexivity. Qed.
Lemma word_0 l k : word l 0 k = repeat eoi_sym k.
Proof. reflexivity. Qed.
Lemma offs_cons c w t i : offs (S i) ((c, w) :: t) = Z.of_nat w + offs i t.
Proof. reflexivity. Qed.
Lemma offs_0 l : offs 0 l = 0.
Proof. reflexivity. Qed.
Lemma offs_nil i : offs i [] = 0.
Proof. destruct i; reflexivity. Qed.

Lemma cand_cons K x t i k : cand K (x :: t) (S i) k <-> cand K t i k.
Proof. unfold cand. cbn [length]. split; intros (H1 & H2 & H3); repeat split; try lia; intros H; specialize (H3 H); lia. Qed.
Lemma cand_cons_0 K x t k : cand K (x :: t) 0 k -> k = 0%nat.
Proof. unfold cand. cbn [length]. intros (H1 & H2 & H3). destruct k; [reflexivity|]. specialize (H3 ltac:(discriminate)). discriminate. Qed.
Lemma cand_00 K l : cand K l 0 0.
Proof. unfold cand. repeat split; try lia. Qed.
Lemma cand_nil K i k : cand K [] i k <-> i = 0%nat /\ (k <= K)%nat.
Proof. unfold cand. cbn [length]. split; [intros (H1 & H2 & H3); lia|intros (-> & H); repeat split; lia]. Qed.

(* no non-empty candidate is matched here and m symbols are the longest extendable prefix: the answer is the rule
   accepting the empty word, else what was remembered, at the end of that prefix *)
Lemma scan_spec_here K R l pos last m :
  (forall i k, cand K l i k -> rule_matches R (word l i k) -> (i + k = 0)%nat) ->
  (m <= length l)%nat -> (m = 0%nat \/ extendable R (word l m 0)) ->
  (forall m', (m' <= length l)%nat -> extendable R (word l m' 0) -> (m' <= m)%nat) ->
  scan_spec K R l pos last (sverdict (accept_here R pos last) (pos + offs m l)).
Proof.
  intros Hno Hm Hext Hmax. destruct (accept_cases R pos last) as [(a & -> & Hw)|(-> & Hn)].
  - left. exists 0%nat, 0%nat, a. split; [apply cand_00|]. split; [cbn [sverdict]; rewrite offs_0, Z.add_0_r; reflexivity|].
    split; [exact Hw|]. intros i' k' Hc' Hm'. rewrite (Hno i' k' Hc' Hm'). lia.
  - right. split; [|exists m; auto].
    intros i k Hc Hm'. pose proof (Hno i k Hc Hm') as Hz. assert (i = 0%nat /\ k = 0%nat) as (-> & ->) by lia. exact (Hn Hm').
Qed.

Lemma scan_spec_stop K R l pos last :
  (forall i k, cand K l i k -> rule_matches R (word l i k) -> (i + k = 0)%nat) ->
  (forall m, (m <= length l)%nat -> extendable R (word l m 0) -> m = 0%nat) ->
  scan_spec K R l pos last (sverdict (accept_here R pos last) pos).
Proof.
  intros Hno Hext. pose proof (scan_spec_here K R l pos last 0 Hno) as H. rewrite offs_0, Z.add_0_r in H.
  apply H; [lia|left; reflexivity|]. intros m' Hm' He. rewrite (Hext m' Hm' He). lia.
Qed.

Lemma scan_spec_shift K R c w t pos last res : viable (step_rules c R) = true ->
  scan_spec K (step_rules c R) t (pos + Z.of_nat w) (accept_here R pos last) res -> scan_spec K R ((c, w) :: t) pos last res.
Proof.
  intros V [(i & k & a & Hc & -> & Hw & Hmax)|(Hnone & m & Hm & -> & Hext & Hmmax)].
  - left. exists (S i), k, a. split; [apply cand_cons; exact Hc|]. split; [rewrite offs_cons; f_equal; lia|].
    split; [rewrite word_cons; apply winner_step; exact Hw|]. intros i' k' Hc' Hm'. destruct i' as [|i'].
    + apply cand_cons_0 in Hc'. lia.
    + apply (proj1 (cand_cons _ _ _ _ _)) in Hc'. rewrite word_cons in Hm'. apply rule_matches_step in Hm'. specialize (Hmax i' k' Hc' Hm'). lia.
  - replace (pos + Z.of_nat w + offs m t) with (pos + offs (S m) ((c, w) :: t)) by (rewrite offs_cons; lia).
    apply scan_spec_here.
    + intros i' k' Hc' Hm'. destruct i' as [|i']; [apply cand_cons_0 in Hc'; lia|]. exfalso.
      apply (proj1 (cand_cons _ _ _ _ _)) in Hc'. rewrite word_cons in Hm'. apply rule_matches_step in Hm'. exact (Hnone i' k' Hc' Hm').
    + cbn [length]. lia.
    + right. rewrite word_cons. apply extendable_step.
      destruct Hext as [->|Hext]; [apply viable_extendable; exact V|exact Hext].
    + intros m' Hm' Hext'. destruct m' as [|m']; [lia|]. cbn [length] in Hm'.
      rewrite word_cons in Hext'. apply extendable_step in Hext'. specialize (Hmmax m' ltac:(lia) Hext'). lia.
Qed.

Lemma scan_spec_shift_eoi K R len last res :
  scan_spec K (step_rules eoi_sym R) [] len (accept_here R len last) res -> scan_spec (S K) R [] len last res.
Proof.
  assert (Hup : forall k, cand (S K) [] 0 (S k) <-> cand K [] 0 k) by (intros k; rewrite !cand_nil; lia).
  intros [(i & k & a & Hc & -> & Hw & Hmax)|(Hnone & m & Hm & -> & _ & _)].
  - pose proof Hc as Hi. apply cand_nil in Hi. destruct Hi as (-> & _).
    left. exists 0%nat, (S k), a. split; [apply Hup; exact Hc|]. split; [reflexivity|].
    split; [apply winner_step in Hw; exact Hw|]. intros i' k' Hc' Hm'.
    pose proof Hc' as Hi. apply cand_nil in Hi. destruct Hi as (-> & _). destruct k' as [|k']; [lia|].
    apply Hup in Hc'. apply rule_matches_step in Hm'. specialize (Hmax 0%nat k' Hc' Hm'). lia.
  - rewrite offs_nil, Z.add_0_r. apply scan_spec_stop; [|cbn [length]; lia].
    intros i' k' Hc' Hm'. pose proof Hc' as Hi. apply cand_nil in Hi. destruct Hi as (-> & _). destruct k' as [|k']; [lia|].
    exfalso. apply Hup in Hc'. apply rule_matches_step in Hm'. exact (Hnone 0%nat k' Hc' Hm').
Qed.

Lemma eoi_spec : forall K R len last, scan_spec K R [] len last (spec_eoi K R len last).
Proof.
  induction K as [|K IH]; intros R len last; cbn [spec_eoi].
  - apply scan_spec_stop; [|cbn [length]; lia]. intros i k Hc _. apply cand_nil in Hc. lia.
  - destruct (viable (step_rules eoi_sym R)) eqn:V; [apply scan_spec_shift_eoi, IH|].
    apply scan_spec_stop; [|cbn [length]; lia]. intros i k Hc Hm. apply cand_nil in Hc. destruct Hc as (-> & _).
    destruct k as [|k]; [lia|]. exfalso. exact (not_viable _ _ _ V (matches_extendable _ _ Hm)).
Qed.

Fixpoint run (K : nat) (rules : list srule) (pos : Z) (last : option (Z * Z)) (l : list (Z * nat)) : Z * Z :=
  match l with
  | [] => spec_eoi K rules pos last
  | (c, w) :: t =>
      let last' := accept_here rules pos last in
      let rules' := step_rules c rules in
      if viable rules' then run K rules' (pos + Z.of_nat w) last' t else sverdict last' pos
  end.

Lemma run_spec K : forall l R pos last, scan_spec K R l pos last (run K R pos last l).
Proof.
  induction l as [|(c, w) t IH]; intros R pos last; [apply eoi_spec|]. cbn [run]. cbv zeta.
  destruct (viable (step_rules c R)) eqn:V; [apply scan_spec_shift; [exact V|apply IH]|].
  apply scan_spec_stop.
  - intros i k Hc Hm. destruct i as [|i]; [apply cand_cons_0 in Hc; lia|]. exfalso.
    rewrite word_cons in Hm. exact (not_viable _ _ _ V (matches_extendable _ _ Hm)).
  - intros m _ He. destruct m as [|m]; [reflexivity|]. exfalso. rewrite word_cons in He. exact (not_viable _ _ _ V He).
Qed.

Lemma spec_text_run bytes text : forall f R pos last, (length text < f)%nat ->
  spec_text f bytes R pos last text = run 4 R pos last (symbols bytes text).
Proof.
  pattern text, (symbols bytes text). apply symbols_ind; clear text.
  - intros f R pos last Hf. destruct f; [lia|]. reflexivity.
  - intros text c w Hne Hd Hlt IH f R pos last Hf. destruct f; [lia|]. destruct text as [|b r]; [congruence|].
    cbn [spec_text run]. rewrite Hd. cbv zeta. destruct (viable (step_rules c R)); [|reflexivity]. apply IH. lia.
Qed.

Theorem spec_scan_correct bytes rules text :
  scan_spec 4 rules (symbols bytes text) 0 None (spec_scan bytes rules text).
Proof. unfold spec_scan. rewrite spec_text_run by lia. apply run_spec. Qed.

Lemma symbols_total bytes text :
  offs (length (symbols bytes text)) (symbols bytes text) = Z.of_nat (length text).
Proof.
  pattern text, (symbols bytes text). apply symbols_ind; clear text; [reflexivity|].
  intros text c w Hne Hd Hlt IH. cbn [length]. rewrite offs_cons, IH, skipn_length.
  pose proof (decode_b_width bytes text Hne) as W. rewrite Hd in W. cbn [snd] in W. lia.
Qed.
