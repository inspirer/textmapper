(* C09, Tier 2: if Bisim.closed_check accepts a set of pairs (state, rule vector), the reference run of the tables equals
   the derivative-based specification on every text.  req is a congruence for step / best / viable; rel is a simulation. *)
From Coq Require Import List ZArith Bool Lia.
From TM Require Import Lib.ListX Lex.Tables Lex.Tables_proofs Lex.Charset Lex.Scan Lex.Deriv Lex.DerivSem Lex.Deriv_proofs Lex.Deriv_scan_proofs Lex.LexerMaps_proofs Lex.Bisim.
Import ListNotations.
Local Open Scope Z_scope.

Lemma cs_eqb_eq a : forall b, cs_eqb a b = true -> a = b.
Proof.
  induction a as [|[x y] ta IH]; destruct b as [|[x' y'] tb]; cbn [cs_eqb]; try discriminate; [reflexivity|].
  intros H. apply andb_true_iff in H. destruct H as [H H3]. apply andb_true_iff in H. destruct H as [H1 H2].
  apply Z.eqb_eq in H1, H2. subst. f_equal. apply IH. exact H3.
Qed.

Lemma rx_eqb_eq a : forall b, rx_eqb a b = true -> a = b.
Proof.
  induction a as [| |cs|a1 IH1 a2 IH2|a1 IH1 a2 IH2|mn mx s IH]; destruct b; cbn [rx_eqb]; try discriminate; intros H.
  - reflexivity.
  - reflexivity.
  - f_equal. apply cs_eqb_eq. exact H.
  - apply andb_true_iff in H. destruct H as [H1 H2]. f_equal; [apply IH1|apply IH2]; assumption.
  - apply andb_true_iff in H. destruct H as [H1 H2]. f_equal; [apply IH1|apply IH2]; assumption.
  - apply andb_true_iff in H. destruct H as [H H3]. apply andb_true_iff in H. destruct H as [H1 H2].
    apply Z.eqb_eq in H1, H2. subst. f_equal. apply IH. exact H3.
Qed.

Lemma rules_eqb_eq a : forall b, rules_eqb a b = true -> a = b.
Proof.
  induction a as [|[[r x] p] ta IH]; destruct b as [|[[r' x'] p'] tb]; cbn [rules_eqb]; try discriminate; [reflexivity|].
  intros H. apply andb_true_iff in H. destruct H as [H H4]. apply andb_true_iff in H. destruct H as [H H3].
  apply andb_true_iff in H. destruct H as [H1 H2]. apply rx_eqb_eq in H1. apply Z.eqb_eq in H2, H3. subst. f_equal. apply IH. exact H4.
Qed.

Lemma lang_mk_alt l w : lang (mk_alt l) w <-> exists x, In x l /\ lang x w.
Proof.
  induction l as [|y t IH]; unfold mk_alt; cbn [fold_right].
  - cbn [lang]. split; [contradiction|]. intros (x & [] & _).
  - rewrite lang_alt. cbn [lang]. fold (mk_alt t). rewrite IH. split.
    + intros [H|(x & Hin & H)]; [exists y; split; [left; reflexivity|exact H]|exists x; split; [right; exact Hin|exact H]].
    + intros (x & [<-|Hin] & H); [left; exact H|right; exists x; auto].
Qed.

Lemma lang_alts r w : (exists x, In x (alts r) /\ lang x w) <-> lang r w.
Proof.
  induction r as [| |cs|a IHa b IHb|a IHa b IHb|mn mx s IHs]; cbn [alts];
    try (split; [intros (x & [<-|[]] & H); exact H|intros H; eexists; split; [left; reflexivity|exact H]]).
  - split; [intros (x & [] & _)|intros []].
  - cbn [lang]. rewrite <- IHa, <- IHb. split.
    + intros (x & Hin & H). apply in_app_or in Hin. destruct Hin as [Hin|Hin]; [left|right]; exists x; auto.
    + intros [(x & Hin & H)|(x & Hin & H)]; exists x; (split; [apply in_or_app; auto|exact H]).
Qed.

Lemma in_dedupe x l : In x (dedupe l) <-> In x l.
Proof.
  induction l as [|y t IH]; [reflexivity|]. cbn [dedupe]. destruct (existsb (rx_eqb y) t) eqn:E.
  - rewrite IH. split; [right; assumption|]. intros [<-|H]; [|exact H].
    apply existsb_exists in E. destruct E as (z & Hz & Ez). apply rx_eqb_eq in Ez. subst. exact Hz.
  - cbn [In]. rewrite IH. reflexivity.
Qed.

Lemma norm_lang r : forall w, lang (norm r) w <-> lang r w.
Proof.
  induction r as [| |cs|a IHa b IHb|a IHa b IHb|mn mx s IHs]; intros w; cbn [norm]; try reflexivity.
  - rewrite lang_cat. cbn [lang]. split; intros (u & v & E & Hu & Hv); exists u, v; (split; [exact E|]); (split; [apply IHa; exact Hu|exact Hv]).
  - rewrite lang_mk_alt. cbn [lang]. rewrite <- (IHa w), <- (IHb w), <- (lang_alts (norm a) w), <- (lang_alts (norm b) w). split.
    + intros (x & Hin & H). apply (proj1 (in_dedupe _ _)) in Hin. apply in_app_or in Hin. destruct Hin as [Hin|Hin]; [left|right]; exists x; auto.
    + intros [(x & Hin & H)|(x & Hin & H)]; exists x; (split; [apply (proj2 (in_dedupe _ _)); apply in_or_app; auto|exact H]).
Qed.

(* rule vectors equal up to the language of each rule, with the same actions and precedences; stepping, the best
   accepting rule and viability respect it (req_step, req_best, req_viable) *)
Definition req1 (x y : srule) : Prop :=
  snd (fst x) = snd (fst y) /\ snd x = snd y /\ forall w, lang (fst (fst x)) w <-> lang (fst (fst y)) w.
Definition req : list srule -> list srule -> Prop := Forall2 req1.

Lemma req_trans a b c : req a b -> req b c -> req a c.
Proof.
  intros H1. revert c. induction H1 as [|x y ta tb Hxy _ IH]; intros c H2.
  - inversion H2. constructor.
  - inversion H2 as [|y' z tb' tc Hyz Ht]; subst. constructor; [|apply IH; exact Ht].
    destruct Hxy as (A1 & P1 & L1). destruct Hyz as (A2 & P2 & L2). repeat split; try congruence.
    + intros H. apply L2, L1, H.
    + intros H. apply L1, L2, H.
Qed.

Lemma req_norm vec : req vec (norm_rules vec).
Proof.
  induction vec as [|[[r a] p] t IH]; cbn [norm_rules map]; constructor; [|exact IH].
  repeat split; cbn [fst snd]; intros H; apply norm_lang; exact H.
Qed.

Lemma req_step c rs vec : req rs vec -> req (step_rules c rs) (step_rules c vec).
Proof.
  induction 1 as [|[[r a] p] [[r' a'] p'] rs vec (A & P & L) _ IH]; unfold step_rules; cbn [map]; constructor; [|exact IH].
  cbn [fst snd] in *. subst. repeat split; cbn [fst snd]; intros H; apply deriv_lang; apply deriv_lang in H; apply L; exact H.
Qed.

Lemma req_best rs vec : req rs vec -> forall best, best_accept rs best = best_accept vec best.
Proof.
  induction 1 as [|[[r a] p] [[r' a'] p'] rs vec (A & P & L) _ IH]; intros best; [reflexivity|].
  cbn [best_accept]. cbn [fst snd] in *. subst.
  assert (E : nullable r = nullable r') by (apply Bool.eq_true_iff_eq; rewrite !nullable_lang; apply L). rewrite E. apply IH.
Qed.

Lemma req_viable rs vec : req rs vec -> viable rs = viable vec.
Proof.
  unfold viable. induction 1 as [|[[r a] p] [[r' a'] p'] rs vec (A & P & L) _ IH]; [reflexivity|].
  cbn [existsb]. cbn [fst snd] in *. rewrite IH. f_equal. apply Bool.eq_true_iff_eq. rewrite !nonvoid_lang.
  split; intros (w & H); exists w; apply L; exact H.
Qed.

Lemma uniform_cs_mem lo hi cs c : uniform_cs lo hi cs = true -> lo <= c <= hi -> mem c cs = mem lo cs.
Proof.
  unfold uniform_cs. intros H Hc. apply orb_true_iff in H. destruct H as [H|H].
  - apply existsb_exists in H. destruct H as (p & Hin & Hp). apply andb_true_iff in Hp. destruct Hp as [H1 H2].
    apply Z.leb_le in H1, H2.
    assert (E1 : mem c cs = true) by (apply existsb_exists; exists p; split; [exact Hin|unfold in_range; apply andb_true_iff; split; apply Z.leb_le; lia]).
    assert (E2 : mem lo cs = true) by (apply existsb_exists; exists p; split; [exact Hin|unfold in_range; apply andb_true_iff; split; apply Z.leb_le; lia]).
    rewrite E1, E2. reflexivity.
  - assert (E : forall x, lo <= x <= hi -> mem x cs = false).
    { intros x Hx. destruct (mem x cs) eqn:Em; [|reflexivity]. apply existsb_exists in Em. destruct Em as (p & Hin & Hp).
      rewrite forallb_forall in H. specialize (H p Hin). unfold in_range in Hp. apply andb_true_iff in Hp. destruct Hp as [H1 H2].
      apply Z.leb_le in H1, H2. apply orb_true_iff in H. destruct H as [H|H]; apply Z.ltb_lt in H; lia. }
    rewrite (E c Hc), (E lo ltac:(lia)). reflexivity.
Qed.

Lemma uniform_deriv lo hi c r : uniform_rx lo hi r = true -> lo <= c <= hi -> deriv c r = deriv lo r.
Proof.
  intros H Hc. induction r as [| |cs|a IHa b IHb|a IHa b IHb|mn mx s IHs]; cbn [deriv uniform_rx] in *; try reflexivity.
  - rewrite (uniform_cs_mem lo hi cs c H Hc). reflexivity.
  - apply andb_true_iff in H. destruct H as [H1 H2]. rewrite (IHa H1), (IHb H2). reflexivity.
  - apply andb_true_iff in H. destruct H as [H1 H2]. rewrite (IHa H1), (IHb H2). reflexivity.
  - rewrite (IHs H). reflexivity.
Qed.

Lemma uniform_step lo hi c vec : forallb (fun '(r, _, _) => uniform_rx lo hi r) vec = true -> lo <= c <= hi ->
  step_rules c vec = step_rules lo vec.
Proof.
  intros H Hc. induction vec as [|[[r a] p] t IH]; [reflexivity|]. cbn [forallb] in H. apply andb_true_iff in H. destruct H as [H1 H2].
  unfold step_rules in *. cbn [map]. rewrite (uniform_deriv lo hi c r H1 Hc), (IH H2). reflexivity.
Qed.

Lemma sorted_fromb_ok m : forall p, sorted_fromb p m = true -> sorted_from p m.
Proof.
  induction m as [|[s t] rest IH]; intros p H; [exact I|]. cbn [sorted_fromb] in H. apply andb_true_iff in H. destruct H as [H1 H2].
  apply Z.ltb_lt in H1. cbn [sorted_from]. split; [exact H1|apply IH; exact H2].
Qed.

Lemma ivs_lookup mx rest : forall s0 t0 c, sorted_from s0 rest -> s0 <= c <= mx ->
  exists lo hi tg, In (lo, hi, tg) (ivs mx ((s0, t0) :: rest)) /\ lo <= c <= hi /\ lookup_sym ((s0, t0) :: rest) c = tg.
Proof.
  induction rest as [|[s1 t1] rest IH]; intros s0 t0 c Hs Hc.
  - exists s0, mx, t0. split; [left; reflexivity|]. split; [lia|reflexivity].
  - cbn [sorted_from] in Hs. destruct Hs as [H1 H2].
    change (ivs mx ((s0, t0) :: (s1, t1) :: rest)) with ((s0, (if s1 - 1 <? mx then s1 - 1 else mx), t0) :: ivs mx ((s1, t1) :: rest)).
    change (lookup_sym ((s0, t0) :: (s1, t1) :: rest) c) with (if s1 >? c then t0 else lookup_sym ((s1, t1) :: rest) c).
    rewrite Z.gtb_ltb. destruct (Z.ltb_spec c s1) as [Hlt|Hge].
    + exists s0, (if s1 - 1 <? mx then s1 - 1 else mx), t0. split; [left; reflexivity|]. split; [destruct (Z.ltb_spec (s1 - 1) mx); lia|reflexivity].
    + destruct (IH s1 t1 c H2 ltac:(lia)) as (lo & hi & tg & Hin & Hr & Hl). exists lo, hi, tg. split; [right; exact Hin|]. split; assumption.
Qed.

Definition bytes_ok (text : list Z) : Prop := Forall (fun b => 0 <= b <= 255) text.

Lemma decode_b_range bytes text : text <> [] -> bytes_ok text -> 0 <= fst (decode_b bytes text) <= max_sym bytes.
Proof.
  intros Hne HF. destruct text as [|b0 r]; [congruence|]. inversion HF as [|? ? Hb0 _]; subst.
  destruct (decode_b_cases bytes b0 r) as [->|(-> & _ & _ & Hc & _)]; cbn [fst]; unfold max_sym; [destruct bytes|]; lia.
Qed.

Lemma best_accept_in vec a p : best_accept vec None = Some (a, p) -> exists r, In (r, a, p) vec.
Proof.
  intros E. pose proof (best_accept_inv vec [] None) as H. cbn [app] in H. rewrite E in H.
  destruct H as (idx & r & Hn & _); [intros ? ? ? []|]. exists r. eapply nth_error_In. exact Hn.
Qed.

Lemma req_actions rs vec : req rs vec -> actions_nonzero vec = true -> actions_nonzero rs = true.
Proof.
  unfold actions_nonzero. induction 1 as [|[[r a] p] [[r' a'] p'] rs vec (A & P & L) _ IH]; [reflexivity|].
  cbn [forallb fst snd] in *. subst. intros H. apply andb_true_iff in H. destruct H as [H1 H2]. rewrite H1, (IH H2). reflexivity.
Qed.

Lemma local_agree t s vec rs pos last : local_ok t s vec = true -> req rs vec -> upd t s pos last = accept_here rs pos last.
Proof.
  unfold local_ok, accept_act, upd, accept_here. intros H Hr. apply andb_true_iff in H. destruct H as [Hl Hnz]. apply Z.eqb_eq in Hl.
  rewrite (req_best rs vec Hr None). destruct (best_accept vec None) as [[a p]|] eqn:E.
  - destruct (best_accept_in vec a p E) as (r & Hin). unfold actions_nonzero in Hnz. rewrite forallb_forall in Hnz.
    specialize (Hnz _ Hin). cbn in Hnz. rewrite Hl. destruct (a =? 0); [discriminate|reflexivity].
  - rewrite Hl. reflexivity.
Qed.

Lemma eoi_sound t : forall k s vec rs fuel K len last, eoi_chk k t s vec = true -> req rs vec -> (k < fuel)%nat -> (k <= K)%nat ->
  ref_eoi fuel t s len last = spec_eoi K rs len last.
Proof.
  induction k as [|k IH]; intros s vec rs fuel K len last H Hr Hf HK; (destruct fuel as [|fuel]; [lia|]);
    cbn [eoi_chk] in H; apply andb_true_iff in H; destruct H as [Hl H]; cbn [ref_eoi]; rewrite (local_agree t s vec rs len last Hl Hr).
  - destruct (move t s 0) as [s'|].
    + apply andb_true_iff in H. destruct H as [_ H]. discriminate.
    + apply negb_true_iff in H. rewrite <- (req_viable _ _ (req_step eoi_sym rs vec Hr)) in H.
      destruct K as [|K]; cbn [spec_eoi]; [reflexivity|]. rewrite H. reflexivity.
  - destruct (move t s 0) as [s'|].
    + apply andb_true_iff in H. destruct H as [Hv H]. rewrite <- (req_viable _ _ (req_step eoi_sym rs vec Hr)) in Hv.
      destruct K as [|K]; [lia|]. cbn [spec_eoi]. rewrite Hv.
      apply (IH s' (step_rules eoi_sym vec)); [exact H|apply req_step; exact Hr|lia|lia].
    + apply negb_true_iff in H. rewrite <- (req_viable _ _ (req_step eoi_sym rs vec Hr)) in H.
      destruct K as [|K]; cbn [spec_eoi]; [reflexivity|]. rewrite H. reflexivity.
Qed.

Section Sim.
  Variable t : tables.
  Variable seen : list pair.
  Hypothesis Hclosed : closed_check t seen = true.

  (* the simulation: a state of the tables against any rule vector req-equal to one paired with it in the set *)
  Definition rel (s : Z) (rs : list srule) : Prop := exists vec, In (s, vec) seen /\ req rs vec.

  Lemma in_seen_In p : in_seen p seen = true -> In p seen.
  Proof.
    unfold in_seen. intros H. apply existsb_exists in H. destruct H as (q & Hin & Hq). unfold pair_eqb in Hq.
    apply andb_true_iff in Hq. destruct Hq as [H1 H2]. apply Z.eqb_eq in H1. apply rules_eqb_eq in H2.
    destruct p, q. cbn [fst snd] in *. subst. exact Hin.
  Qed.

  (* what the checker establishes for a pair of the set: labels agree, the joint end-of-input run agrees, and on every
     symbol a text can contain the tables move iff the vector stays viable, to a pair of the set *)
  Lemma closed_check_pair s vec : In (s, vec) seen ->
    local_ok t s vec = true /\ eoi_chk (eoi_depth t) t s vec = true /\
    forall c, 0 <= c <= max_sym (scan_bytes t) ->
      match move t s (lookup_sym (symbol_map t) c) with
      | Some s' => viable (step_rules c vec) = true /\ In (s', norm_rules (step_rules c vec)) seen
      | None => viable (step_rules c vec) = false
      end.
  Proof.
    intros Hin. unfold closed_check in Hclosed. apply andb_prop in Hclosed as [Hsm Hall]. rewrite forallb_forall in Hall.
    specialize (Hall _ Hin). cbn [pair_ok] in Hall. apply andb_prop in Hall as [Hall Htr]. apply andb_prop in Hall as [Hl He].
    split; [exact Hl|]. split; [exact He|]. intros c Hc.
    destruct (symbol_map t) as [|[s0 t0] rest]; [discriminate|]. cbn [sorted_mapb] in Hsm.
    apply andb_prop in Hsm as [H0 Hs]. apply Z.eqb_eq in H0. subst s0. apply sorted_fromb_ok in Hs.
    destruct (ivs_lookup (max_sym (scan_bytes t)) rest 0 t0 c Hs Hc) as (lo & hi & tg & Hiv & Hlh & ->).
    rewrite forallb_forall in Htr. specialize (Htr _ Hiv). cbn [trans_ok] in Htr.
    apply orb_prop in Htr as [Htr|Htr]; [apply Z.ltb_lt in Htr; lia|]. apply andb_prop in Htr as [Hu Htr].
    (* the vector steps alike on the whole interval of c, so its low end stands for c *)
    rewrite (uniform_step lo hi c vec Hu Hlh). destruct (move t s tg) as [s'|].
    - apply andb_prop in Htr as [Hv Hs']. split; [exact Hv|apply in_seen_In; exact Hs'].
    - apply negb_true_iff, Htr.
  Qed.

  Lemma sim : forall fuel text s rs pos last, rel s rs -> bytes_ok text ->
    ref_text t fuel s pos last text = spec_text fuel (scan_bytes t) rs pos last text.
  Proof.
    induction fuel as [|fuel IH]; intros text s rs pos last (vec & Hin & Hr) Hb; [reflexivity|].
    destruct (closed_check_pair s vec Hin) as (Hl & He & Htr).
    cbn [ref_text spec_text]. destruct text as [|b tl].
    - apply (eoi_sound t (eoi_depth t) s vec); [exact He|exact Hr|unfold eoi_depth; lia|unfold eoi_depth; lia].
    - rewrite (local_agree t s vec rs pos last Hl Hr).
      change (decode t (b :: tl)) with (decode_b (scan_bytes t) (b :: tl)).
      pose proof (decode_b_range (scan_bytes t) (b :: tl) ltac:(discriminate) Hb) as Hc.
      destruct (decode_b (scan_bytes t) (b :: tl)) as [c w]. cbn [fst] in Hc. specialize (Htr c Hc).
      pose proof (req_step c rs vec Hr) as Hr'. rewrite (req_viable _ _ Hr').
      destruct (move t s (lookup_sym (symbol_map t) c)) as [s'|]; [|rewrite Htr; reflexivity].
      destruct Htr as (Hv & Hs'). rewrite Hv. apply IH; [|apply Forall_skipn'; exact Hb].
      exists (norm_rules (step_rules c vec)). split; [exact Hs'|]. eapply req_trans; [exact Hr'|apply req_norm].
  Qed.
End Sim.

Theorem bisim_cert_sound t rules sc seen : bisim_cert t rules sc seen = true ->
  forall text, bytes_ok text -> longest_accept t sc text = spec_scan (scan_bytes t) rules text.
Proof.
  unfold bisim_cert. intros H text Hb. apply andb_true_iff in H. destruct H as [Hc Hs].
  unfold longest_accept, spec_scan. apply (sim t seen Hc); [|exact Hb].
  exists (norm_rules rules). split; [apply (in_seen_In seen); exact Hs|apply req_norm].
Qed.

Theorem check_bisim_sound cap t rules sc : check_bisim cap t rules sc = 0 ->
  forall text, bytes_ok text -> longest_accept t sc text = spec_scan (scan_bytes t) rules text.
Proof.
  unfold check_bisim. intros H. destruct (explore (cap * 128) cap t _ []) as [seen|] eqn:E; [|discriminate].
  destruct (closed_check t seen && in_seen (nthZ (state_map t) sc, norm_rules rules) seen) eqn:Ec.
  - apply (bisim_cert_sound t rules sc seen). exact Ec.
  - exfalso. unfold diagnose in H. repeat match type of H with (if ?c then _ else _) = _ => destruct c end; discriminate.
Qed.
